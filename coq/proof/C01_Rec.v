(* C01/C02 proofs, the range layer: every generated range is below the stored window; the ranges generated while their
   member owned the leader record (legit: only these are granted) are ordered by generation instant, and the owner's
   memory, a pending Initialize target and the target of a reset in flight lie above all of them. *)
From Coq Require Import ZArith List Bool Lia.
From PDV Require Import lib.Base gen.Gen_C01 model.C01_Tso proof.C01_Step proof.C01_Ctl proof.C01_Win.
Import ListNotations.
Local Open Scope Z_scope.

(* (P1, L1) <= (P2, L2) lexicographically *)
Definition le_pl (P1 L1 P2 L2 : Z) : Prop := P1 < P2 \/ (P1 = P2 /\ L1 <= L2).
Definition lt_pl (P1 L1 P2 L2 : Z) : Prop := P1 < P2 \/ (P1 = P2 /\ L1 < L2).

(* the whole range of r1 lies below the whole range of r2:  hi r1 < lo r2,  lo r = gL r - gcount r + 1 *)
Definition below (r1 r2 : rec) : Prop := le_pl (gP r1) (gL r1) (gP r2) (gL r2 - gcount r2).

Fixpoint ordered (l : list rec) : Prop :=
  match l with
  | [] => True
  | r2 :: b => (glegit r2 = true -> forall r1, In r1 b -> glegit r1 = true -> below r1 r2) /\ ordered b
  end.

Fixpoint tb_sorted (l : list rec) : Prop :=
  match l with
  | [] => True
  | r2 :: b => (forall r1, In r1 b -> (gtb r1 < gtb r2)%nat) /\ tb_sorted b
  end.

Definition ur_args (u : ur_st) : option (Z * Z) :=
  match u with RIdle => None | RChecked p l | RDeciding p l | RSaved p l => Some (p, l) end.

Record Rinv (s : state) : Prop := {
  r_e1  : forall r, In r (recs s) -> exists w, W s = Some w /\ gP r * ns_per_ms < w;
  r_e4  : forall r, In r (recs s) -> is_pending r = true -> owner s = Some (gm r) -> glegit r = true;
  r_g   : forall r te, In r (recs s) -> gst r = Granted te -> glegit r = true;
  r_e5  : forall m p, owner s = Some m -> phys (mems s m) = Some p ->
            forall r, In r (recs s) -> glegit r = true -> le_pl (gP r) (gL r) (ms p) (logical (mems s m));
  r_e5s : forall m n, owner s = Some m -> syn (mems s m) = SPendSet n ->
            forall r, In r (recs s) -> glegit r = true -> gP r < ms n;
  r_ur  : forall m up ul, ur_args (ur (mems s m)) = Some (up, ul) ->
            exists p, phys (mems s m) = Some p /\ lt_pl (ms p) (logical (mems s m)) (ms up) ul /\ 0 <= ul;
  r_log : forall m, 0 <= logical (mems s m);
  r_ord : ordered (recs s);
  r_cnt : forall r, In r (recs s) -> 0 < gcount r <= gL r;
  r_tb  : forall r, In r (recs s) -> (gtb r < clock s)%nat;
  r_te  : forall r te, In r (recs s) -> gst r = Granted te -> (gtb r < te)%nat /\ (te < clock s)%nat;
  r_srt : tb_sorted (recs s)
}.

Lemma rinv_init iv gap : Rinv (init iv gap).
Proof. constructor; cbn; intros; try contradiction; try discriminate; auto; lia. Qed.

Definition bump (s : state) : state :=
  State (W s) (owner s) (mems s) (recs s) (S (clock s)) (interval s) (gap_ms s).

Lemma nspm_pos : 0 < ns_per_ms. Proof. reflexivity. Qed.
Lemma ms_mul x : ms (x * ns_per_ms) = x.
Proof. unfold ms. apply Z.div_mul. unfold ns_per_ms; lia. Qed.
Lemma ms_le p : ms p * ns_per_ms <= p.
Proof. unfold ms. rewrite Z.mul_comm. apply Z.mul_div_le. exact nspm_pos. Qed.
Lemma ms_mono a b : a <= b -> ms a <= ms b.
Proof. unfold ms. intros. apply Z.div_le_mono; [exact nspm_pos|assumption]. Qed.
Lemma ms_lower q a : q * ns_per_ms <= a -> q <= ms a.
Proof. unfold ms. intros. apply Z.div_le_lower_bound; [exact nspm_pos|lia]. Qed.

Lemma in_set_nth l i st r' :
  In r' (set_nth l i st) -> In r' l \/ exists r, nth_error l i = Some r /\ r' = set_status r st.
Proof.
  revert i; induction l as [|r0 t IH]; intros i; destruct i; cbn; try tauto.
  - intros [<-|H]; [right; eauto|left; auto].
  - intros [<-|H]; [left; auto|]. destruct (IH _ H) as [H1|H1]; [left; auto|right; exact H1].
Qed.

Lemma in_set_nth_strip l i st r' :
  In r' (set_nth l i st) -> exists r, In r l /\ gm r' = gm r /\ gP r' = gP r /\ gL r' = gL r /\ gcount r' = gcount r /\
                                      gtb r' = gtb r /\ glegit r' = glegit r /\ (gst r' = gst r \/ gst r' = st).
Proof.
  intros H. destruct (in_set_nth _ _ _ _ H) as [H1|(r & Hn & ->)].
  - exists r'. repeat split; auto.
  - exists r. split; [eapply nth_error_In; eauto|]. cbn. repeat split; auto.
Qed.

Lemma ordered_set_nth l i st : ordered l -> ordered (set_nth l i st).
Proof.
  revert i; induction l as [|r0 t IH]; intros i; destruct i; cbn; auto.
  - intros [H1 H2]. split; [|apply IH; exact H2].
    intros Hl r1 Hr1 Hl1. destruct (in_set_nth_strip _ _ _ _ Hr1) as (r & Hr & _ & EP & EL & _ & _ & ELg & _).
    unfold below. rewrite EP, EL. apply H1; auto. congruence.
Qed.

Lemma tb_sorted_set_nth l i st : tb_sorted l -> tb_sorted (set_nth l i st).
Proof.
  revert i; induction l as [|r0 t IH]; intros i; destruct i; cbn; auto.
  - intros [H1 H2]. split; [|apply IH; exact H2].
    intros r1 Hr1. destruct (in_set_nth_strip _ _ _ _ Hr1) as (r & Hr & _ & _ & _ & _ & ETb & _).
    rewrite ETb. apply H1; auto.
Qed.

Lemma has_pending_in s m r : In r (recs s) -> gm r = m -> is_pending r = true -> has_pending s m = true.
Proof.
  intros Hr Hm Hp. unfold has_pending. apply existsb_exists. exists r. split; [exact Hr|].
  rewrite Hm, Nat.eqb_refl, Hp. reflexivity.
Qed.

Lemma le_pl_trans_lt P1 L1 P2 L2 P3 L3 : le_pl P1 L1 P2 L2 -> lt_pl P2 L2 P3 L3 -> le_pl P1 L1 P3 L3.
Proof. unfold le_pl, lt_pl. lia. Qed.

(* what Rinv says of one member's record, relative to the legit ranges L *)
Definition legit (s : state) (r : rec) : Prop := In r (recs s) /\ glegit r = true.

Definition rmem (L : rec -> Prop) (own : Prop) (x : mem) : Prop :=
  (own -> forall p, phys x = Some p -> forall r, L r -> le_pl (gP r) (gL r) (ms p) (logical x)) /\
  (own -> forall n, syn x = SPendSet n -> forall r, L r -> gP r < ms n) /\
  (forall up ul, ur_args (ur x) = Some (up, ul) ->
     exists p, phys x = Some p /\ lt_pl (ms p) (logical x) (ms up) ul /\ 0 <= ul) /\
  0 <= logical x.

Lemma rinv_at s m : Rinv s -> rmem (legit s) (owner s = Some m) (mems s m).
Proof.
  intros I. split; [|split; [|split; [apply I|apply I]]].
  - intros Ho p Hp r [Hr Hl]. exact (r_e5 _ I m p Ho Hp r Hr Hl).
  - intros Ho n Hs r [Hr Hl]. exact (r_e5s _ I m n Ho Hs r Hr Hl).
Qed.

(* records and owner stay, the window is not lowered: it is enough to look at each member's record *)
Lemma rinv_frame s s' :
  Rinv s -> recs s' = recs s -> owner s' = owner s -> clock s' = clock s -> opt_le (W s) (W s') ->
  (forall m, rmem (legit s) (owner s = Some m) (mems s' m)) -> Rinv (bump s').
Proof.
  intros [E1 E4 G E5 E5s URA LOG ORD CNT TB TE SRT] HR HO HC HW HM.
  constructor; cbn; rewrite ?HR, ?HO, ?HC; auto.
  - intros r Hr. destruct (E1 _ Hr) as (w & Hw & Hlt). rewrite Hw in HW.
    destruct (W s') as [w'|]; [|contradiction]. cbn in HW. exists w'. split; [reflexivity|lia].
  - intros m p Ho Hp r Hr Hl. exact (proj1 (HM m) Ho p Hp r (conj Hr Hl)).
  - intros m n Ho Hs r Hr Hl. exact (proj1 (proj2 (HM m)) Ho n Hs r (conj Hr Hl)).
  - intros m. exact (proj1 (proj2 (proj2 (HM m)))).
  - intros m. exact (proj2 (proj2 (proj2 (HM m)))).
  - intros r Hr. specialize (TB _ Hr). lia.
  - intros r te Hr Hg. destruct (TE _ _ Hr Hg). lia.
Qed.

Lemma rinv_local s m w x' :
  Rinv s -> opt_le (W s) w -> rmem (legit s) (owner s = Some m) x' -> Rinv (bump (local_state s m w x')).
Proof.
  intros I Hw Hx. apply (rinv_frame s); try reflexivity; [exact I|exact Hw|].
  intros m'. cbn. unfold upd_f. destruct (Nat.eqb_spec m' m) as [->|_]; [exact Hx|apply rinv_at, I].
Qed.

(* what rmem reads of a record: the memory, a pending Initialize target, the arguments of a reset in flight *)
Lemma rmem_same L own x x' :
  rmem L own x -> phys x' = phys x -> logical x' = logical x ->
  (forall n, syn x' = SPendSet n -> syn x = SPendSet n) ->
  (ur_args (ur x') = ur_args (ur x) \/ ur_args (ur x') = None) -> rmem L own x'.
Proof.
  intros (E5 & E5s & URA & LOG) F1 F2 F3 F4. unfold rmem. rewrite F1, F2.
  split; [exact E5|]. split; [intros o n H; exact (E5s o n (F3 n H))|]. split; [|exact LOG].
  intros up ul H. destruct F4 as [F4|F4]; rewrite F4 in H; [exact (URA up ul H)|discriminate].
Qed.

Lemma rinv_step0 s l s' :
  Ctl s -> Cfg s -> Win s -> Rinv s -> step0 s l = Some s' -> Rinv (bump s').
Proof.
  intros C G Wn I H. apply step0_tr in H.
  destruct H as [l | l m w x' T | m Eo Eb | m Eo Ev | m count p Ep El Ecnt | m i r0 En Em Epd].
  - apply (rinv_frame s); try reflexivity; [exact I|apply opt_le_refl|intros m; apply rinv_at, I].
  - destruct (win_mtr _ _ _ _ _ C G Wn T) as (_ & Hw & _). pose proof (rinv_at s m I) as R.
    apply rinv_local; [exact I|exact Hw|]. clear Hw.
    pose proof (rmem_same _ _ _ x' R) as same_reads. pose proof R as (E5 & E5s & URA & LOG).
    destruct T.
    + apply same_reads; [reflexivity|reflexivity|auto|left; reflexivity].
    + apply same_reads; [reflexivity|reflexivity|auto|left; reflexivity].
    + apply same_reads; [reflexivity|reflexivity|discriminate|left; reflexivity].
    + destruct a; [|apply same_reads; [reflexivity|reflexivity|discriminate|left; reflexivity]]. clear same_reads.
      (* acknowledged: the pending physical time is above every legit range generated so far *)
      split; [exact E5|]. split; [|split; [exact URA|exact LOG]].
      intros Ho n E r [Hr Hl]. inv E.
      destruct (r_e1 _ I _ Hr) as (w0 & Hw0 & Hlt). rewrite (w_d4 _ Wn _ _ Ho Hsyn) in Hw0. subst last.
      pose proof (sync_next_ge w0 now). pose proof guard_ge_ms.
      assert (Hq : (gP r + 1) * ns_per_ms <= sync_next (Some w0) now) by lia. apply ms_lower in Hq. unfold next. lia.
    + clear same_reads. destruct (initing s m C) as (_ & Hn & _ & Hr); [rewrite Hsyn; reflexivity|].
      unfold set_physical. rewrite Hn. split; [|split; [discriminate|split; [|cbn; lia]]].
      * intros Ho p E r Lr. inv E. left. exact (E5s Ho _ Hsyn r Lr).
      * intros up ul E. cbn in E. rewrite Hr in E. discriminate E.
    + apply same_reads; [reflexivity|reflexivity|auto|left; reflexivity].
    + apply same_reads; [reflexivity|reflexivity|auto|left; reflexivity].
    + destruct a; apply same_reads; [reflexivity|reflexivity|auto|left; reflexivity|reflexivity|reflexivity|auto|left; reflexivity].
    + apply locked_false in Hlock. clear same_reads. unfold set_physical.
      destruct (phys (mems s m)) as [p|] eqn:Ep; [destruct (0 <? ms next - ms p) eqn:Egt|];
        [|apply (rmem_same _ _ (mems s m)); [exact R|cbn; auto|reflexivity|auto|left; reflexivity]..].
      apply Z.ltb_lt in Egt. split; [|split; [exact E5s|split; [|cbn; lia]]].
      * intros Ho p' E r Lr. inv E. specialize (E5 Ho _ eq_refl r Lr). unfold le_pl in *. lia.
      * intros up ul E. cbn in E. rewrite Hlock in E. discriminate E.
    + clear same_reads. subst np nl. split; [exact E5|]. split; [exact E5s|]. split; [|exact LOG].
      intros up ul E. inv E. exists p. split; [exact Hphys|]. rewrite ms_mul. split.
      * unfold lt_pl. cbn [logical with_ur]. destruct (Z.eq_dec (Z.shiftr ts 18 - ms p) 0) as [E0|E0]; [specialize (Hgt E0)|]; lia.
      * apply Z.land_nonneg. right. unfold Z.ones. cbn. lia.
    + apply same_reads; [reflexivity|reflexivity|auto|]. left. cbn. rewrite Hur. destruct (need_save y p); reflexivity.
    + destruct a; apply same_reads; [reflexivity|reflexivity|auto|left; cbn; rewrite Hur; reflexivity|reflexivity|reflexivity|auto|right; reflexivity].
    + clear same_reads. destruct (URA p l) as (p0 & Hp0 & Hlt & Hl0); [rewrite Hur; reflexivity|].
      split; [|split; [exact E5s|split; [discriminate|exact Hl0]]].
      intros Ho p' E r Lr. inv E. eapply le_pl_trans_lt; [exact (E5 Ho _ Hp0 r Lr)|exact Hlt].
    + clear same_reads. apply locked_false in Hlock. split; [discriminate|]. split; [exact E5s|]. split; [|cbn; lia].
      intros up ul E. cbn in E. rewrite Hlock in E. discriminate E.
    + clear same_reads. apply locked_false in Hlock. split; [discriminate|]. split; [exact E5s|]. split; [|cbn; lia].
      intros up ul E. cbn in E. rewrite Hlock in E. discriminate E.
    + apply same_reads; [reflexivity|reflexivity|auto|left; reflexivity].
    + apply same_reads; [reflexivity|reflexivity|auto|right; reflexivity].
  - (* the elected member has nothing pending, an empty memory and no Initialize in flight *)
    pose proof I as [E1 E4 GR E5 E5s URA LOG ORD CNT TB TE SRT]. pose proof C as [E2 NONE FL SYN UR PEND].
    destruct (not_busy s m C Eb) as (_ & His & _ & _ & Ep & Hn).
    constructor; cbn; unfold upd_f; auto.
    + intros r Hr Hp Ho. inversion Ho as [Hm]. rewrite (has_pending_in s m r Hr (eq_sym Hm) Hp) in Ep. discriminate.
    + intros m' p Ho. inversion Ho; subst m'. rewrite Nat.eqb_refl. cbn. rewrite Hn. discriminate.
    + intros m' n Ho. inversion Ho; subst m'. rewrite Nat.eqb_refl. cbn. destruct (syn (mems s m)); discriminate.
    + intros m'. destruct (Nat.eqb_spec m' m); subst; cbn; apply URA.
    + intros m'. destruct (Nat.eqb_spec m' m); subst; cbn; apply LOG.
    + intros r Hr. specialize (TB _ Hr). lia.
    + intros r te Hr Hg. destruct (TE _ _ Hr Hg). lia.
  - pose proof I as [E1 E4 GR E5 E5s URA LOG ORD CNT TB TE SRT].
    constructor; cbn; auto; try discriminate.
    + intros r Hr. specialize (TB _ Hr). lia.
    + intros r te Hr Hg. destruct (TE _ _ Hr Hg). lia.
  - (* a new range: below the window; above every legit range if its member owns the record *)
    subst x l1. pose proof I as [E1 E4 GR E5 E5s URA LOG ORD CNT TB TE SRT]. pose proof C as [E2 NONE FL SYN UR PEND].
    pose proof Wn as [D1 D1b D2 D3s D3u D3r D4 Du Dr Mx Su Sr Ls].
    pose proof (locked_false _ El) as Hri.
    destruct (D2 _ _ Ep) as (sv & Hsv & Hlt). destruct (D1b _ _ Hsv) as (w & Hw & Hle).
    pose proof (ms_le p) as Hms. pose proof (LOG m) as Hlog. pose proof guard_pos as Hgp.
    constructor; cbn; unfold upd_f.
    + intros r [<-|Hr']; cbn; [exists w; split; [exact Hw|lia]|apply E1; exact Hr'].
    + intros r [<-|Hr']; cbn; [intros _ Ho; apply is_owner_refl; exact Ho|apply E4; exact Hr'].
    + intros r te [<-|Hr']; cbn; [discriminate|apply GR; exact Hr'].
    + intros m' p' Ho Hp r [<-|Hr'] Hl; destruct (Nat.eqb_spec m' m); subst; cbn in *.
      * inj. right. split; [reflexivity|lia].
      * apply is_owner_true in Hl. congruence.
      * inj. specialize (E5 _ _ Ho Ep _ Hr' Hl). unfold le_pl in *. lia.
      * eapply E5; eauto.
    + intros m' n Ho Hs r [<-|Hr'] Hl; destruct (Nat.eqb_spec m' m); subst; cbn in *.
      * pose proof (SYN m) as Hc. rewrite Hs in Hc. specialize (Hc eq_refl).
        rewrite (NONE m) in Ep; [discriminate|rewrite Hc; reflexivity].
      * apply is_owner_true in Hl. congruence.
      * eapply E5s; eauto.
      * eapply E5s; eauto.
    + intros m' up ul. destruct (Nat.eqb_spec m' m); subst; cbn; [rewrite Hri; discriminate|apply URA].
    + intros m'. destruct (Nat.eqb_spec m' m); subst; cbn; [lia|apply LOG].
    + split; [|exact ORD]. cbn. intros Hl r1 Hr1 Hl1. apply is_owner_true in Hl.
      specialize (E5 _ _ Hl Ep _ Hr1 Hl1). unfold below, le_pl in *. cbn. lia.
    + intros r [<-|Hr']; cbn; [lia|apply CNT; exact Hr'].
    + intros r [<-|Hr']; cbn; [lia|]. specialize (TB _ Hr'). lia.
    + intros r te [<-|Hr'] Hg; cbn in *; [discriminate|]. destruct (TE _ _ Hr' Hg). lia.
    + split; [|exact SRT]. cbn. intros r1 Hr1. apply TB. exact Hr1.
  - (* one status changes: granted only with a valid lease, hence to a legit range *)
    pose proof I as [E1 E4 GR E5 E5s URA LOG ORD CNT TB TE SRT]. pose proof C as [E2 NONE FL SYN UR PEND].
    assert (Hin0 : In r0 (recs s)) by (eapply nth_error_In; eauto).
    set (st := respond_status s m r0).
    assert (Hgr : forall te, st = Granted te -> glegit r0 = true /\ te = clock s).
    { intros te Hst. subst st. unfold respond_status in Hst. destruct (max_logical <=? gL r0); [discriminate|].
      destruct (valid (mems s m)) eqn:Ev; [|discriminate]. inversion Hst. split; [|reflexivity].
      apply E4; auto. rewrite Em. apply E2; [exact Ev|]. unfold busy.
      rewrite (has_pending_in s m r0 Hin0 Em Epd). apply orb_true_r. }
    assert (Hnpd : st <> Pending) by (subst st; unfold respond_status; destruct (max_logical <=? gL r0); [discriminate|destruct (valid (mems s m)); discriminate]).
    clearbody st.
    constructor; cbn; [ | | | | |exact URA|exact LOG| | | | | ].
    + intros r Hr'. destruct (in_set_nth_strip _ _ _ _ Hr') as (r1 & Hr1 & _ & EP & _). rewrite EP. apply E1; exact Hr1.
    + intros r Hr' Hp Ho. destruct (in_set_nth_strip _ _ _ _ Hr') as (r1 & Hr1 & EM & _ & _ & _ & _ & ELg & [Est|Est]).
      * rewrite ELg. apply E4; auto; [unfold is_pending in *; rewrite <- Est; exact Hp|congruence].
      * exfalso. unfold is_pending in Hp. rewrite Est in Hp. destruct st; try discriminate. apply Hnpd; reflexivity.
    + intros r te Hr' Hg. destruct (in_set_nth _ _ _ _ Hr') as [Hr1|(r1 & Hn1 & ->)].
      * eapply GR; eauto.
      * cbn in Hg. rewrite En in Hn1. inversion Hn1; subst r1. cbn. destruct (Hgr _ Hg). assumption.
    + intros m' p Ho Hp r Hr' Hl. destruct (in_set_nth_strip _ _ _ _ Hr') as (r1 & Hr1 & _ & EP & EL & _ & _ & ELg & _).
      rewrite EP, EL. eapply E5; eauto; congruence.
    + intros m' n Ho Hs r Hr' Hl. destruct (in_set_nth_strip _ _ _ _ Hr') as (r1 & Hr1 & _ & EP & _ & _ & _ & ELg & _).
      rewrite EP. eapply E5s; eauto; congruence.
    + apply ordered_set_nth. exact ORD.
    + intros r Hr'. destruct (in_set_nth_strip _ _ _ _ Hr') as (r1 & Hr1 & _ & _ & EL & EC & _). rewrite EL, EC. apply CNT; exact Hr1.
    + intros r Hr'. destruct (in_set_nth_strip _ _ _ _ Hr') as (r1 & Hr1 & _ & _ & _ & _ & ET & _). rewrite ET. specialize (TB _ Hr1). lia.
    + intros r te Hr' Hg. destruct (in_set_nth _ _ _ _ Hr') as [Hr1|(r1 & Hn1 & ->)].
      * destruct (TE _ _ Hr1 Hg). lia.
      * cbn in Hg. rewrite En in Hn1. inversion Hn1; subst r1. cbn. destruct (Hgr _ Hg) as [_ ->]. specialize (TB _ Hin0). lia.
    + apply tb_sorted_set_nth. exact SRT.
Qed.
