(* C05 proofs: the phase-indexed invariant of the serialized Global TSO protocol (Inv, inv_step), then the arithmetic
   of differentiation, CalSuffixBits and the suffix store, which proof/C05_JoinProof.v builds on. *)
From Coq Require Import ZArith List Bool Lia.
From PDV Require Import lib.Base gen.Gen_C05 model.C05_TsoGlobal.
Import ListNotations.
Local Open Scope Z_scope.
Local Arguments Nat.ltb : simpl never.
Local Arguments Z.shiftl : simpl never.
Local Arguments sync_passes : simpl never.

Definition tlt (a b : ts) : Prop := fst a < fst b \/ (fst a = fst b /\ snd a < snd b).
Definition tle (a b : ts) : Prop := fst a < fst b \/ (fst a = fst b /\ snd a <= snd b).

Lemma ts_ltb_spec a b : ts_ltb a b = true <-> tlt a b.
Proof. unfold ts_ltb, tlt. rewrite orb_true_iff, andb_true_iff, !Z.ltb_lt, Z.eqb_eq. tauto. Qed.
Lemma ts_leb_spec a b : ts_leb a b = true <-> tle a b.
Proof. unfold ts_leb, tle. rewrite orb_true_iff, andb_true_iff, Z.ltb_lt, Z.leb_le, Z.eqb_eq. tauto. Qed.
Lemma ts_ltb_false a b : ts_ltb a b = false <-> tle b a.
Proof. rewrite <- not_true_iff_false, ts_ltb_spec. unfold tlt, tle. lia. Qed.
Lemma ts_leb_false a b : ts_leb a b = false <-> tlt b a.
Proof. rewrite <- not_true_iff_false, ts_leb_spec. unfold tlt, tle. lia. Qed.
Lemma ts_eqb_spec a b : ts_eqb a b = true <-> a = b.
Proof.
  unfold ts_eqb. rewrite andb_true_iff, !Z.eqb_eq. destruct a, b; cbn. split; [intros [-> ->]; reflexivity|intros H; inversion H; auto].
Qed.

Ltac ord := unfold tlt, tle in *; cbn [fst snd] in *; lia.

Lemma tle_refl a : tle a a. Proof. ord. Qed.
Lemma tle_trans a b c : tle a b -> tle b c -> tle a c. Proof. ord. Qed.
Lemma tlt_le_trans a b c : tlt a b -> tle b c -> tlt a c. Proof. ord. Qed.
Lemma tle_lt_trans a b c : tle a b -> tlt b c -> tlt a c. Proof. ord. Qed.
Lemma tlt_tle a b : tlt a b -> tle a b. Proof. ord. Qed.

Lemma ts_max_ge_l a b : tle a (ts_max a b).
Proof. unfold ts_max. destruct (ts_ltb a b) eqn:E; [apply ts_ltb_spec in E; ord|apply tle_refl]. Qed.
Lemma ts_max_ge_r a b : tle b (ts_max a b).
Proof. unfold ts_max. destruct (ts_ltb a b) eqn:E; [apply tle_refl|apply ts_ltb_false in E; exact E]. Qed.
Lemma tick_ge m p : tle m (tick m p).
Proof. unfold tick. destruct (fst m <? p) eqn:E; [apply Z.ltb_lt in E; ord|apply tle_refl]. Qed.
Lemma write_ge_m m v : tle m (write_ts m v).
Proof. unfold write_ts. destruct (ts_leb v m) eqn:E; [apply tle_refl|apply ts_leb_false in E; ord]. Qed.
Lemma write_ge_v m v : tle v (write_ts m v).
Proof. unfold write_ts. destruct (ts_leb v m) eqn:E; [apply ts_leb_spec in E; exact E|apply tle_refl]. Qed.

Definition val (g : grant) : ts := (gP g, gL g).
Definition first (g : grant) : ts := (gP g, gL g - gcount g + 1).
Definition rfirst (r : greq) : ts := (fst (maxts r), snd (maxts r) - cnt r + 1).
Definition efirst (r : greq) : ts := (fst (est r), snd (est r) - cnt r + 1).

Definition early_le (s : state) (r : greq) (v : ts) : Prop :=
  forall l d, In l (grants s) -> gwho l = WLocal d -> (gte l < gbegin r)%nat -> tle (val l) v.
Definition early_lt (s : state) (r : greq) (v : ts) : Prop :=
  forall l d, In l (grants s) -> gwho l = WLocal d -> (gte l < gbegin r)%nat -> tlt (val l) v.
Definition globals_lt (s : state) (v : ts) : Prop :=
  forall g, In g (grants s) -> gwho g = WGlobal -> tlt (val g) v.
Definition all_locals_ge (s : state) (v : ts) : Prop := forall d, (d < nloc s)%nat -> tle v (lmem s d).

(* What holds of the request in flight, by phase.  `done ++ todo = locals s`: the allocators this round has visited and
   those it has not.  PCheck: acc is at or above every early Local grant (completed before the request began) of a
   visited dc; in the second round either the collected maximum has beaten the estimate, or maxts = est and the first
   round's writes raised every Local memory to est, so no read of the second round comes out below est.
   PCheckW / PSet: the visited allocators are at or above the value written.  efirst / rfirst: the first value of the
   range counted back from est / from maxts (after the fall-back the latter is what is returned). *)
Definition phase_inv (s : state) (r : greq) : Prop :=
  match ph r with
  | PCheck pass todo acc =>
      (pass < 2)%nat /\
      (exists done, locals s = done ++ todo /\
         (done <> [] -> exists a, acc = Some a) /\
         (forall d l a, In d done -> In l (grants s) -> gwho l = WLocal d -> (gte l < gbegin r)%nat -> acc = Some a -> tle (val l) a) /\
         (pass = 1%nat -> maxts r = est r -> forall d a, In d done -> acc = Some a -> tle (est r) a)) /\
      (pass = 1%nat -> early_le s r (maxts r)) /\
      (pass = 1%nat -> tlt (est r) (maxts r) \/ (maxts r = est r /\ all_locals_ge s (est r))) /\
      (pass = 0%nat -> maxts r = est r) /\
      globals_lt s (efirst r)
  | PCheckW pass todo =>
      (pass < 2)%nat /\
      (exists done, locals s = done ++ todo /\
         (tlt (est r) (maxts r) \/ (pass = 0%nat /\ maxts r = est r /\ forall d, In d done -> tle (est r) (lmem s d)))) /\
      early_le s r (maxts r) /\
      globals_lt s (efirst r)
  | PSet pass todo =>
      (pass < 2)%nat /\
      (exists done, locals s = done ++ todo /\ forall d, In d done -> tle (maxts r) (lmem s d)) /\
      (pass = 1%nat -> all_locals_ge s (maxts r)) /\
      early_lt s r (rfirst r) /\ globals_lt s (rfirst r)
  | PPersist =>
      all_locals_ge s (maxts r) /\ early_lt s r (rfirst r) /\ globals_lt s (rfirst r)
  | PDone =>
      all_locals_ge s (maxts r) /\ tle (maxts r) (gmem s) /\ early_lt s r (rfirst r) /\ globals_lt s (rfirst r)
  end.

(* v_c1, v_c2, v_c3 are the three clauses of the property (a Global range above the Locals completed before it began,
   a Local above every Global returned before it was requested, Globals ordered); v_loc / v_glob tie grants to the
   memories, v_req is the request in flight *)
Record Inv (s : state) : Prop := {
  v_loc  : forall l d, In l (grants s) -> gwho l = WLocal d ->
             (d < nloc s)%nat /\ tle (val l) (lmem s d) /\ 0 < gcount l;
  v_glob : forall g, In g (grants s) -> gwho g = WGlobal ->
             tle (val g) (gmem s) /\ all_locals_ge s (val g) /\ 0 < gcount g;
  v_c1   : forall g l d, In g (grants s) -> In l (grants s) -> gwho g = WGlobal -> gwho l = WLocal d ->
             (gte l < gtb g)%nat -> tlt (val l) (first g);
  v_c2   : forall g l d, In g (grants s) -> In l (grants s) -> gwho g = WGlobal -> gwho l = WLocal d ->
             (gte g < gtb l)%nat -> tlt (val g) (first l);
  v_c3   : forall g1 g2, In g1 (grants s) -> In g2 (grants s) -> gwho g1 = WGlobal -> gwho g2 = WGlobal ->
             (gte g1 < gtb g2)%nat -> tlt (val g1) (first g2);
  v_clk  : forall g, In g (grants s) -> (gtb g <= gte g)%nat /\ (gte g < clock s)%nat;
  v_req  : forall r, req s = Some r ->
             0 < cnt r /\ (gbegin r < clock s)%nat /\ tle (est r) (maxts r) /\ tle (efirst r) (est r) /\ phase_inv s r
}.

Lemma passes_two : sync_passes = 2%nat. Proof. reflexivity. Qed.

Ltac inj :=
  repeat match goal with
  | H : Some _ = Some _ |- _ => inversion H; subst; clear H
  | H : None = Some _ |- _ => discriminate H
  | H : Some _ = None |- _ => discriminate H
  end.

Lemma in_locals s d : In d (locals s) <-> (d < nloc s)%nat.
Proof. unfold locals. rewrite in_seq. lia. Qed.

(* frame: memories only grow, new grants are local and not early *)
Lemma phase_inv_mono s s' r :
  phase_inv s r -> nloc s' = nloc s ->
  (forall d, tle (lmem s d) (lmem s' d)) -> tle (gmem s) (gmem s') ->
  (forall g, In g (grants s') -> In g (grants s) \/ (exists d, gwho g = WLocal d /\ ~ (gte g < gbegin r)%nat)) ->
  phase_inv s' r.
Proof.
  intros H Hn Hl Hg Hgr. unfold phase_inv in *.
  assert (Hloc : locals s' = locals s) by (unfold locals; rewrite Hn; reflexivity).
  assert (Hall : forall v, all_locals_ge s v -> all_locals_ge s' v).
  { intros v Hv d Hd. rewrite Hn in Hd. eapply tle_trans; [apply Hv; exact Hd|apply Hl]. }
  assert (Hel : forall v, early_le s r v -> early_le s' r v).
  { intros v Hv l d Hin Hw He. destruct (Hgr _ Hin) as [Ho|(d' & _ & Hne)]; [eapply Hv; eauto|contradiction]. }
  assert (Helt : forall v, early_lt s r v -> early_lt s' r v).
  { intros v Hv l d Hin Hw He. destruct (Hgr _ Hin) as [Ho|(d' & _ & Hne)]; [eapply Hv; eauto|contradiction]. }
  assert (Hgl : forall v, globals_lt s v -> globals_lt s' v).
  { intros v Hv g Hin Hw. destruct (Hgr _ Hin) as [Ho|(d' & Hw' & _)]; [eapply Hv; eauto|congruence]. }
  destruct (ph r) as [pass todo acc|pass todo|pass todo| |].
  - destruct H as (Hp & (done & Hd & Ha & Hb & Hc) & He & Hf & Hz & Hgl0). rewrite Hloc.
    split; [exact Hp|]. split; [|split; [|split; [|split; [exact Hz|]]]].
    + exists done. repeat split; auto.
      intros d l a Hdn Hin Hw Hearly Hacc. destruct (Hgr _ Hin) as [Ho|(d' & _ & Hne)]; [eapply Hb; eauto|contradiction].
    + intros E. apply Hel, He, E.
    + intros E. destruct (Hf E) as [Hx|[Hx Hy]]; [left; exact Hx|right; split; [exact Hx|apply Hall, Hy]].
    + apply Hgl, Hgl0.
  - destruct H as (Hp & (done & Hd & Hdis) & He & Hgl0). rewrite Hloc.
    split; [exact Hp|]. split; [|split; [apply Hel, He|apply Hgl, Hgl0]].
    exists done. split; [exact Hd|]. destruct Hdis as [Hx|(Hx & Hy & Hz)]; [left; exact Hx|right; repeat split; auto].
    intros d Hdn. eapply tle_trans; [apply Hz; exact Hdn|apply Hl].
  - destruct H as (Hp & (done & Hd & Hdn) & Ha & He & Hgl0). rewrite Hloc.
    split; [exact Hp|]. split; [|split; [|split; [apply Helt, He|apply Hgl, Hgl0]]].
    + exists done. split; [exact Hd|]. intros d Hin. eapply tle_trans; [apply Hdn; exact Hin|apply Hl].
    + intros E. apply Hall, Ha, E.
  - destruct H as (Ha & He & Hgl0). repeat split; [apply Hall, Ha|apply Helt, He|apply Hgl, Hgl0].
  - destruct H as (Ha & Hm & He & Hgl0). repeat split; [apply Hall, Ha|eapply tle_trans; eauto|apply Helt, He|apply Hgl, Hgl0].
Qed.

(* frame for the whole invariant: memories grow, new grants are local and stamped with the current clock *)
Lemma inv_mono s gm lm newg :
  Inv s ->
  tle (gmem s) gm -> (forall d, tle (lmem s d) (lm d)) ->
  (forall l, In l newg -> exists d, gwho l = WLocal d /\ (d < nloc s)%nat /\ tle (val l) (lm d) /\ 0 < gcount l /\
                           gtb l = clock s /\ gte l = clock s /\
                           (forall g, In g (grants s) -> gwho g = WGlobal -> tlt (val g) (first l))) ->
  Inv (State (nloc s) (bits s) gm lm (req s) (newg ++ grants s) (S (clock s))).
Proof.
  intros [VL VG C1 C2 C3 CK RQ] Hg Hl Hnew.
  assert (Hin : forall g, In g (newg ++ grants s) -> In g newg \/ In g (grants s)) by (intros g; apply in_app_or).
  constructor; cbn.
  - intros l d Hi Hw. destruct (Hin _ Hi) as [Hn|Ho].
    + destruct (Hnew _ Hn) as (d' & Hw' & Hd & Hv & Hc & _). rewrite Hw in Hw'. inversion Hw'; subst d'. auto.
    + destruct (VL _ _ Ho Hw) as (Hd & Hv & Hc). repeat split; auto. eapply tle_trans; eauto.
  - intros g Hi Hw. destruct (Hin _ Hi) as [Hn|Ho].
    + destruct (Hnew _ Hn) as (d' & Hw' & _). congruence.
    + destruct (VG _ Ho Hw) as (Hv & Ha & Hc). repeat split; auto; [eapply tle_trans; eauto|].
      intros d Hd. eapply tle_trans; [apply Ha; exact Hd|apply Hl].
  - intros g l d Hig Hil Hwg Hwl Ht.
    destruct (Hin _ Hig) as [Hn|Hog]; [destruct (Hnew _ Hn) as (d' & Hw' & _); congruence|].
    destruct (Hin _ Hil) as [Hn|Hol]; [|eapply C1; eauto].
    destruct (Hnew _ Hn) as (d' & _ & _ & _ & _ & _ & Hte & _). destruct (CK _ Hog). lia.
  - intros g l d Hig Hil Hwg Hwl Ht.
    destruct (Hin _ Hig) as [Hn|Hog]; [destruct (Hnew _ Hn) as (d' & Hw' & _); congruence|].
    destruct (Hin _ Hil) as [Hn|Hol]; [|eapply C2; eauto].
    destruct (Hnew _ Hn) as (d' & _ & _ & _ & _ & _ & _ & Hfl). apply Hfl; auto.
  - intros g1 g2 H1 H2 Hw1 Hw2 Ht.
    destruct (Hin _ H1) as [Hn|Ho1]; [destruct (Hnew _ Hn) as (d' & Hw' & _); congruence|].
    destruct (Hin _ H2) as [Hn|Ho2]; [destruct (Hnew _ Hn) as (d' & Hw' & _); congruence|].
    eapply C3; eauto.
  - intros g Hi. destruct (Hin _ Hi) as [Hn|Ho].
    + destruct (Hnew _ Hn) as (d' & _ & _ & _ & _ & Htb & Hte & _). lia.
    + destruct (CK _ Ho). lia.
  - intros r Hr. destruct (RQ _ Hr) as (Hc & Hb & He & Hef & Hp).
    split; [exact Hc|]. split; [lia|]. split; [exact He|]. split; [exact Hef|].
    eapply (phase_inv_mono s); eauto; cbn; auto.
    intros g Hi. destruct (Hin _ Hi) as [Hn|Ho]; [right|left; exact Ho].
    destruct (Hnew _ Hn) as (d' & Hw' & _ & _ & _ & _ & Hte & _). exists d'. split; [exact Hw'|lia].
Qed.

Lemma state_eta_req s r :
  set_req s r = State (nloc s) (bits s) (gmem s) (lmem s) r (grants s) (clock s).
Proof. reflexivity. Qed.

Lemma inv_set_req s r' :
  Inv s ->
  (0 < cnt r' /\ (gbegin r' < S (clock s))%nat /\ tle (est r') (maxts r') /\ tle (efirst r') (est r') /\
   phase_inv (State (nloc s) (bits s) (gmem s) (lmem s) (Some r') (grants s) (S (clock s))) r') ->
  Inv (State (nloc s) (bits s) (gmem s) (lmem s) (Some r') (grants s) (S (clock s))).
Proof.
  intros [VL VG C1 C2 C3 CK RQ] H. constructor; cbn; auto.
  - intros g Hi. destruct (CK _ Hi). lia.
  - intros r Hr. inj. exact H.
Qed.

(* phase_inv only looks at nloc, memories, grants: not at the request field or the clock *)
Lemma phase_inv_irrel s s' r :
  nloc s' = nloc s -> gmem s' = gmem s -> lmem s' = lmem s -> grants s' = grants s ->
  phase_inv s r -> phase_inv s' r.
Proof.
  intros H1 H2 H3 H4 H. eapply (phase_inv_mono s); eauto.
  - intros d. rewrite H3. apply tle_refl.
  - rewrite H2. apply tle_refl.
  - intros g Hi. left. rewrite <- H4. exact Hi.
Qed.

(* the handler's running maximum over the allocators read so far *)
Lemma acc_step acc v a1 :
  match acc with Some a => Some (ts_max a v) | None => Some v end = Some a1 ->
  tle v a1 /\ forall a0, acc = Some a0 -> tle a0 a1.
Proof.
  destruct acc as [a|]; intros E; inj; [|split; [apply tle_refl|discriminate]].
  split; [apply ts_max_ge_r|]. intros a0 E0. inj. apply ts_max_ge_l.
Qed.

Lemma in_todo s done d todo : locals s = done ++ d :: todo -> (d < nloc s)%nat.
Proof. intros E. apply in_locals. rewrite E. apply in_or_app. right. left. reflexivity. Qed.

(* WriteTSO(v) on allocator d after the allocators in `done`: all of them are at or above v *)
Lemma written_snoc (lm : nat -> ts) d v done :
  (forall d', In d' done -> tle v (lm d')) ->
  forall d', In d' (done ++ [d]) -> tle v (upd_f lm d (write_ts (lm d) v) d').
Proof.
  intros H d' Hin. unfold upd_f. destruct (Nat.eqb_spec d' d) as [->|Hne]; [apply write_ge_v|].
  apply in_app_or in Hin as [Hin|[E|[]]]; [exact (H _ Hin)|congruence].
Qed.

Theorem inv_step s l s' : Inv s -> nloc s <> 0%nat -> step s l = Some s' -> Inv s'.
Proof.
  intros I Hnz H. unfold step in H. destruct (step0 s l) as [s1|] eqn:H0; [|discriminate]. inj.
  pose proof I as [VL VG C1 C2 C3 CK RQ].
  destruct l; cbn in H0.
  - destruct ((d <? nloc s)%nat && (0 <? c)) eqn:Ec; [|discriminate]. inj. cbn.
    apply andb_true_iff in Ec as [Ed Ecp]. apply Nat.ltb_lt in Ed. apply Z.ltb_lt in Ecp.
    set (m := lmem s d).
    apply (inv_mono s (gmem s) (upd_f (lmem s) d (fst m, snd m + c))
                    [Grant (WLocal d) (fst m) (snd m + c) c (clock s) (clock s)]);
      [exact I | apply tle_refl | | ].
    + intros d'. unfold upd_f. destruct (Nat.eqb_spec d' d); [subst; subst m; ord|apply tle_refl].
    + intros l [<-|[]]. exists d. cbn. unfold upd_f. rewrite Nat.eqb_refl.
      split; [reflexivity|]. split; [exact Ed|]. split; [apply tle_refl|]. split; [exact Ecp|]. split; [reflexivity|]. split; [reflexivity|].
      intros g Hi Hw. destruct (VG _ Hi Hw) as (_ & Ha & _). specialize (Ha _ Ed). unfold first, val in *. cbn. subst m. ord.
  - destruct (d <? nloc s)%nat eqn:Ed; [|discriminate]. inj. cbn.
    apply (inv_mono s (gmem s) (upd_f (lmem s) d (tick (lmem s d) p)) []);
      [exact I | apply tle_refl | | intros l []].
    intros d'. unfold upd_f. destruct (Nat.eqb_spec d' d); [subst; apply tick_ge|apply tle_refl].
  - inj. cbn. apply (inv_mono s (tick (gmem s) p) (lmem s) []);
      [exact I | apply tick_ge | intros d'; apply tle_refl | intros l []].
  - destruct (req s) eqn:Er; [discriminate|].
    destruct ((0 <? c) && (0 <=? delta) && negb (nloc s =? 0)%nat) eqn:Ec; [|discriminate].
    apply andb_true_iff in Ec as [Ec _]. apply andb_true_iff in Ec as [Ecp Edl]. apply Z.ltb_lt in Ecp. apply Z.leb_le in Edl.
    set (g1 := (fst (gmem s), snd (gmem s) + c)) in *.
    assert (Hg1 : tle (gmem s) g1) by (subst g1; ord).
    assert (I1 : Inv (State (nloc s) (bits s) g1 (lmem s) None (grants s) (S (clock s)))).
    { pose proof (inv_mono s g1 (lmem s) [] I Hg1 (fun d => tle_refl _)) as Hm. cbn in Hm. rewrite Er in Hm.
      apply Hm. intros l []. }
    match type of H0 with context [if ?b then _ else _] => destruct b eqn:Eov end; inj; cbn; [exact I1|].
    set (e := (fst g1 + delta, snd g1)).
    destruct I1 as [VL1 VG1 C11 C21 C31 CK1 _].
    constructor; cbn; auto.
    intros r Hr. inj. cbn.
    split; [exact Ecp|]. split; [lia|]. split; [apply tle_refl|]. split; [subst e; unfold efirst; cbn; ord|].
    unfold phase_inv; cbn. refine (conj _ (conj _ (conj _ (conj _ (conj _ _))))).
      * lia.
      * exists []. split; [reflexivity|]. split; [intros E; congruence|]. split; [intros d l a []|intros _ _ d a []].
      * intros E; discriminate E.
      * intros E; discriminate E.
      * intros _; reflexivity.
      * intros g Hi Hw. destruct (VG _ Hi Hw) as (Hv & _). unfold efirst; cbn. subst e g1; cbn. ord.
  - destruct (req s) as [r|] eqn:Er; [|discriminate].
    destruct (ph r) as [pass [|d todo] acc| | | |] eqn:Ep; try discriminate. inj.
    destruct (RQ _ eq_refl) as (Hc & Hb & He & Hef & Hp). unfold phase_inv in Hp. rewrite Ep in Hp.
    destruct Hp as (Hpass & (done & Hd & Ha & Hbb & Hcc) & Hel & Hf & Hz & Hgl).
    set (v := lmem s d). set (acc1 := match acc with Some a => Some (ts_max a v) | None => Some v end).
    pose proof (in_todo _ _ _ _ Hd) as Hdin.
    cbn. apply inv_set_req; [exact I|]. cbn. split; [exact Hc|]. split; [lia|]. split; [exact He|]. split; [exact Hef|].
    unfold phase_inv; cbn. split; [exact Hpass|]. split; [|split; [|split; [|split]]]; auto.
    exists (done ++ [d]). rewrite <- app_assoc. cbn. split; [exact Hd|]. split; [|split].
    + intros _. subst acc1. destruct acc; eauto.
    + intros d' l a Hin Hil Hw Hearly Hacc. destruct (acc_step _ _ _ Hacc) as [Hv1 Hold].
      apply in_app_or in Hin as [Hin|[<-|[]]].
      * destruct (Ha ltac:(intros E; rewrite E in Hin; exact Hin)) as (a0 & E0).
        eapply tle_trans; [eapply Hbb; eauto|exact (Hold _ E0)].
      * destruct (VL _ _ Hil Hw) as (_ & Hv & _). eapply tle_trans; [exact Hv|exact Hv1].
    + intros E Hme d' a Hin Hacc. destruct (acc_step _ _ _ Hacc) as [Hv1 Hold].
      apply in_app_or in Hin as [Hin|[<-|[]]].
      * destruct (Ha ltac:(intros E'; rewrite E' in Hin; exact Hin)) as (a0 & E0).
        eapply tle_trans; [eapply Hcc; eauto|exact (Hold _ E0)].
      * destruct (Hf E) as [Hx|[_ Hy]]; [rewrite Hme in Hx; ord|]. eapply tle_trans; [exact (Hy _ Hdin)|exact Hv1].
  - destruct (req s) as [r|] eqn:Er; [|discriminate].
    destruct (ph r) as [pass [|d todo] [m|]| | | |] eqn:Ep; try discriminate.
    destruct (RQ _ eq_refl) as (Hc & Hb & He & Hef & Hp). unfold phase_inv in Hp. rewrite Ep in Hp.
    destruct Hp as (Hpass & (done & Hd & Ha & Hbb & Hcc) & Hel & Hf & Hz & Hgl).
    rewrite app_nil_r in Hd.
    assert (Hearly : early_le s r m).
    { intros l d Hil Hw Hear. destruct (VL _ _ Hil Hw) as (Hdn & _). eapply Hbb; eauto. rewrite <- Hd. apply in_locals. exact Hdn. }
    destruct (ts_leb (maxts r) m) eqn:Ele; inj; cbn; apply inv_set_req; try exact I; cbn.
    + apply ts_leb_spec in Ele.
      set (m1 := if ts_eqb m (maxts r) then (fst m, snd m + 1) else m).
      assert (Hm1 : tle m m1) by (subst m1; destruct (ts_eqb m (maxts r)); ord).
      assert (Hlt : tlt (est r) m1).
      { subst m1. destruct (ts_eqb m (maxts r)) eqn:Eq; [apply ts_eqb_spec in Eq; subst m; ord|].
        assert (Hne : m <> maxts r) by (intros E; apply ts_eqb_spec in E; congruence).
        assert (Hne2 : ~ (fst m = fst (maxts r) /\ snd m = snd (maxts r))).
        { intros [E1 E2]. apply Hne. destruct m, (maxts r); cbn in *; congruence. }
        ord. }
      split; [exact Hc|]. split; [lia|]. split; [apply tlt_tle; exact Hlt|]. split; [exact Hef|].
      unfold phase_inv; cbn. split; [exact Hpass|]. split; [|split].
      * exists (locals s). rewrite app_nil_r. split; [reflexivity|]. left. exact Hlt.
      * intros l d Hil Hw Hear. eapply tle_trans; [eapply Hearly; eauto|exact Hm1].
      * exact Hgl.
    + apply ts_leb_false in Ele.
      split; [exact Hc|]. split; [lia|]. split; [exact He|]. split; [exact Hef|].
      unfold phase_inv; cbn. split; [exact Hpass|]. split; [|split].
      * exists []. split; [reflexivity|].
        destruct pass as [|[|pp]]; [| |lia].
        -- right. repeat split; auto. intros d [].
        -- left. destruct (Hf eq_refl) as [Hx|[Hx Hy]]; [exact Hx|].
           exfalso. assert (Hin0 : In 0%nat (locals s)) by (apply in_locals; lia).
           specialize (Hcc eq_refl Hx 0%nat m Hin0 eq_refl). rewrite Hx in Ele. ord.
      * intros l d Hil Hw Hear. eapply tle_trans; [eapply Hearly; eauto|ord].
      * exact Hgl.
  - destruct (req s) as [r|] eqn:Er; [|discriminate].
    destruct (RQ _ eq_refl) as (Hc & Hb & He & Hef & Hp). unfold phase_inv in Hp.
    assert (Hframe : forall d r', cnt r' = cnt r -> est r' = est r -> maxts r' = maxts r -> gbegin r' = gbegin r ->
              (d < nloc s)%nat ->
              phase_inv (State (nloc s) (bits s) (gmem s) (upd_f (lmem s) d (write_ts (lmem s d) (maxts r))) (Some r') (grants s) (S (clock s))) r' ->
              Inv (State (nloc s) (bits s) (gmem s) (upd_f (lmem s) d (write_ts (lmem s d) (maxts r))) (Some r') (grants s) (S (clock s)))).
    { intros d r' E1 E2 E3 E4 Hd Hph.
      pose proof (inv_mono s (gmem s) (upd_f (lmem s) d (write_ts (lmem s d) (maxts r))) [] I (tle_refl _)) as Hm.
      cbn in Hm. rewrite Er in Hm.
      assert (Hgrow : forall d0, tle (lmem s d0) (upd_f (lmem s) d (write_ts (lmem s d) (maxts r)) d0)).
      { intros d0. unfold upd_f. destruct (Nat.eqb_spec d0 d); [subst; apply write_ge_m|apply tle_refl]. }
      specialize (Hm Hgrow ltac:(intros l [])).
      destruct Hm as [VL1 VG1 C11 C21 C31 CK1 _]. constructor; cbn; auto.
      intros r0 Hr0. inj. unfold efirst. rewrite E1, E2, E3, E4. split; [exact Hc|]. split; [lia|]. split; [exact He|]. split; [exact Hef|]. exact Hph. }
    destruct (ph r) as [| pass [|d todo] | pass [|d todo] | |] eqn:Ep; try discriminate; inj; cbn.
    + (* write after a check that found every local smaller *)
      destruct Hp as (Hpass & (done & Hd & Hdis) & Hel & Hgl).
      pose proof (in_todo _ _ _ _ Hd) as Hdin.
      apply Hframe; auto. unfold phase_inv; cbn. split; [exact Hpass|]. split; [|split].
      * exists (done ++ [d]). rewrite <- app_assoc. split; [exact Hd|].
        destruct Hdis as [Hx|(Hx & Hy & Hz)]; [left; exact Hx|right; repeat split; auto].
        rewrite <- Hy in Hz |- *. apply written_snoc, Hz.
      * intros l d' Hil Hw Hear. eapply Hel; eauto.
      * exact Hgl.
    + destruct Hp as (Hpass & (done & Hd & Hdn) & Hall & Hel & Hgl).
      pose proof (in_todo _ _ _ _ Hd) as Hdin.
      apply Hframe; auto. unfold phase_inv; cbn. split; [exact Hpass|]. split; [|split; [|split]].
      * exists (done ++ [d]). rewrite <- app_assoc. split; [exact Hd|].
        apply written_snoc, Hdn.
      * intros E d' Hd'. cbn in *. unfold upd_f. destruct (Nat.eqb_spec d' d); [subst; apply write_ge_v|apply Hall; auto].
      * intros l d' Hil Hw Hear. eapply Hel; eauto.
      * exact Hgl.
  - destruct (req s) as [r|] eqn:Er; [|discriminate].
    destruct (RQ _ eq_refl) as (Hc & Hb & He & Hef & Hp). unfold phase_inv in Hp.
    destruct (ph r) as [| pass [|d todo] | pass [|d todo] | |] eqn:Ep; try discriminate.
    + destruct Hp as (Hpass & (done & Hd & Hdis) & Hel & Hgl). rewrite app_nil_r in Hd.
      rewrite passes_two in H0. destruct pass as [|[|pp]]; [change (Nat.ltb 1 2) with true in H0|change (Nat.ltb 2 2) with false in H0|lia];
        cbn in H0; inj; cbn; apply inv_set_req; try exact I; cbn.
      * split; [exact Hc|]. split; [lia|]. split; [exact He|]. split; [exact Hef|].
        unfold phase_inv; cbn. refine (conj _ (conj _ (conj _ (conj _ (conj _ _))))).
        -- lia.
        -- exists []. split; [reflexivity|]. split; [intros E; congruence|]. split; [intros d l a []|intros _ _ d a []].
        -- intros _. exact Hel.
        -- intros _. destruct Hdis as [Hx|(_ & Hy & Hz)]; [left; exact Hx|right; split; [exact Hy|]].
           intros d Hdl. apply Hz. apply in_locals. exact Hdl.
        -- intros E; discriminate E.
        -- exact Hgl.
      * (* the check rounds are over: the collected maximum is above the estimate, fall back to it *)
        assert (Hlt : tlt (est r) (maxts r)) by (destruct Hdis as [Hx|(Hx & _)]; [exact Hx|discriminate Hx]).
        unfold after_check. apply ts_ltb_spec in Hlt as Hb1. rewrite Hb1.
        set (e1 := (fst (maxts r), snd (maxts r) + cnt r)).
        set (e2 := if overflow s (snd e1) then (fst e1 + 1, cnt r) else e1).
        assert (Hfirst : tlt (maxts r) (fst e2, snd e2 - cnt r + 1)).
        { subst e2 e1. destruct (overflow s _); cbn; ord. }
        cbn. split; [exact Hc|]. split; [lia|]. split; [apply tle_refl|]. split; [unfold efirst; cbn; ord|].
        unfold phase_inv; cbn. refine (conj _ (conj _ (conj _ (conj _ _)))).
        -- lia.
        -- exists []. split; [reflexivity|]. intros d [].
        -- intros E; discriminate E.
        -- intros l d Hil Hw Hear. unfold rfirst; cbn. eapply tle_lt_trans; [eapply Hel; eauto|exact Hfirst].
        -- intros g Hi Hw. unfold rfirst; cbn. eapply tlt_le_trans; [apply Hgl; auto|].
           eapply tle_trans; [exact Hef|]. eapply tle_trans; [exact He|]. apply tlt_tle. exact Hfirst.
    + destruct Hp as (Hpass & (done & Hd & Hdn) & Hall & Hel & Hgl). rewrite app_nil_r in Hd.
      assert (Hallnow : all_locals_ge s (maxts r)).
      { intros d Hdl. apply Hdn. rewrite <- Hd. apply in_locals. exact Hdl. }
      rewrite passes_two in H0. destruct pass as [|[|pp]]; [change (Nat.ltb 1 2) with true in H0|change (Nat.ltb 2 2) with false in H0|lia];
        cbn in H0; inj; cbn; apply inv_set_req; try exact I; cbn.
      * split; [exact Hc|]. split; [lia|]. split; [exact He|]. split; [exact Hef|].
        unfold phase_inv; cbn. refine (conj _ (conj _ (conj _ (conj _ _)))).
        -- lia.
        -- exists []. split; [reflexivity|]. intros d [].
        -- intros _. exact Hallnow.
        -- exact Hel.
        -- exact Hgl.
      * split; [exact Hc|]. split; [lia|]. split; [exact He|]. split; [exact Hef|].
        unfold phase_inv; cbn. split; [exact Hallnow|]. split; [exact Hel|exact Hgl].
  - destruct (req s) as [r|] eqn:Er; [|discriminate].
    destruct (RQ _ eq_refl) as (Hc & Hb & He & Hef & Hp). unfold phase_inv in Hp.
    destruct (ph r) eqn:Ep; try discriminate. inj. cbn.
    destruct Hp as (Hall & Hel & Hgl).
    set (g1 := if ts_ltb (gmem s) (maxts r) then maxts r else gmem s).
    assert (Hg1 : tle (gmem s) g1 /\ tle (maxts r) g1).
    { subst g1. destruct (ts_ltb (gmem s) (maxts r)) eqn:E; [apply ts_ltb_spec in E|apply ts_ltb_false in E]; split; ord. }
    pose proof (inv_mono s g1 (lmem s) [] I (proj1 Hg1) (fun d => tle_refl _) ltac:(intros l [])) as Hm.
    cbn in Hm. rewrite Er in Hm. destruct Hm as [VL1 VG1 C11 C21 C31 CK1 _]. constructor; cbn; auto.
    intros r0 Hr0. inj. unfold efirst; cbn. split; [exact Hc|]. split; [lia|]. split; [exact He|]. split; [exact Hef|].
    unfold phase_inv; cbn. split; [exact Hall|]. split; [exact (proj2 Hg1)|]. split; [exact Hel|exact Hgl].
  - destruct (req s) as [r|] eqn:Er; [|discriminate].
    destruct (RQ _ eq_refl) as (Hc & Hb & He & Hef & Hp). unfold phase_inv in Hp.
    destruct (ph r) eqn:Ep; try discriminate. inj. cbn.
    destruct Hp as (Hall & Hgm & Hel & Hgl).
    set (g0 := Grant WGlobal (fst (maxts r)) (snd (maxts r)) (cnt r) (gbegin r) (clock s)).
    assert (Hval : val g0 = maxts r) by (unfold val; cbn; destruct (maxts r); reflexivity).
    assert (Hfst : first g0 = rfirst r) by reflexivity.
    constructor; cbn.
    + intros l d [<-|Hi] Hw; [discriminate Hw|]. apply VL; auto.
    + intros g [<-|Hi] Hw; [|apply VG; auto]. rewrite Hval. repeat split; auto.
    + intros g l d [<-|Hig] [<-|Hil] Hwg Hwl Ht; try discriminate.
      * rewrite Hfst. eapply Hel; eauto.
      * eapply C1; eauto.
    + intros g l d [<-|Hig] [<-|Hil] Hwg Hwl Ht; try discriminate.
      * cbn in Ht. destruct (CK _ Hil). lia.
      * eapply C2; eauto.
    + intros g1 g2 [<-|H1] [<-|H2] Hw1 Hw2 Ht.
      * cbn in Ht. lia.
      * cbn in Ht. destruct (CK _ H2). lia.
      * rewrite Hfst. apply Hgl; auto.
      * eapply C3; eauto.
    + intros g [<-|Hi]; [cbn; lia|]. destruct (CK _ Hi). lia.
    + intros r0 Hr0. discriminate Hr0.
Qed.

Lemma nloc_step s l s' : step s l = Some s' -> nloc s' = nloc s.
Proof.
  unfold step. destruct (step0 s l) as [s1|] eqn:H0; [|discriminate]. intros H; inj. cbn.
  destruct l; cbn in H0;
  repeat match type of H0 with
  | context [match ?x with _ => _ end] => destruct x; try discriminate
  end; inj; reflexivity.
Qed.

Lemma inv_init n b g0 l0 : Inv (init n b g0 l0).
Proof. constructor; cbn; intros; try contradiction; try discriminate. Qed.

Definition InvN (s : state) : Prop := Inv s /\ nloc s <> 0%nat.

Theorem inv_exec n b g0 l0 ls : n <> 0%nat -> Inv (exec step (init n b g0 l0) ls).
Proof.
  intros Hn. apply (invariant_exec step InvN).
  - intros s l s' [I Hz] H. split; [eapply inv_step; eauto|rewrite (nloc_step _ _ _ H); exact Hz].
  - split; [apply inv_init|exact Hn].
Qed.

Lemma shiftl_mul r b : 0 <= b -> Z.shiftl r b = r * 2 ^ b.
Proof. intros. apply Z.shiftl_mul_pow2. assumption. Qed.

Lemma differentiate_injective r1 r2 b s1 s2 :
  0 <= b -> 0 <= s1 < 2 ^ b -> 0 <= s2 < 2 ^ b ->
  differentiate r1 b s1 = differentiate r2 b s2 -> r1 = r2 /\ s1 = s2.
Proof.
  unfold differentiate. intros Hb H1 H2. rewrite !shiftl_mul by assumption.
  assert (Hp : 0 < 2 ^ b) by (apply Z.pow_pos_nonneg; lia). intros E.
  apply (Z.div_mod_unique (2 ^ b)); [left; exact H1|left; exact H2|lia].
Qed.

Lemma differentiate_monotone r1 r2 b s1 s2 :
  0 <= b -> 0 <= s1 < 2 ^ b -> 0 <= s2 < 2 ^ b -> r1 < r2 -> differentiate r1 b s1 < differentiate r2 b s2.
Proof.
  unfold differentiate. intros Hb H1 H2 Hlt. rewrite !shiftl_mul by assumption.
  assert (Hp : 0 < 2 ^ b) by (apply Z.pow_pos_nonneg; lia). nia.
Qed.

Lemma client_batch_value raw count b sfx i :
  0 <= b -> add_logical (add_logical (differentiate raw b sfx) (- count + 1) b) i b = differentiate (raw - count + 1 + i) b sfx.
Proof. intros Hb. unfold add_logical, differentiate. rewrite !shiftl_mul by assumption. ring. Qed.

(* CalSuffixBits(maxSuffix) = ceil(log2(maxSuffix + 1)) covers every suffix in use, and suffix 0 of the Global allocator *)
Lemma bits_cover max_suffix sfx : 0 <= sfx <= max_suffix -> sfx < 2 ^ cal_suffix_bits max_suffix.
Proof.
  intros H. unfold cal_suffix_bits.
  destruct (Z.eq_dec max_suffix 0) as [->|Hne]; [cbn; lia|].
  pose proof (Z.log2_up_spec (max_suffix + 1) ltac:(lia)) as [_ Hup]. lia.
Qed.

Definition sfx_ok (st : sfx_store) : Prop :=
  NoDup (map fst st) /\ NoDup (map snd st) /\ (forall p, In p st -> 1 <= snd p <= sfx_max st).

Definition fmax (l : sfx_store) (a : Z) : Z := fold_left (fun a (p : nat * Z) => Z.max a (snd p)) l a.

Lemma fmax_ge_acc l : forall a, a <= fmax l a.
Proof. unfold fmax. induction l as [|q t IH]; intros a; cbn; [lia|]. eapply Z.le_trans; [|apply IH]. lia. Qed.

Lemma fmax_ge_in l : forall a p, In p l -> snd p <= fmax l a.
Proof.
  unfold fmax. induction l as [|q t IH]; intros a p; cbn; [tauto|]. intros [<-|H]; [|apply IH; exact H].
  eapply Z.le_trans; [|apply (fmax_ge_acc t)]. lia.
Qed.

Lemma fmax_all_le l : forall a, (forall p, In p l -> snd p <= a) -> fmax l a = a.
Proof.
  unfold fmax. induction l as [|q t IH]; intros a Ha; cbn; [reflexivity|].
  rewrite Z.max_l by (apply Ha; left; reflexivity). apply IH. intros p Hp. apply Ha. right. exact Hp.
Qed.

Lemma sfx_max_ge st : forall p, In p st -> snd p <= sfx_max st.
Proof. intros p Hp. apply (fmax_ge_in st 0 p Hp). Qed.

Lemma sfx_max_nonneg st : 0 <= sfx_max st.
Proof. apply (fmax_ge_acc st 0). Qed.

(* the store after a create-if-absent that created: the new suffix is the largest *)
Lemma sfx_max_fresh st dc : sfx_max ((dc, sfx_max st + 1) :: st) = sfx_max st + 1.
Proof.
  pose proof (sfx_max_nonneg st). unfold sfx_max at 1. cbn. rewrite Z.max_r by lia.
  apply (fmax_all_le st). intros q Hq. pose proof (sfx_max_ge st q Hq). lia.
Qed.

Lemma sfx_lookup_in st dc v : sfx_lookup st dc = Some v -> In (dc, v) st.
Proof.
  unfold sfx_lookup. destruct (find _ st) as [p|] eqn:E; [|discriminate]. intros H; inj.
  apply find_some in E as [Hin Heq]. apply Nat.eqb_eq in Heq. destruct p; cbn in *; subst; exact Hin.
Qed.

Lemma sfx_lookup_none st dc : sfx_lookup st dc = None -> ~ In dc (map fst st).
Proof.
  unfold sfx_lookup. destruct (find _ st) as [p|] eqn:E; [discriminate|]. intros _ Hin.
  apply in_map_iff in Hin as (p & Hp & Hin). eapply find_none in E; eauto. cbn in E. rewrite Hp, Nat.eqb_refl in E. discriminate.
Qed.

Lemma sfx_assign_ok st dc : sfx_ok st -> sfx_ok (fst (sfx_assign st dc)).
Proof.
  intros (H1 & H2 & H3). unfold sfx_assign. destruct (sfx_lookup st dc) eqn:E; cbn; [split; [exact H1|split; [exact H2|exact H3]]|].
  pose proof (sfx_max_nonneg st) as Hnn. pose proof (sfx_max_fresh st dc) as Hmax.
  split; [|split].
  - cbn. constructor; [apply sfx_lookup_none; exact E|exact H1].
  - cbn. constructor; [|exact H2]. intros Hin. apply in_map_iff in Hin as (q & Hq & Hin). pose proof (sfx_max_ge st q Hin). lia.
  - intros q Hq. rewrite Hmax. destruct Hq as [<-|Hq]; cbn; [lia|]. destruct (H3 _ Hq). lia.
Qed.

Lemma sfx_assign_stable st dc dc' v :
  sfx_lookup st dc' = Some v -> sfx_lookup (fst (sfx_assign st dc)) dc' = Some v.
Proof.
  intros H. unfold sfx_assign. destruct (sfx_lookup st dc) eqn:E; cbn; [exact H|].
  unfold sfx_lookup. cbn. destruct (Nat.eqb_spec dc dc'); [subst; congruence|exact H].
Qed.

Lemma sfx_assign_returns st dc : sfx_lookup (fst (sfx_assign st dc)) dc = Some (snd (sfx_assign st dc)).
Proof.
  unfold sfx_assign. destruct (sfx_lookup st dc) eqn:E; cbn; [exact E|].
  unfold sfx_lookup. cbn. rewrite Nat.eqb_refl. reflexivity.
Qed.

Lemma sfx_ok_injective st dc1 dc2 v : sfx_ok st -> sfx_lookup st dc1 = Some v -> sfx_lookup st dc2 = Some v -> dc1 = dc2.
Proof.
  intros (H1 & H2 & _) E1 E2. apply sfx_lookup_in in E1, E2.
  assert (G : forall l, NoDup (map snd l) -> In (dc1, v) l -> In (dc2, v) l -> dc1 = dc2).
  { induction l as [|q t IH]; cbn; [tauto|]. intros Hnd [->|Ha] [Hb|Hb].
    - congruence.
    - inversion Hnd as [|? ? Hni _]; subst. exfalso. apply Hni. cbn. apply in_map_iff. exists (dc2, v). auto.
    - inversion Hnd as [|? ? Hni _]; subst. exfalso. apply Hni. cbn. apply in_map_iff. exists (dc1, v). auto.
    - inversion Hnd; subst. apply IH; auto. }
  eapply G; eauto.
Qed.
