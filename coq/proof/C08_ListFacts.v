(* C08 — list-level facts about regions (lookup by store, the ways the store model edits the peer list,
   counting) used by the general proofs of both build paths. *)
From Coq Require Import String.
From PDV Require Import lib.Base gen.Gen_C08 model.C08_Steps.
Local Open Scope list_scope.
Local Open Scope Z_scope.

Definition lk (ps : list peer) (st : Z) : option peer := find (on_store st) ps.
Definition ND (ps : list peer) : Prop := NoDup (map pstore ps).

Lemma on_store_true st p : on_store st p = true <-> pstore p = st.
Proof. unfold on_store. apply Z.eqb_eq. Qed.

Lemma lk_Some ps st p : lk ps st = Some p -> In p ps /\ pstore p = st.
Proof. unfold lk. intros H. apply find_some in H as [A B]. apply on_store_true in B. auto. Qed.

Lemma lk_store ps st p : lk ps st = Some p -> pstore p = st.
Proof. intros H. apply (lk_Some _ _ _ H). Qed.

Lemma lk_None ps st : lk ps st = None <-> ~ In st (map pstore ps).
Proof.
  unfold lk. split.
  - intros H C. apply in_map_iff in C as (p & Hp & Hin). pose proof (find_none _ _ H _ Hin) as N.
    unfold on_store in N. rewrite Hp, Z.eqb_refl in N. discriminate.
  - intros H. destruct (find (on_store st) ps) as [p|] eqn:E; [|reflexivity].
    apply find_some in E as [A B]. apply on_store_true in B. exfalso. apply H. apply in_map_iff. eauto.
Qed.

Lemma lk_In ps p : ND ps -> In p ps -> lk ps (pstore p) = Some p.
Proof.
  unfold ND, lk. induction ps as [|q r IH]; cbn [map find]; intros Hnd Hin; [contradiction|].
  inversion Hnd as [|? ? Hn Hd]; subst. unfold on_store at 1. destruct (pstore q =? pstore p) eqn:E.
  - apply Z.eqb_eq in E. destruct Hin as [->|Hin]; [reflexivity|].
    exfalso. apply Hn. rewrite E. apply in_map. exact Hin.
  - destruct Hin as [->|Hin]; [rewrite Z.eqb_refl in E; discriminate|]. apply IH; auto.
Qed.

Lemma lk_app ps qs st : lk (ps ++ qs) st = match lk ps st with Some q => Some q | None => lk qs st end.
Proof.
  unfold lk. induction ps as [|q r IH]; cbn [app find]; [reflexivity|].
  destruct (on_store st q); [reflexivity|exact IH].
Qed.

Lemma ND_app ps qs : ND ps -> ND qs -> (forall q, In q qs -> lk ps (pstore q) = None) -> ND (ps ++ qs).
Proof.
  unfold ND. intros H1 H2 H3. rewrite map_app. induction ps as [|p r IH]; cbn [map app]; [exact H2|].
  inversion H1 as [|? ? Hn Hd]; subst. constructor.
  - intros C. apply in_app_or in C as [C|C]; [contradiction|].
    apply in_map_iff in C as (q & Hq & Hin). specialize (H3 q Hin). unfold lk in H3. cbn [find] in H3.
    unfold on_store in H3 at 1. rewrite Hq, Z.eqb_refl in H3. discriminate.
  - apply IH; [exact Hd|]. intros q Hin. specialize (H3 q Hin). unfold lk in *. cbn [find] in H3.
    destruct (on_store (pstore q) p); [discriminate|exact H3].
Qed.

Lemma lk_map f ps st : (forall p, pstore (f p) = pstore p) -> lk (map f ps) st = option_map f (lk ps st).
Proof.
  intros Hf. unfold lk. induction ps as [|q r IH]; cbn [map find option_map]; [reflexivity|].
  unfold on_store at 1 3. rewrite Hf. destruct (pstore q =? st); [reflexivity|exact IH].
Qed.

Lemma ND_map f ps : (forall p, pstore (f p) = pstore p) -> ND ps -> ND (map f ps).
Proof.
  intros Hf. unfold ND. rewrite map_map. intros H. erewrite map_ext; [exact H|]. intros a. apply Hf.
Qed.

Lemma lk_filter g ps st : ND ps ->
  lk (filter g ps) st = match lk ps st with Some p => if g p then Some p else None | None => None end.
Proof.
  unfold ND, lk. induction ps as [|q r IH]; cbn [map filter find]; intros Hnd; [reflexivity|].
  inversion Hnd as [|? ? Hn Hd]; subst. destruct (on_store st q) eqn:E.
  - destruct (g q) eqn:G; cbn [find]; [rewrite E; reflexivity|].
    apply on_store_true in E.
    destruct (find (on_store st) (filter g r)) as [x|] eqn:F; [|reflexivity].
    apply find_some in F as [F1 F2]. apply filter_In in F1 as [F1 _]. apply on_store_true in F2.
    exfalso. apply Hn. rewrite E, <- F2. apply in_map. exact F1.
  - destruct (g q); cbn [find]; [rewrite E|]; apply IH; exact Hd.
Qed.

Lemma ND_filter g ps : ND ps -> ND (filter g ps).
Proof.
  unfold ND. induction ps as [|q r IH]; cbn [map filter]; intros H; [constructor|].
  inversion H as [|? ? Hn Hd]; subst. destruct (g q); cbn [map]; [|auto].
  constructor; [|auto]. intros C. apply Hn. apply in_map_iff in C as (y & Hy & Hin).
  apply filter_In in Hin as [Hin _]. apply in_map_iff. eauto.
Qed.

Lemma get_store_peer_lk r st : get_store_peer r st = lk (peers r) st.
Proof. reflexivity. Qed.

Lemma get_store_voter_lk r st : ND (peers r) ->
  get_store_voter r st = match lk (peers r) st with Some p => if is_learner p then None else Some p | None => None end.
Proof.
  intros H. unfold get_store_voter. change (find (on_store st) (filter (fun p => negb (is_learner p)) (peers r)))
    with (lk (filter (fun p => negb (is_learner p)) (peers r)) st).
  rewrite lk_filter by exact H. destruct (lk (peers r) st) as [p|]; [|reflexivity]. destruct (is_learner p); reflexivity.
Qed.

Lemma get_store_learner_lk r st : ND (peers r) ->
  get_store_learner r st = match lk (peers r) st with Some p => if is_learner p then Some p else None | None => None end.
Proof.
  intros H. unfold get_store_learner. change (find (on_store st) (filter is_learner (peers r))) with (lk (filter is_learner (peers r)) st).
  rewrite lk_filter by exact H. reflexivity.
Qed.

Lemma nodup_stores_ND ps : nodup_stores ps = true <-> ND ps.
Proof.
  unfold ND. induction ps as [|p r IH]; cbn [nodup_stores map]; [split; [constructor|reflexivity]|].
  rewrite andb_true_iff, negb_true_iff, IH. split.
  - intros [H1 H2]. constructor; [|exact H2]. intros C. apply in_map_iff in C as (q & Hq & Hin).
    assert (E : existsb (on_store (pstore p)) r = true) by (apply existsb_exists; exists q; split; [exact Hin|apply on_store_true; exact Hq]).
    congruence.
  - intros H. inversion H as [|? ? Hn Hd]; subst. split; [|exact Hd].
    destruct (existsb (on_store (pstore p)) r) eqn:E; [|reflexivity].
    apply existsb_exists in E as (q & Hq & Hs). apply on_store_true in Hs. exfalso. apply Hn. apply in_map_iff. eauto.
Qed.

Lemma countb_app {A} (f : A -> bool) l1 l2 : countb f (l1 ++ l2) = countb f l1 + countb f l2.
Proof. unfold countb. rewrite filter_app, app_length. lia. Qed.

Lemma countb_map {A B} (f : B -> bool) (g : A -> B) l : countb f (map g l) = countb (fun x => f (g x)) l.
Proof.
  unfold countb. induction l as [|x r IH]; cbn [map filter]; [reflexivity|].
  destruct (f (g x)); cbn [length]; lia.
Qed.

Lemma countb_ext {A} (f g : A -> bool) l : (forall x, In x l -> f x = g x) -> countb f l = countb g l.
Proof.
  unfold countb. induction l as [|x r IH]; intros H; cbn [filter]; [reflexivity|].
  rewrite (H x (or_introl eq_refl)).
  assert (IH' := IH (fun y Hy => H y (or_intror Hy))).
  destruct (g x); cbn [length]; lia.
Qed.

Lemma countb_nonneg {A} (f : A -> bool) l : 0 <= countb f l.
Proof. unfold countb. lia. Qed.

Lemma countb_zero {A} (f : A -> bool) l : (forall x, In x l -> f x = false) -> countb f l = 0.
Proof.
  unfold countb. induction l as [|x r IH]; intros H; cbn [filter]; [reflexivity|].
  rewrite (H x (or_introl eq_refl)). apply IH. intros y Hy. apply H. right. exact Hy.
Qed.

Lemma countb_filter {A} (f g : A -> bool) l : countb f (filter g l) = countb (fun x => g x && f x) l.
Proof.
  unfold countb. induction l as [|x r IH]; cbn [filter]; [reflexivity|].
  destruct (g x); cbn [filter andb]; [destruct (f x); cbn [length]; lia|exact IH].
Qed.

Lemma countb_split {A} (f g : A -> bool) l : countb f l = countb (fun x => f x && g x) l + countb (fun x => f x && negb (g x)) l.
Proof.
  unfold countb. induction l as [|x r IH]; cbn [filter]; [reflexivity|].
  destruct (f x), (g x); cbn [andb negb length]; lia.
Qed.

Lemma lk_snoc ps x s : lk (ps ++ [x]) s = match lk ps s with Some q => Some q | None => if pstore x =? s then Some x else None end.
Proof. rewrite lk_app. destruct (lk ps s); [reflexivity|]. unfold lk; cbn. unfold on_store. reflexivity. Qed.

Lemma uniq_peer ps p q : ND ps -> In p ps -> lk ps (pstore p) = Some q -> p = q.
Proof. intros Hnd Hin Hl. rewrite (lk_In _ _ Hnd Hin) in Hl. congruence. Qed.

Lemma lk_replace ps st p s : pstore p = st ->
  lk (replace_peer ps st p) s = if s =? st then (match lk ps st with Some _ => Some p | None => None end) else lk ps s.
Proof.
  intros Hp. unfold replace_peer. rewrite lk_map.
  2:{ intros q. destruct (on_store st q) eqn:E; [apply on_store_true in E; congruence|reflexivity]. }
  destruct (s =? st) eqn:E.
  - apply Z.eqb_eq in E. subst s. destruct (lk ps st) as [q|] eqn:L; cbn [option_map]; [|reflexivity].
    apply lk_Some in L as [_ L]. unfold on_store. rewrite L, Z.eqb_refl. reflexivity.
  - destruct (lk ps s) as [q|] eqn:L; cbn [option_map]; [|reflexivity].
    apply lk_Some in L as [_ L]. unfold on_store. rewrite L, E. reflexivity.
Qed.

Lemma ND_replace ps st p : pstore p = st -> ND ps -> ND (replace_peer ps st p).
Proof.
  intros Hp H. unfold ND, replace_peer in *. rewrite map_map. erewrite map_ext_in; [exact H|].
  intros q _. cbn. destruct (on_store st q) eqn:E; [|reflexivity]. apply on_store_true in E. congruence.
Qed.

Lemma replace_absent ps st p : ~ In st (map pstore ps) -> replace_peer ps st p = ps.
Proof.
  unfold replace_peer. induction ps as [|q r IH]; intros H; cbn [map]; [reflexivity|].
  cbn [map] in H. destruct (on_store st q) eqn:E.
  - apply on_store_true in E. exfalso. apply H. left. exact E.
  - f_equal. apply IH. intros C. apply H. right. exact C.
Qed.

Lemma remove_absent ps st : ~ In st (map pstore ps) -> remove_store ps st = ps.
Proof.
  unfold remove_store. induction ps as [|q r IH]; intros H; cbn [filter]; [reflexivity|].
  cbn [map] in H. destruct (on_store st q) eqn:E.
  - apply on_store_true in E. exfalso. apply H. left. exact E.
  - cbn [negb]. f_equal. apply IH. intros C. apply H. right. exact C.
Qed.

Lemma lk_remove_store ps st s : ND ps -> lk (remove_store ps st) s = if s =? st then None else lk ps s.
Proof.
  intros Hnd. unfold remove_store. rewrite lk_filter by exact Hnd.
  destruct (lk ps s) as [p|] eqn:E; [|destruct (s =? st); reflexivity].
  apply lk_Some in E as [_ E]. unfold on_store. rewrite E. rewrite (Z.eqb_sym s st). destruct (st =? s); reflexivity.
Qed.

Lemma countb_cons {A} (f : A -> bool) x l : countb f (x :: l) = b2z (f x) + countb f l.
Proof. unfold countb. cbn [filter]. destruct (f x); cbn [length b2z]; lia. Qed.

Lemma countb_replace (f : peer -> bool) ps st old p :
  ND ps -> lk ps st = Some old -> countb f (replace_peer ps st p) = countb f ps - b2z (f old) + b2z (f p).
Proof.
  unfold ND, lk. induction ps as [|q r IH]; intros Hnd Hl; cbn [find] in Hl; [discriminate|].
  cbn [map] in Hnd. inversion Hnd as [|? ? Hn Hd]; subst.
  unfold replace_peer. cbn [map]. fold (replace_peer r st p). destruct (on_store st q) eqn:E.
  - inversion Hl; subst q. apply on_store_true in E. rewrite replace_absent by (rewrite <- E; exact Hn).
    rewrite !countb_cons. lia.
  - rewrite !countb_cons. rewrite (IH Hd Hl). lia.
Qed.

Lemma countb_remove (f : peer -> bool) ps st old :
  ND ps -> lk ps st = Some old -> countb f (remove_store ps st) = countb f ps - b2z (f old).
Proof.
  unfold ND, lk. induction ps as [|q r IH]; intros Hnd Hl; cbn [find] in Hl; [discriminate|].
  cbn [map] in Hnd. inversion Hnd as [|? ? Hn Hd]; subst.
  unfold remove_store. cbn [filter]. fold (remove_store r st). destruct (on_store st q) eqn:E; cbn [negb].
  - inversion Hl; subst q. apply on_store_true in E. rewrite remove_absent by (rewrite <- E; exact Hn).
    rewrite countb_cons. lia.
  - rewrite !countb_cons. rewrite (IH Hd Hl). lia.
Qed.

Lemma countb_remove_false (f : peer -> bool) ps st :
  (forall p, In p ps -> pstore p = st -> f p = false) -> countb f (remove_store ps st) = countb f ps.
Proof.
  intros H. unfold remove_store. rewrite countb_filter. apply countb_ext. intros p Hp.
  destruct (on_store st p) eqn:E; cbn [negb andb]; [|reflexivity]. apply on_store_true in E. symmetry. apply H; auto.
Qed.

Lemma count_inj (f g : peer -> bool) : forall A B, ND A -> ND B ->
  (forall p, In p A -> f p = true -> exists q, lk B (pstore p) = Some q /\ g q = true) ->
  countb f A <= countb g B.
Proof.
  induction A as [|p A IH]; intros B HA HB H.
  - unfold countb at 1. cbn. apply countb_nonneg.
  - unfold ND in HA. cbn [map] in HA. inversion HA as [|x0 l0 Hn Hd]; subst x0 l0.
    rewrite countb_cons. destruct (f p) eqn:Fp; cbn [b2z].
    + destruct (H p (or_introl eq_refl) Fp) as (q & Hq & Gq).
      assert (E : countb g B = countb g (remove_store B (pstore p)) + 1).
      { rewrite (countb_remove g B (pstore p) q HB Hq), Gq. cbn. lia. }
      rewrite E.
      assert (IH' : countb f A <= countb g (remove_store B (pstore p))).
      { apply IH; [exact Hd|apply ND_filter; exact HB|].
        intros p' Hp' Fp'. destruct (H p' (or_intror Hp') Fp') as (q' & Hq' & Gq'). exists q'. split; [|exact Gq'].
        rewrite lk_remove_store by exact HB.
        destruct (pstore p' =? pstore p) eqn:Es; [|exact Hq'].
        apply Z.eqb_eq in Es. exfalso. apply Hn. rewrite <- Es. apply in_map. exact Hp'. }
      lia.
    + assert (IH' : countb f A <= countb g B).
      { apply IH; [exact Hd|exact HB|]. intros p' Hp' Fp'. apply H; [right; exact Hp'|exact Fp']. }
      lia.
Qed.

Lemma count_inj_strict (f g : peer -> bool) A B s q0 : ND A -> ND B ->
  (forall p, In p A -> f p = true -> pstore p <> s /\ exists q, lk B (pstore p) = Some q /\ g q = true) ->
  lk B s = Some q0 -> g q0 = true ->
  countb f A + 1 <= countb g B.
Proof.
  intros HA HB H Hq0 Gq0.
  assert (E : countb g B = countb g (remove_store B s) + 1).
  { rewrite (countb_remove g B s q0 HB Hq0), Gq0. cbn. lia. }
  rewrite E.
  assert (X : countb f A <= countb g (remove_store B s)).
  { apply count_inj; [exact HA|apply ND_filter; exact HB|].
    intros p Hp Fp. destruct (H p Hp Fp) as (Hs & q & Hq & Gq). exists q. split; [|exact Gq].
    rewrite lk_remove_store by exact HB. destruct (pstore p =? s) eqn:Es; [apply Z.eqb_eq in Es; contradiction|exact Hq]. }
  lia.
Qed.

Lemma countb_same_lookup (f : role -> bool) l1 l2 :
  ND l1 -> ND l2 -> (forall st, option_map prole (lk l1 st) = option_map prole (lk l2 st)) ->
  countb (fun p => f (prole p)) l1 = countb (fun p => f (prole p)) l2.
Proof.
  assert (G : forall a b, ND a -> ND b -> (forall st, option_map prole (lk a st) = option_map prole (lk b st)) ->
                          countb (fun p => f (prole p)) a <= countb (fun p => f (prole p)) b).
  { intros a b Ha Hb Hl. apply count_inj; auto. intros p Hp Fp. pose proof (Hl (pstore p)) as E. rewrite (lk_In _ _ Ha Hp) in E.
    destruct (lk b (pstore p)) as [q|]; [|discriminate]. inversion E as [Er]. exists q. rewrite <- Er. auto. }
  intros H1 H2 Hl. apply Z.le_antisymm; apply G; auto.
Qed.

Lemma is_learner_role p : is_learner p = true <-> prole p = Learner.
Proof. unfold is_learner. destruct (prole p); cbn; split; intros H; try reflexivity; discriminate. Qed.

Lemma peer_eta p : Peer (pstore p) (pid p) (prole p) = p.
Proof. destruct p; reflexivity. Qed.
