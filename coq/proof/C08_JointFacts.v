(* C08 — the parameters of the joint script, as computed by prepareBuild and build_joint from an origin
   peer list and a target map, satisfy the conditions of joint_script_ok. *)
From Coq Require Import String Sorting.Sorted.
From PDV Require Import lib.Base gen.Gen_C08 model.C08_Steps model.C08_Builder
     proof.C08_ListFacts proof.C08_PmapFacts proof.C08_SimPhases proof.C08_JointScript proof.C08_PrepareFacts proof.C08_JointBuild.
Local Open Scope list_scope.
Local Open Scope Z_scope.

Section Facts.
  Variables (ps0 : list peer) (target : pmap) (alloc : list (Z * Z)).
  Hypotheses (Hnd0 : ND ps0) (Hnj0 : NJ ps0) (Hst : PSorted target) (Hnjt : NJ target).

  Let origin := pm_of_list ps0.
  Let rem := cfold (f_rem target true) origin [].
  Let pro := cfold (f_pro target) origin [].
  Let dem := cfold (f_dem target true) origin [].
  Let add := cfold (f_add origin true alloc) target [].
  Let pro1 := cfold f_voter_add add pro.
  Let dem3 := cfold f_voter_rem rem dem.

  Definition o_at (st : Z) : option peer := lk ps0 st.
  Definition t_at (st : Z) : option peer := pm_get target st.

  Lemma origin_get st : pm_get origin st = lk ps0 st.
  Proof. apply pm_of_list_get. exact Hnd0. Qed.

  Lemma origin_nd : ND origin.
  Proof. apply PSorted_ND, pm_of_list_sorted. Qed.

  Lemma target_nd : ND target.
  Proof. apply PSorted_ND, Hst. Qed.

  Lemma rem_get st : pm_get rem st = match lk ps0 st with
                                     | Some p => if is_some (pm_get target st) then None else Some p
                                     | None => None end.
  Proof.
    unfold rem. rewrite cfold_get; [| |apply origin_nd].
    - fold (pm_get origin st). rewrite origin_get. destruct (lk ps0 st) as [p|] eqn:E; [|reflexivity].
      unfold f_rem. rewrite (lk_store _ _ _ E).
      destruct (pm_get target st) as [n0|]; [|reflexivity]. cbn [is_some].
      destruct (is_learner p); [reflexivity|]. destruct (is_learner (retarget p n0)); reflexivity.
    - intros o n. unfold f_rem. destruct (pm_get target (pstore o)); [|intros H; inversion H; reflexivity].
      destruct (is_learner o); [discriminate|]. destruct (is_learner (retarget o p)); discriminate.
  Qed.

  Lemma pro_get st : pm_get pro st = match lk ps0 st, pm_get target st with
                                     | Some p, Some n0 => if is_learner p && negb (is_learner n0) then Some (Peer st (pid p) (prole n0)) else None
                                     | _, _ => None end.
  Proof.
    unfold pro. rewrite cfold_get; [| |apply origin_nd].
    - fold (pm_get origin st). rewrite origin_get. destruct (lk ps0 st) as [p|] eqn:E; [|reflexivity].
      unfold f_pro. rewrite (lk_store _ _ _ E).
      destruct (pm_get target st) as [n0|] eqn:Et; [|reflexivity].
      rewrite retarget_learner. destruct (is_learner p); cbn [andb]; [|reflexivity].
      destruct (is_learner n0); cbn [negb]; [reflexivity|].
      rewrite retarget_eta by (rewrite (lk_store _ _ _ Et), (lk_store _ _ _ E); reflexivity). rewrite (lk_store _ _ _ E). reflexivity.
    - intros o n. unfold f_pro. destruct (pm_get target (pstore o)) as [n0|] eqn:Et; [|discriminate].
      destruct (is_learner o); [|discriminate]. destruct (negb (is_learner (retarget o n0))); [|discriminate].
      intros H; inversion H. apply retarget_store. apply (lk_store _ _ _ Et).
  Qed.

  Lemma dem_get st : pm_get dem st = match lk ps0 st, pm_get target st with
                                     | Some p, Some n0 => if negb (is_learner p) && is_learner n0 then Some (Peer st (pid p) (prole n0)) else None
                                     | _, _ => None end.
  Proof.
    unfold dem. rewrite cfold_get; [| |apply origin_nd].
    - fold (pm_get origin st). rewrite origin_get. destruct (lk ps0 st) as [p|] eqn:E; [|reflexivity].
      unfold f_dem. rewrite (lk_store _ _ _ E).
      destruct (pm_get target st) as [n0|] eqn:Et; [|reflexivity].
      rewrite retarget_learner. destruct (is_learner p); cbn [andb negb]; [reflexivity|].
      destruct (is_learner n0); [|reflexivity].
      rewrite retarget_eta by (rewrite (lk_store _ _ _ Et), (lk_store _ _ _ E); reflexivity). rewrite (lk_store _ _ _ E). reflexivity.
    - intros o n. unfold f_dem. destruct (pm_get target (pstore o)) as [n0|] eqn:Et; [|discriminate].
      destruct (is_learner o); [discriminate|]. destruct (is_learner (retarget o n0)); [|discriminate].
      intros H; inversion H. apply retarget_store. apply (lk_store _ _ _ Et).
  Qed.

  Definition add_id (n : peer) : Z := if pid n =? 0 then alloc_of alloc (pstore n) else pid n.

  Lemma add_get st : pm_get add st = match pm_get target st with
                                     | Some n => if is_some (lk ps0 st) then None else Some (Peer st (add_id n) (prole n))
                                     | None => None end.
  Proof.
    unfold add. rewrite cfold_get; [| |apply target_nd].
    - change (lk target st) with (pm_get target st). destruct (pm_get target st) as [n|] eqn:E; [|reflexivity].
      unfold f_add. rewrite origin_get, (lk_store _ _ _ E). cbn [negb andb orb]. rewrite orb_false_r.
      destruct (is_some (lk ps0 st)); cbn [negb]; [reflexivity|]. rewrite orb_false_r.
      unfold add_id. rewrite (lk_store _ _ _ E). destruct (pid n =? 0); [reflexivity|].
      rewrite <- (lk_store _ _ _ E). rewrite peer_eta. reflexivity.
    - intros o n. unfold f_add. destruct (negb (is_some (pm_get origin (pstore o))) || _); [|discriminate].
      intros H; inversion H. destruct ((pid o =? 0) || is_some (pm_get origin (pstore o))); reflexivity.
  Qed.

End Facts.

Lemma memst_pairs m st : memst st (pairs_of m) = is_some (lk m st).
Proof.
  unfold memst, pairs_of, lk. induction m as [|p r IH]; cbn [map existsb find]; [reflexivity|].
  cbn [fst]. unfold on_store at 1. destruct (pstore p =? st); [reflexivity|exact IH].
Qed.

Lemma learner_of_store a : pstore (learner_of a) = pstore a.
Proof. reflexivity. Qed.

Lemma NJ_voter ps p : NJ ps -> In p ps -> is_learner p = false -> prole p = Voter.
Proof.
  intros H Hin Hl. destruct (H p Hin) as [E|E]; [exact E|]. apply is_learner_role in E. congruence.
Qed.

Lemma lk_remove_all : forall R ps st, ND ps ->
  lk (remove_all ps R) st = if existsb (fun p => pstore p =? st) R then None else lk ps st.
Proof.
  unfold remove_all. induction R as [|p R IH]; intros ps st Hnd; cbn [fold_left existsb]; [reflexivity|].
  rewrite IH by (apply ND_filter; exact Hnd). rewrite lk_remove_store by exact Hnd.
  rewrite (Z.eqb_sym (pstore p) st). destruct (st =? pstore p); cbn [orb].
  - destruct (existsb (fun p0 => pstore p0 =? st) R); reflexivity.
  - reflexivity.
Qed.

Lemma existsb_store_lk m st : existsb (fun p => pstore p =? st) m = is_some (lk m st).
Proof.
  unfold lk. induction m as [|p r IH]; cbn [existsb find]; [reflexivity|].
  unfold on_store at 1. destruct (pstore p =? st); [reflexivity|exact IH].
Qed.

Lemma same_placement_lookup l1 l2 :
  ND l1 -> ND l2 -> (forall st, option_map prole (lk l1 st) = option_map prole (lk l2 st)) ->
  same_placement (placement l1) (placement l2) = true.
Proof.
  intros H1 H2 Hl.
  assert (G : forall a b, ND a -> (forall st, option_map prole (lk a st) = option_map prole (lk b st)) ->
                          forallb (fun x => existsb (pl_eqb x) (placement b)) (placement a) = true).
  { intros a b Ha Hab. apply forallb_forall. intros x Hx. unfold placement in Hx. apply in_map_iff in Hx as (p & <- & Hp).
    pose proof (Hab (pstore p)) as E. rewrite (lk_In _ _ Ha Hp) in E. cbn [option_map] in E.
    destruct (lk b (pstore p)) as [q|] eqn:Eq; [|discriminate]. cbn [option_map] in E. inversion E as [Er].
    apply existsb_exists. exists (pstore q, prole q). split; [unfold placement; apply in_map_iff; exists q; split; [reflexivity|apply (lk_Some _ _ _ Eq)]|].
    unfold pl_eqb; cbn [fst snd]. rewrite (proj2 (lk_Some _ _ _ Eq)), Z.eqb_refl, Er. destruct (prole q); reflexivity. }
  unfold same_placement. rewrite (G l1 l2 H1 Hl). rewrite (G l2 l1 H2 (fun st => eq_sym (Hl st))). reflexivity.
Qed.

Lemma countb_remove_all (g : peer -> bool) : forall R ps,
  ND ps -> (forall p, In p R -> forall q, lk ps (pstore p) = Some q -> g q = false) ->
  countb g (remove_all ps R) = countb g ps.
Proof.
  unfold remove_all. induction R as [|p R IH]; intros ps Hnd H; cbn [fold_left]; [reflexivity|].
  rewrite IH.
  - apply countb_remove_false. intros x Hx Hs. apply (H p (or_introl eq_refl)). rewrite <- Hs. apply lk_In; assumption.
  - apply ND_filter. exact Hnd.
  - intros q Hq x Hxl. rewrite lk_remove_store in Hxl by exact Hnd. destruct (pstore q =? pstore p); [discriminate|].
    apply (H q (or_intror Hq) x Hxl).
Qed.

Section Derived.
  Variables (ps0 : list peer) (target : pmap) (alloc : list (Z * Z)).
  Hypotheses (Hnd0 : ND ps0) (Hnj0 : NJ ps0) (Hst : PSorted target) (Hnjt : NJ target).

  Let origin := pm_of_list ps0.
  Let rem := cfold (f_rem target true) origin [].
  Let pro := cfold (f_pro target) origin [].
  Let dem := cfold (f_dem target true) origin [].
  Let add := cfold (f_add origin true alloc) target [].
  Let pro1 := cfold f_voter_add add pro.
  Let dem3 := cfold f_voter_rem rem dem.
  Let P := pairs_of pro1.
  Let D := pairs_of dem3.
  Let ps1 := ps0 ++ map learner_of add.
  Let ps4 := post_joint P D ps1.
  Let psF := remove_all ps4 rem.

  Let Rget := rem_get ps0 target Hnd0.
  Let Pget := pro_get ps0 target Hnd0.
  Let Dget := dem_get ps0 target Hnd0.
  Let Aget := add_get ps0 target alloc Hnd0 Hst.

  Lemma add_nd : ND add. Proof. apply PSorted_ND, cfold_sorted. constructor. Qed.
  Lemma rem_nd : ND rem. Proof. apply PSorted_ND, cfold_sorted. constructor. Qed.
  Lemma pro1_nd : ND pro1. Proof. apply PSorted_ND, cfold_sorted, cfold_sorted. constructor. Qed.
  Lemma dem3_nd : ND dem3. Proof. apply PSorted_ND, cfold_sorted, cfold_sorted. constructor. Qed.

  Lemma pro1_get st : pm_get pro1 st = match pm_get add st with
                                       | Some a => if is_learner a then pm_get pro st else Some a
                                       | None => pm_get pro st end.
  Proof.
    unfold pro1. rewrite cfold_get; [| |apply add_nd].
    - change (lk add st) with (pm_get add st). destruct (pm_get add st) as [a|]; [|reflexivity].
      unfold f_voter_add. destruct (is_learner a); reflexivity.
    - intros o n. unfold f_voter_add. destruct (is_learner o); [discriminate|]. intros H; inversion H; reflexivity.
  Qed.

  Lemma dem3_get st : pm_get dem3 st = match pm_get rem st with
                                       | Some p => if is_learner p then pm_get dem st else Some (Peer (pstore p) (pid p) Learner)
                                       | None => pm_get dem st end.
  Proof.
    unfold dem3. rewrite cfold_get; [| |apply rem_nd].
    - change (lk rem st) with (pm_get rem st). destruct (pm_get rem st) as [p|]; [|reflexivity].
      unfold f_voter_rem. destruct (is_learner p); reflexivity.
    - intros o n. unfold f_voter_rem. destruct (is_learner o); [discriminate|]. intros H; inversion H; reflexivity.
  Qed.

  Lemma lk_ps1 st : lk ps1 st = match lk ps0 st with Some p => Some p | None => option_map learner_of (pm_get add st) end.
  Proof.
    unfold ps1. rewrite lk_app. destruct (lk ps0 st); [reflexivity|]. apply lk_map. intros p. reflexivity.
  Qed.

  Lemma add_fresh a : In a add -> lk ps0 (pstore a) = None.
  Proof.
    intros Hin. apply (pm_In_get _ _ add_nd) in Hin. rewrite Aget in Hin.
    destruct (pm_get target (pstore a)); [|discriminate]. destruct (lk ps0 (pstore a)); [discriminate|reflexivity].
  Qed.

  Lemma add_learners_nd : ND (map learner_of add).
  Proof. apply ND_map; [intros p; reflexivity|apply add_nd]. Qed.

  Lemma promoted_is_learner x : In x P -> lk ps1 (fst x) = Some (Peer (fst x) (snd x) Learner).
  Proof.
    destruct x as [st id]. cbn [fst snd]. intros Hin. apply pairs_of_In in Hin as (p & Hp & Hs & Hi).
    apply (pm_In_get _ _ pro1_nd) in Hp. rewrite Hs in Hp. rewrite pro1_get in Hp. rewrite lk_ps1.
    destruct (pm_get add st) as [a|] eqn:Ea.
    - assert (Hnone : lk ps0 st = None).
      { rewrite Aget in Ea. destruct (pm_get target st); [|discriminate]. destruct (lk ps0 st); [discriminate|reflexivity]. }
      rewrite Hnone. destruct (is_learner a).
      + rewrite Pget, Hnone in Hp. discriminate.
      + inversion Hp; subst a. cbn [option_map]. unfold learner_of. rewrite Hs, Hi. reflexivity.
    - rewrite Pget in Hp. destruct (lk ps0 st) as [q|] eqn:Eq; [|discriminate].
      destruct (pm_get target st) as [n0|]; [|discriminate].
      destruct (is_learner q) eqn:El; cbn [andb] in Hp; [|discriminate].
      destruct (negb (is_learner n0)); [|discriminate]. inversion Hp; subst p. cbn [pid] in Hi. subst id.
      apply is_learner_role in El. rewrite <- El, <- (lk_store _ _ _ Eq). rewrite peer_eta. reflexivity.
  Qed.

  Lemma demoted_is_voter x : In x D -> lk ps1 (fst x) = Some (Peer (fst x) (snd x) Voter).
  Proof.
    destruct x as [st id]. cbn [fst snd]. intros Hin. apply pairs_of_In in Hin as (p & Hp & Hs & Hi).
    apply (pm_In_get _ _ dem3_nd) in Hp. rewrite Hs in Hp. rewrite dem3_get in Hp. rewrite lk_ps1.
    assert (G : forall q, lk ps0 st = Some q -> is_learner q = false -> pid q = id -> Some q = Some (Peer st id Voter)).
    { intros q Eq El Ei. rewrite <- Ei, <- (lk_store _ _ _ Eq). rewrite <- (NJ_voter ps0 q Hnj0 (proj1 (lk_Some _ _ _ Eq)) El). rewrite peer_eta. reflexivity. }
    destruct (pm_get rem st) as [q|] eqn:Er.
    - rewrite Rget in Er. destruct (lk ps0 st) as [q'|] eqn:Eq; [|discriminate].
      destruct (is_some (pm_get target st)) eqn:Et; [discriminate|]. inversion Er; subst q'.
      destruct (is_learner q) eqn:El.
      + rewrite Dget, Eq in Hp. destruct (pm_get target st); [discriminate|discriminate].
      + inversion Hp; subst p. cbn [pid] in Hi. apply G; auto.
    - rewrite Dget in Hp. destruct (lk ps0 st) as [q|] eqn:Eq; [|discriminate].
      destruct (pm_get target st) as [n0|]; [|discriminate].
      destruct (is_learner q) eqn:El; cbn [negb andb] in Hp; [discriminate|].
      destruct (is_learner n0); [|discriminate]. inversion Hp; subst p. cbn [pid] in Hi. apply G; auto.
  Qed.

  Lemma promoted_nodup : NoDup (map fst P).
  Proof. unfold P. rewrite pairs_of_fst. apply pro1_nd. Qed.
  Lemma demoted_nodup : NoDup (map fst D).
  Proof. unfold D. rewrite pairs_of_fst. apply dem3_nd. Qed.

  Lemma demoted_not_promoted x : In x D -> ~ In (fst x) (map fst P).
  Proof.
    intros Hd Hp. apply in_map_iff in Hp as (y & Hy & Hyin).
    pose proof (demoted_is_voter x Hd) as E1. pose proof (promoted_is_learner y Hyin) as E2. rewrite Hy in E2. rewrite E1 in E2. discriminate.
  Qed.

  Lemma ps1_nd : ND ps1.
  Proof.
    unfold ps1. apply ND_app; [exact Hnd0|apply add_learners_nd|].
    intros q Hq. apply in_map_iff in Hq as (a & <- & Ha). change (pstore (learner_of a)) with (pstore a). apply add_fresh. exact Ha.
  Qed.

  Lemma lk_ps4 st : lk ps4 st = option_map (fun p => leave_role (enter_role P D p)) (lk ps1 st).
  Proof.
    unfold ps4, post_joint. rewrite lk_map by apply leave_role_store. rewrite lk_map by (intros q; apply enter_role_store).
    destruct (lk ps1 st); reflexivity.
  Qed.

  Lemma ps4_nd : ND ps4.
  Proof.
    unfold ps4, post_joint. apply ND_map; [apply leave_role_store|]. apply ND_map; [intros q; apply enter_role_store|apply ps1_nd].
  Qed.

  Lemma memP st : memst st P = is_some (pm_get pro1 st).
  Proof. apply memst_pairs. Qed.
  Lemma memD st : memst st D = is_some (pm_get dem3 st).
  Proof. apply memst_pairs. Qed.

  Lemma removed_is_learner p : In p rem -> lk ps4 (pstore p) = Some (Peer (pstore p) (pid p) Learner) /\ pm_get target (pstore p) = None.
  Proof.
    intros Hin. apply (pm_In_get _ _ rem_nd) in Hin. pose proof Hin as Hr. rewrite Rget in Hin.
    destruct (lk ps0 (pstore p)) as [q|] eqn:Eq; [|discriminate].
    destruct (pm_get target (pstore p)) eqn:Et; [discriminate|]. cbn [is_some] in Hin. inversion Hin; subst q.
    split; [|reflexivity].
    rewrite lk_ps4, lk_ps1, Eq. cbn [option_map]. unfold enter_role. rewrite memP, memD.
    assert (Ea : pm_get add (pstore p) = None) by (rewrite Aget, Et; reflexivity).
    assert (Epro : pm_get pro (pstore p) = None) by (rewrite Pget, Eq, Et; reflexivity).
    assert (Edem : pm_get dem (pstore p) = None) by (rewrite Dget, Eq, Et; reflexivity).
    rewrite pro1_get, Ea, Epro. cbn [is_some]. rewrite dem3_get, Hr.
    destruct (is_learner p) eqn:El.
    - rewrite Edem. cbn [is_some]. unfold leave_role. apply is_learner_role in El. rewrite El. rewrite <- El. rewrite peer_eta. reflexivity.
    - cbn [is_some]. reflexivity.
  Qed.

  Lemma final_lookup st : option_map prole (lk psF st) = option_map prole (pm_get target st).
  Proof.
    unfold psF. rewrite lk_remove_all by apply ps4_nd. rewrite existsb_store_lk. change (lk rem st) with (pm_get rem st).
    rewrite Rget. rewrite lk_ps4, lk_ps1.
    destruct (lk ps0 st) as [p|] eqn:Eo; destruct (pm_get target st) as [n|] eqn:Et; cbn [is_some].
    - cbn [option_map]. unfold enter_role. rewrite (lk_store _ _ _ Eo), memP, memD.
      assert (Ea : pm_get add st = None) by (rewrite Aget, Et, Eo; reflexivity).
      assert (Er : pm_get rem st = None) by (rewrite Rget, Eo, Et; reflexivity).
      rewrite pro1_get, Ea, dem3_get, Er, Pget, Dget, Eo, Et.
      pose proof (Hnjt n (proj1 (lk_Some _ _ _ Et))) as Hn.
      destruct (is_learner p) eqn:Elp; destruct (is_learner n) eqn:Eln; cbn [andb negb is_some].
      + apply is_learner_role in Elp, Eln. destruct p as [sp ip rp]; cbn in Elp; subst rp. cbn. rewrite Eln. reflexivity.
      + cbn. destruct Hn as [E|E]; [rewrite E; reflexivity|apply is_learner_role in E; congruence].
      + cbn. apply is_learner_role in Eln. rewrite Eln. reflexivity.
      + pose proof (NJ_voter ps0 p Hnj0 (proj1 (lk_Some _ _ _ Eo)) Elp) as Ev.
        destruct p as [sp ip rp]; cbn in Ev; subst rp. cbn.
        destruct Hn as [E|E]; [rewrite E; reflexivity|apply is_learner_role in E; congruence].
    - reflexivity.
    - assert (Ea : pm_get add st = Some (Peer st (add_id alloc n) (prole n))) by (rewrite Aget, Et, Eo; reflexivity).
      assert (Er : pm_get rem st = None) by (rewrite Rget, Eo; reflexivity).
      rewrite Ea. cbn [option_map]. unfold enter_role, learner_of. cbn [pstore pid]. rewrite memP, memD.
      rewrite pro1_get, Ea, dem3_get, Er, Pget, Dget, Eo.
      pose proof (Hnjt n (proj1 (lk_Some _ _ _ Et))) as Hn.
      unfold is_learner at 1. cbn [prole]. destruct Hn as [E|E]; rewrite E; cbn; reflexivity.
    - assert (Ea : pm_get add st = None) by (rewrite Aget, Et; reflexivity). rewrite Ea. reflexivity.
  Qed.

  Definition tvoter (st : Z) : bool := match pm_get target st with Some p => negb (is_learner p) | None => false end.
  Definition ovoter (st : Z) : bool := match lk ps0 st with Some p => negb (is_learner p) | None => false end.

  Lemma D_not_tvoter st : In st (map fst D) -> tvoter st = false.
  Proof.
    intros Hin. unfold D in Hin. rewrite pairs_of_fst in Hin. apply in_map_iff in Hin as (p & Hs & Hp).
    apply (pm_In_get _ _ dem3_nd) in Hp. rewrite Hs in Hp. rewrite dem3_get in Hp. unfold tvoter.
    destruct (pm_get rem st) as [q|] eqn:Er.
    - rewrite Rget in Er. destruct (lk ps0 st); [|discriminate]. destruct (pm_get target st); [discriminate|reflexivity].
    - rewrite Dget in Hp. destruct (lk ps0 st) as [q|]; [|discriminate]. destruct (pm_get target st) as [n0|]; [|reflexivity].
      destruct (is_learner n0); [reflexivity|]. rewrite andb_false_r in Hp. discriminate.
  Qed.

  Lemma P_when st : ovoter st = false -> tvoter st = true -> In st (map fst P).
  Proof.
    unfold ovoter, tvoter. intros Ho Ht. unfold P. rewrite pairs_of_fst.
    destruct (pm_get target st) as [n|] eqn:Et; [|discriminate]. apply negb_true_iff in Ht.
    assert (E : exists p, pm_get pro1 st = Some p).
    { rewrite pro1_get, Aget, Et. destruct (lk ps0 st) as [q|] eqn:Eq; cbn [is_some].
      - rewrite Pget, Eq, Et. apply negb_false_iff in Ho. rewrite Ho, Ht. cbn. eauto.
      - unfold is_learner at 1. cbn [prole]. fold (is_learner n). rewrite Ht. eauto. }
    destruct E as (p & Hp). apply in_map_iff. exists p. split; [apply (lk_store _ _ _ Hp)|apply (lk_Some _ _ _ Hp)].
  Qed.

  Lemma ps4_at_voter st : tvoter st = true -> exists q, lk ps4 st = Some q /\ prole q = Voter.
  Proof.
    intros Ht. pose proof (final_lookup st) as F. unfold tvoter in Ht.
    destruct (pm_get target st) as [n|] eqn:Et; [|discriminate]. cbn [option_map] in F.
    unfold psF in F. rewrite lk_remove_all in F by apply ps4_nd.
    destruct (existsb (fun p => pstore p =? st) rem); [discriminate|].
    destruct (lk ps4 st) as [q|]; [|discriminate]. cbn [option_map] in F. inversion F as [Fr].
    exists q. split; [reflexivity|]. rewrite Fr. apply negb_true_iff in Ht.
    destruct (Hnjt n (proj1 (lk_Some _ _ _ Et))) as [E|E]; [exact E|apply is_learner_role in E; congruence].
  Qed.

  Lemma ps1_at_ovoter st : ovoter st = true -> exists q, lk ps1 st = Some q /\ prole q = Voter.
  Proof.
    unfold ovoter. intros Ho. destruct (lk ps0 st) as [q|] eqn:Eq; [|discriminate].
    exists q. split; [rewrite lk_ps1, Eq; reflexivity|]. apply negb_true_iff in Ho.
    apply (NJ_voter ps0 q Hnj0 (proj1 (lk_Some _ _ _ Eq)) Ho).
  Qed.

  Lemma psF_nd : ND psF.
  Proof.
    unfold psF, remove_all. generalize ps4_nd. generalize ps4. induction rem as [|p R IH]; intros l Hl; cbn [fold_left]; [exact Hl|].
    apply IH. apply ND_filter. exact Hl.
  Qed.

  Lemma voters_new_enter : voters_new (map (enter_role P D) ps1) = voters_new target.
  Proof.
    transitivity (voters_new ps4).
    { unfold ps4, post_joint, voters_new. rewrite (countb_map new_voter leave_role). apply countb_ext. intros q _.
      unfold leave_role, new_voter. destruct (prole q) eqn:E; cbn [prole]; rewrite ?E; reflexivity. }
    transitivity (voters_new psF).
    { unfold psF, voters_new. symmetry. apply countb_remove_all; [apply ps4_nd|].
      intros p Hp q Hq. destruct (removed_is_learner p Hp) as (E & _). rewrite E in Hq. inversion Hq. reflexivity. }
    unfold voters_new.
    change new_voter with (fun p => (fun ro => match ro with Voter | Incoming => true | _ => false end) (prole p)).
    apply countb_same_lookup; [apply psF_nd|apply target_nd; exact Hst|]. intros st. apply final_lookup.
  Qed.

  Lemma joint_params : JointParams ps0 target add P D rem.
  Proof.
    constructor.
    - apply add_nd.
    - apply add_fresh.
    - apply promoted_is_learner.
    - apply demoted_is_voter.
    - apply promoted_nodup.
    - apply demoted_nodup.
    - apply demoted_not_promoted.
    - apply rem_nd.
    - intros p Hp. apply (removed_is_learner p Hp).
    - intros p Hp. split; [|apply (removed_is_learner p Hp)].
      apply (pm_In_get _ _ rem_nd) in Hp. rewrite Rget in Hp. destruct (lk ps0 (pstore p)) as [q|]; [|discriminate].
      destruct (is_some (pm_get target (pstore p))); [discriminate|exact Hp].
  Qed.

  Lemma joint_plan_ok g l0 rg cv light m tl :
    (exists lp, lk ps0 l0 = Some lp /\ prole lp = Voter) ->
    tvoter tl = true ->
    match m with
    | TBefore => l0 <> tl /\ ovoter tl = true
    | TStay => l0 = tl
    | TAfter => l0 <> tl /\ ovoter tl = false /\ tvoter l0 = true
    | TInside => l0 <> tl /\ ovoter tl = false /\ tvoter l0 = false
    end ->
    g_min_voters g <= voters_old ps0 -> g_min_voters g <= voters_new ps0 -> g_min_voters g <= voters_new target ->
    g_target g = placement target -> (g_leader g = 0 \/ g_leader g = tl) ->
    forall ol, plan_check g (reg ps0 l0 rg cv) (joint_plan light add P D rem m ol tl) = None.
  Proof.
    intros Hlead Htv Hmode Hvo Hvn Hvt Hgt Hgl.
    assert (HnotD : forall st, tvoter st = true -> ~ In st (map fst D)).
    { intros st Ht C. rewrite (D_not_tvoter st C) in Ht. discriminate. }
    apply (joint_script_ok g ps0 target); auto.
    - apply joint_params.
    - intros p Hp C. unfold tvoter in Htv. rewrite <- C, (proj2 (removed_is_learner p Hp)) in Htv. discriminate.
    - destruct m.
      + destruct Hmode as (Hne & Ho). split; [auto|]. split; [apply ps1_at_ovoter; exact Ho|apply HnotD; exact Htv].
      + destruct Hmode as (Hne & Ho & Ht). split; [auto|]. split; [apply HnotD; exact Ht|apply ps4_at_voter; exact Htv].
      + destruct Hmode as (Hne & Ho & Ht). split; [auto|]. apply P_when; assumption.
      + split; [auto|]. rewrite Hmode. apply HnotD. exact Htv.
    - rewrite <- voters_new_enter in Hvt. exact Hvt.
    - rewrite Hgt. apply same_placement_lookup; [exact psF_nd|apply PSorted_ND; exact Hst|exact final_lookup].
  Qed.
End Derived.
