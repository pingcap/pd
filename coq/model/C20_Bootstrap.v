(* C20 — executable model of cluster bootstrap and cluster-id initialisation
     server/grpc_service.go : Bootstrap, IsBootstrapped, validateRequest
     server/server.go       : bootstrapCluster, initClusterID, GetRaftCluster
     server/util.go         : checkBootstrapRequest, initOrGetClusterID
   Definitions only; proofs live in proof/C20_BootstrapProof.v.

   A Bootstrap request is three labels: LBegin (validateRequest, the rc == nil test,
   checkBootstrapRequest — all in memory), LTxn (the one etcd transaction, guarded by
   CreateRevision(cluster root) = 0, with its storage outcome), LStart (only the winner: SaveRegion,
   Flush, cluster.Start, answer).  A member initialising the cluster id is LMemGet (initClusterID's
   Get) and LMemTxn (initOrGetClusterID's create-if-absent-else-get transaction).  Any number of
   request threads and members interleave freely; LReload / LStop are what a leader change does to
   the raft cluster of the serving member. *)
From Coq Require Import String.
From PDV Require Import lib.Base lib.Skel gen.Gen_C20.
Local Open Scope Z_scope.

(* ---------- payload, projected to what checkBootstrapRequest and the four puts read ---------- *)
Record peer := Peer { p_id : Z; p_store : Z }.
Record region := Region { r_id : Z; r_start_empty : bool; r_end_empty : bool; r_peers : list peer }.
Record payload := Payload { pl_store : option Z; pl_region : option region }.

Inductive invalid := NoStore | ZeroStoreId | NoRegion | KeyRange | ZeroRegionId | PeerCount | PeerStore | ZeroPeerId.

(* checkBootstrapRequest, clause by clause in source order (Gen_C20.bootstrap_checks) *)
Definition check_req (p : payload) : option invalid :=
  match pl_store p with
  | None => Some NoStore
  | Some sid =>
      if sid =? 0 then Some ZeroStoreId else
      match pl_region p with
      | None => Some NoRegion
      | Some r =>
          if negb (r_start_empty r) || negb (r_end_empty r) then Some KeyRange
          else if r_id r =? 0 then Some ZeroRegionId
          else match r_peers r with
               | [pe] => if negb (p_store pe =? sid) then Some PeerStore
                         else if p_id pe =? 0 then Some ZeroPeerId else None
               | _ => Some PeerCount
               end
      end
  end.

Definition store_of (p : payload) : Z := match pl_store p with Some s => s | None => 0 end.
Definition region_of (p : payload) : Z := match pl_region p with Some r => r_id r | None => 0 end.

(* ---------- etcd ---------- *)
Fixpoint put_id (k : Z) (w : nat) (l : list (Z * nat)) : list (Z * nat) :=
  match l with
  | [] => [(k, w)]
  | (k', w') :: r => if k <? k' then (k, w) :: l else if k =? k' then (k, w) :: r else (k', w') :: put_id k w r
  end.

Record etcd := Etcd {
  root    : option nat;          (* <root>/raft (cluster meta): the request that wrote it *)
  btime   : option nat;          (* raft/status/raft_bootstrap_time *)
  stores  : list (Z * nat);      (* raft/s/<store id> -> writer, in key order *)
  regions : list (Z * nat);      (* raft/r/<region id> -> writer *)
  cid     : option Z             (* /pd/cluster_id *)
}.

Inductive outcome := Ok | ErrNotApplied | ErrApplied.

Inductive pc := PAfterRc (n : nat) (p : payload) | PWon (n : nat) (p : payload).

Record state := State {
  e       : etcd;
  scid    : Z;                       (* the serving member's s.clusterID *)
  running : bool;                    (* s.cluster.IsRunning() *)
  thr     : nat -> option pc;
  nreq    : nat;                     (* requests are numbered in order of their LBegin *)
  reqs    : list (nat * payload);    (* ghost: request number -> payload *)
  applied : list nat;                (* ghost: requests whose transaction was applied in etcd *)
  acked   : list nat;                (* ghost: requests answered OK *)
  done_ok : list nat;                (* ghost: requests whose transaction returned without a storage error *)
  mpend   : nat -> bool;             (* members between their Get and their Txn *)
  mids    : nat -> option Z          (* cluster id a member ended up with *)
}.

Definition e0 : etcd := Etcd None None [] [] None.
Definition init (c : Z) : state := State e0 c false (fun _ => None) 0 [] [] [] [] (fun _ => false) (fun _ => None).

Inductive label :=
| LBegin (t : nat) (hid : Z) (p : payload)   (* validateRequest(header id); rc := GetRaftCluster(); checkBootstrapRequest *)
| LTxn (t : nat) (o : outcome)               (* If(CreateRevision(root) = 0).Then(4 puts).Commit() *)
| LStart (t : nat)                           (* winner: SaveRegion, Flush, cluster.Start; answer OK *)
| LStartFail (t : nat)                       (* winner: cluster.Start fails (a storage error while it loads what the transaction wrote;
                                                a failing SaveRegion/Flush is only logged): the answer is an error although the
                                                record is stored; the cluster is not running on this member until the next reload *)
| LReload                                    (* leader change: stopRaftCluster ; createRaftCluster *)
| LStop                                      (* step down / close: stopRaftCluster *)
| LMemGet (m : nat)                          (* initClusterID: Get(/pd/cluster_id) *)
| LMemTxn (m : nat) (c : Z) (o : outcome).   (* initOrGetClusterID with the random candidate c *)

Definition is_some {A} (o : option A) : bool := match o with Some _ => true | None => false end.

Definition set_thr (s : state) (t : nat) (x : option pc) : nat -> option pc :=
  fun j => if Nat.eqb j t then x else thr s j.

(* the four puts of the bootstrap transaction, by request n with payload p *)
Definition boot_puts (n : nat) (p : payload) (x : etcd) : etcd :=
  Etcd (Some n) (Some n) (put_id (store_of p) n (stores x)) (put_id (region_of p) n (regions x)) (cid x).

Definition step (s : state) (l : label) : option state :=
  match l with
  | LBegin t hid p =>
      match thr s t with
      | Some _ => None
      | None =>
          if negb (hid =? scid s) then Some s                       (* mismatch cluster id: refused *)
          else if running s then Some s                             (* ALREADY_BOOTSTRAPPED *)
          else match check_req p with
               | Some _ => Some s                                   (* invalid payload: error *)
               | None =>
                   Some (State (e s) (scid s) (running s) (set_thr s t (Some (PAfterRc (nreq s) p)))
                               (S (nreq s)) ((nreq s, p) :: reqs s) (applied s) (acked s) (done_ok s) (mpend s) (mids s))
               end
      end
  | LTxn t o =>
      match thr s t with
      | Some (PAfterRc n p) =>
          let free := negb (is_some (root (e s))) in                (* CreateRevision(root) = 0 *)
          let app := match o with ErrNotApplied => false | _ => free end in
          let e' := if app then boot_puts n p (e s) else e s in
          let applied' := if app then n :: applied s else applied s in
          let won := match o with Ok => free | _ => false end in
          let done' := match o with Ok => n :: done_ok s | _ => done_ok s end in
          Some (State e' (scid s) (running s) (set_thr s t (if won then Some (PWon n p) else None))
                      (nreq s) (reqs s) applied' (acked s) done' (mpend s) (mids s))
      | _ => None
      end
  | LStart t =>
      match thr s t with
      | Some (PWon n p) =>
          Some (State (e s) (scid s) true (set_thr s t None) (nreq s) (reqs s) (applied s) (n :: acked s) (done_ok s) (mpend s) (mids s))
      | _ => None
      end
  | LStartFail t =>
      match thr s t with
      | Some (PWon n p) =>
          Some (State (e s) (scid s) (running s) (set_thr s t None) (nreq s) (reqs s) (applied s) (acked s) (done_ok s) (mpend s) (mids s))
      | _ => None
      end
  | LReload =>
      Some (State (e s) (scid s) (is_some (root (e s))) (thr s) (nreq s) (reqs s) (applied s) (acked s) (done_ok s) (mpend s) (mids s))
  | LStop =>
      Some (State (e s) (scid s) false (thr s) (nreq s) (reqs s) (applied s) (acked s) (done_ok s) (mpend s) (mids s))
  | LMemGet m =>
      if mpend s m then None
      else match cid (e s) with
           | Some v => Some (State (e s) (scid s) (running s) (thr s) (nreq s) (reqs s) (applied s) (acked s) (done_ok s) (mpend s)
                                   (fun j => if Nat.eqb j m then Some v else mids s j))
           | None => Some (State (e s) (scid s) (running s) (thr s) (nreq s) (reqs s) (applied s) (acked s) (done_ok s)
                                 (fun j => if Nat.eqb j m then true else mpend s j) (mids s))
           end
  | LMemTxn m c o =>
      if negb (mpend s m) then None
      else
        let free := negb (is_some (cid (e s))) in                   (* CreateRevision(key) = 0 *)
        let app := match o with ErrNotApplied => false | _ => free end in
        let e' := if app then Etcd (root (e s)) (btime (e s)) (stores (e s)) (regions (e s)) (Some c) else e s in
        let got := match o with Ok => cid e' | _ => None end in     (* Then: the candidate; Else(OpGet): the stored one *)
        Some (State e' (scid s) (running s) (thr s) (nreq s) (reqs s) (applied s) (acked s) (done_ok s)
                    (fun j => if Nat.eqb j m then false else mpend s j)
                    (fun j => if Nat.eqb j m then (match got with Some v => Some v | None => mids s j end) else mids s j))
  end.

(* ---------- the start-up identity check (etcdutil.CheckClusterID, run by startEtcd on every member) ----------
   The peers listed in initial-cluster are asked one after the other for the id of the etcd cluster they belong to:
   None = the peer did not answer (skipped: it may not be up yet), Some id = its answer. The first answer that differs
   from the member's own id refuses the start-up; nothing else ends the walk (skeleton obligations
   skel_CheckClusterID_ok / check_cluster_id_flow_ok). *)
Fixpoint startup_check (local : Z) (answers : list (option Z)) : bool :=
  match answers with
  | [] => true
  | None :: r => startup_check local r
  | Some id :: r => if id =? local then startup_check local r else false
  end.

(* ---------- operation-level wrapper used by the correspondence check ---------- *)
Inductive op :=
| OBoot (t : nat) (h : option Z) (p : payload)   (* complete Bootstrap call; h = the request header: None = no header
                                                   message at all, Some id = header carrying cluster id `id` *)
| OBegin (t : nat) (h : option Z) (p : payload)  (* Bootstrap whose transaction is parked *)
| OFinish (t : nat) (o : outcome)             (* release it with this storage outcome; includes the winner's start *)
| OFinishStartFail (t : nat)                  (* release it (Ok); if it wins, its cluster.Start fails on a storage error *)
| OCommit (t : nat)                           (* the parked transaction is sent and decided by etcd (LTxn t Ok); if it wins, etcd's
                                                 answer is held on its way back: the request stays between LTxn and LStart
                                                 (OFinish t then lets it go on); if it loses it is answered at once *)
| OFinishSlow (t : nat) (ms : Z)              (* release it; etcd takes ms milliseconds over the transaction and applies it then,
                                                 whether or not the caller still waits. Below request_timeout_ms this is the
                                                 Ok outcome: the request waits for etcd's answer *)
| OServed                                     (* the ids of the regions the leader's running raft cluster serves *)
| OIsBoot
| OReload
| OStop
| OMemInit (m : nat)                          (* complete initClusterID *)
| OMemBegin (m : nat)                         (* initClusterID whose transaction is parked *)
| OMemFinish (m : nat) (o : outcome)
| OCall (name : string) (h : option Z)        (* handler `name` called with an otherwise empty request and header h *)
| OStream (name : string) (hs : list (option Z))
| OPutConfig (body : option (Z * Z))         (* PutClusterConfig, correct header; body = None: no cluster message at all,
                                                Some (id, max_peer_count): the metapb.Cluster it carries (unset fields are 0) *)
| OGetConfig.                                (* GetClusterConfig *)  (* ONE stream of the streaming handler `name` carrying the messages with headers hs *)

Inductive obs :=
| BOk | BAlready | BInvalid (k : invalid) | BConflict | BEtcdErr | BMismatch | BStartErr | BInvalidCfg
| BStarted | BBool (b : bool) | BUnit
| BId (k : nat)            (* cluster id, renamed by order of first appearance *)
| BAccepted | BNotBoot | BBad
| BStream (answers : list obs)
| BRegions (l : list Z)
| BCfg (own_id : bool) (max_peers : Z).   (* the cluster meta served: does it carry the cluster's id; its max_peer_count *)   (* per message of a stream, until the handler returned *)

(* what the driver reads from etcd after every operation *)
Record view := View { v_root : bool; v_time : bool; v_stores : list Z; v_regions : list Z; v_cid : option nat;
                      v_rstore : list Z (* region ids in the region storage, from which regions are loaded at a restart *) }.

(* run state: model state, next candidate number, ids seen so far (for renaming) *)
Record rstate := R { rs : state; next_c : Z; seen : list Z; cfg : Z (* max_peer_count of the stored cluster meta *);
                     rst : list Z (* region storage: the winner saves its region there after its transaction *) }.

Fixpoint index_of (x : Z) (l : list Z) (n : nat) : option nat :=
  match l with [] => None | y :: r => if x =? y then Some n else index_of x r (S n) end.
Definition rename (sn : list Z) (v : Z) : list Z * nat :=
  match index_of v sn 0 with Some k => (sn, k) | None => (app sn [v], List.length sn) end.

(* RequestHeader.GetClusterId(): protobuf getters are nil-safe, a request without header carries id 0 *)
Definition hid_of (h : option Z) : Z := match h with Some z => z | None => 0 end.

Definition the_cid : Z := 7.    (* the serving member's cluster id in the wrapper; requests carry 7 or something else *)
Definition default_max_peers : Z := 3.   (* config default max-replicas, written by bootstrapCluster *)
Definition rinit : rstate := R (init the_cid) 100 [] default_max_peers [].

Definition exempt (h : string) : bool :=
  existsb (String.eqb h) ["GetMembers"; "SyncMaxTS"; "GetDCLocationInfo"].

(* ---------- streaming handlers: the caller is validated for EVERY message of a stream ----------
   Tso, RegionHeartbeat and SyncRegions run a receive loop; the cluster id check sits inside the loop, unconditionally
   (C20_stream_handlers_check_every_message in props/C20.v).  A message that is refused ends the stream (the
   handler returns the error).  After an accepted message the handler goes on receiving (the driver sends well-formed
   heartbeats of the bootstrapped store on a RegionHeartbeat stream); without a running cluster RegionHeartbeat answers
   NOT_BOOTSTRAPPED and ends. *)
Fixpoint stream_run (name : string) (running : bool) (cid : Z) (hs : list (option Z)) : list obs :=
  match hs with
  | [] => []
  | h :: r =>
      if String.eqb name "RegionHeartbeat" && negb running then [BNotBoot]
      else if negb (hid_of h =? cid) then [BMismatch]
      else BAccepted :: stream_run name running cid r
  end.

Definition boot_begin (s : state) (t : nat) (hid : Z) (p : payload) : option (state * obs) :=
  match thr s t with
  | Some _ => None
  | None =>
      match step s (LBegin t hid p) with
      | None => None
      | Some s1 =>
          Some (s1, if negb (hid =? scid s) then BMismatch
                    else if running s then BAlready
                    else match check_req p with Some k => BInvalid k | None => BStarted end)
      end
  end.

Definition boot_finish (s : state) (t : nat) (o : outcome) : option (state * obs) :=
  match thr s t with
  | Some (PAfterRc _ _) =>
      match step s (LTxn t o) with
      | None => None
      | Some s1 =>
          match o with
          | Ok => match thr s1 t with
                  | Some (PWon _ _) => match step s1 (LStart t) with Some s2 => Some (s2, BOk) | None => None end
                  | _ => Some (s1, BConflict)
                  end
          | _ => Some (s1, BEtcdErr)
          end
      end
  | Some (PWon _ _) =>                      (* its transaction was decided by OCommit: the held answer arrives *)
      match step s (LStart t) with Some s2 => Some (s2, BOk) | None => None end
  | _ => None
  end.

(* how long a bootstrap transaction waits for etcd (kv.requestTimeout, pinned by request_timeout_matches_code) *)
Definition request_timeout_ms : Z := 10000.

Definition boot_commit (s : state) (t : nat) : option (state * obs) :=
  match thr s t with
  | Some (PAfterRc _ _) =>
      match step s (LTxn t Ok) with
      | None => None
      | Some s1 => Some (s1, match thr s1 t with Some (PWon _ _) => BStarted | _ => BConflict end)
      end
  | _ => None
  end.

Definition boot_finish_startfail (s : state) (t : nat) : option (state * obs) :=
  match thr s t with
  | Some (PAfterRc _ _) =>
      match step s (LTxn t Ok) with
      | None => None
      | Some s1 =>
          match thr s1 t with
          | Some (PWon _ _) => match step s1 (LStartFail t) with Some s2 => Some (s2, BStartErr) | None => None end
          | _ => Some (s1, BConflict)
          end
      end
  | _ => None
  end.

Definition mem_finish (r : rstate) (m : nat) (o : outcome) : rstate * obs :=
  let s := rs r in
  match step s (LMemTxn m (next_c r) o) with
  | None => (r, BBad)
  | Some s1 =>
      match o with
      | Ok => match mids s1 m with
              | Some v => let '(sn, k) := rename (seen r) v in (R s1 (next_c r + 1) sn (cfg r) (rst r), BId k)
              | None => (R s1 (next_c r + 1) (seen r) (cfg r) (rst r), BBad)
              end
      | _ => (R s1 (next_c r + 1) (seen r) (cfg r) (rst r), BEtcdErr)
      end
  end.

(* a bootstrap transaction that gets applied writes the cluster meta with the default max_peer_count *)
Definition lift (r : rstate) (x : option (state * obs)) : rstate * obs :=
  match x with
  | Some (s, b) =>
      (R s (next_c r) (seen r) (if negb (is_some (root (e (rs r)))) && is_some (root (e s)) then default_max_peers else cfg r)
         (* the request that won its transaction (answered OK, or an error from cluster.Start) has saved its region *)
         (match b with
          | BOk | BStartErr => match root (e s) with
                               | Some w => match find (fun x => Nat.eqb (fst x) w) (reqs s) with
                                           | Some (_, p) => [region_of p]
                                           | None => rst r
                                           end
                               | None => rst r
                               end
          | _ => rst r
          end), b)
  | None => (r, BBad)
  end.

(* RaftCluster.PutConfig: the body must carry the cluster's id (a missing body or field reads as 0) *)
Definition put_config (c : Z) (body : option (Z * Z)) : option Z :=
  match body with
  | Some (id, mp) => if id =? c then Some mp else None
  | None => None
  end.

Definition run_op1 (r : rstate) (o : op) : rstate * obs :=
  let s := rs r in
  match o with
  | OBegin t h p => lift r (boot_begin s t (hid_of h) p)
  | OBoot t h p =>
      match boot_begin s t (hid_of h) p with
      | Some (s1, BStarted) => lift r (boot_finish s1 t Ok)
      | x => lift r x
      end
  | OFinish t oc => lift r (boot_finish s t oc)
  | OFinishStartFail t => lift r (boot_finish_startfail s t)
  | OCommit t => lift r (boot_commit s t)
  | OFinishSlow t ms => lift r (boot_finish s t (if ms <? request_timeout_ms then Ok else ErrApplied))
  (* a running cluster has loaded its regions from the region storage (at its start, right after the winner saved its
     region there; or at a reload) *)
  | OServed => (r, if running s then BRegions (rst r) else BNotBoot)
  | OIsBoot => (r, BBool (running s))
  | OReload => lift r (match step s LReload with Some s1 => Some (s1, BUnit) | None => None end)
  | OStop => lift r (match step s LStop with Some s1 => Some (s1, BUnit) | None => None end)
  | OMemBegin m | OMemInit m =>
      match step s (LMemGet m) with
      | None => (r, BBad)
      | Some s1 =>
          if mpend s1 m then
            match o with
            | OMemBegin _ => (R s1 (next_c r) (seen r) (cfg r) (rst r), BStarted)
            | _ => mem_finish (R s1 (next_c r) (seen r) (cfg r) (rst r)) m Ok
            end
          else match mids s1 m with
               | Some v => let '(sn, k) := rename (seen r) v in (R s1 (next_c r) sn (cfg r) (rst r), BId k)
               | None => (r, BBad)
               end
      end
  | OMemFinish m oc => mem_finish r m oc
  | OStream name hs => (r, BStream (stream_run name (running s) (scid s) hs))
  | OPutConfig body =>
      if negb (running s) then (r, BNotBoot)
      else match put_config (scid s) body with
           | Some mp => (R s (next_c r) (seen r) mp (rst r), BUnit)
           | None => (r, BInvalidCfg)
           end
  | OGetConfig => (r, if running s then BCfg true (cfg r) else BNotBoot)
  | OCall name h =>
      (r, if exempt name then BAccepted
          else if String.eqb name "RegionHeartbeat" && negb (running s) then BNotBoot  (* answers NOT_BOOTSTRAPPED before it validates *)
          else if hid_of h =? scid s then BAccepted                                   (* got past the validation *)
          else BMismatch)
  end.

Definition view_of (r : rstate) : view :=
  let x := e (rs r) in
  View (is_some (root x)) (is_some (btime x)) (map fst (stores x)) (map fst (regions x))
       (match cid x with Some v => index_of v (seen r) 0 | None => None end) (rst r).

(* the cluster id in the view is renamed like the observations; a stored id nobody has returned yet
   (ErrApplied) is introduced into the renaming by the view itself *)
Definition run_op (r : rstate) (o : op) : rstate * (obs * view) :=
  let '(r1, b) := run_op1 r o in
  let r2 := match cid (e (rs r1)) with
            | Some v => R (rs r1) (next_c r1) (fst (rename (seen r1) v)) (cfg r1) (rst r1)
            | None => r1
            end in
  (r2, (b, view_of r2)).

(* ---------- equality of observations ---------- *)
Definition invalid_eqb (a b : invalid) : bool :=
  match a, b with
  | NoStore, NoStore | ZeroStoreId, ZeroStoreId | NoRegion, NoRegion | KeyRange, KeyRange
  | ZeroRegionId, ZeroRegionId | PeerCount, PeerCount | PeerStore, PeerStore | ZeroPeerId, ZeroPeerId => true
  | _, _ => false
  end.
Fixpoint obs_eqb (a b : obs) : bool :=
  match a, b with
  | BOk, BOk | BAlready, BAlready | BConflict, BConflict | BEtcdErr, BEtcdErr | BMismatch, BMismatch | BStartErr, BStartErr | BInvalidCfg, BInvalidCfg
  | BStarted, BStarted | BUnit, BUnit | BAccepted, BAccepted | BNotBoot, BNotBoot | BBad, BBad => true
  | BInvalid x, BInvalid y => invalid_eqb x y
  | BBool x, BBool y => Bool.eqb x y
  | BId x, BId y => Nat.eqb x y
  | BCfg a x, BCfg b y => Bool.eqb a b && (x =? y)
  | BRegions x, BRegions y => list_eqb Z.eqb x y
  | BStream x, BStream y =>
      (fix go (l1 l2 : list obs) : bool :=
         match l1, l2 with
         | [], [] => true
         | u :: r1, v :: r2 => obs_eqb u v && go r1 r2
         | _, _ => false
         end) x y
  | _, _ => false
  end.
Definition view_eqb (a b : view) : bool :=
  Bool.eqb (v_root a) (v_root b) && Bool.eqb (v_time a) (v_time b)
  && list_eqb Z.eqb (v_stores a) (v_stores b) && list_eqb Z.eqb (v_regions a) (v_regions b)
  && opt_eqb Nat.eqb (v_cid a) (v_cid b) && list_eqb Z.eqb (v_rstore a) (v_rstore b).
Definition ov_eqb (a b : obs * view) : bool := obs_eqb (fst a) (fst b) && view_eqb (snd a) (snd b).

Definition case := (list op * list (obs * view))%type.
Definition model_obs (ops : list op) : list (obs * view) := run run_op rinit ops.
Definition check_case (c : case) := diff_at ov_eqb 0 (model_obs (fst c)) (snd c).

Fixpoint mismatches_from (n : nat) (cs : list case) :=
  match cs with
  | [] => []
  | c :: r => match check_case c with
              | [] => mismatches_from (S n) r
              | d => (n, d) :: mismatches_from (S n) r
              end
  end.
Definition mismatches := mismatches_from 0.

(* ---------- monitor: the property evaluated on an implementation trace ---------- *)
Local Open Scope string_scope.

Definition view_same (a b : view) : bool := view_eqb a b.
Definition records_same (a b : view) : bool :=
  Bool.eqb (v_root a) (v_root b) && Bool.eqb (v_time a) (v_time b)
  && list_eqb Z.eqb (v_stores a) (v_stores b) && list_eqb Z.eqb (v_regions a) (v_regions b).

(* the header of a request that must be refused: Some h when the op carries a header whose id is not the cluster's
   (and the handler is not one of the three exempt ones) *)
Definition foreign_hdr (o : op) : option (option Z) :=
  match o with
  | OBoot _ h _ | OBegin _ h _ => if (hid_of h =? the_cid)%Z then None else Some h
  | OCall name h => if exempt name || (hid_of h =? the_cid)%Z then None else Some h
  | _ => None
  end.

Definition payload_of_op (o : op) : option payload :=
  match o with OBoot _ _ p | OBegin _ _ p => Some p | _ => None end.

(* walk the trace: oks = payloads of the requests answered OK; pend = payloads of parked requests *)
Fixpoint mon (must_run : bool) (prev : view) (oks : list payload) (pend : list (nat * payload)) (ids : list nat)
             (ops : list op) (obl : list (obs * view)) : option string :=
  match ops, obl with
  | o :: r, (b, v) :: br =>
      let pend1 := match o, b with
                   | OBegin t _ p, BStarted => (t, p) :: pend
                   | OFinish t _, _ | OFinishStartFail t, _ | OFinishSlow t _, _ => filter (fun x => negb (Nat.eqb (fst x) t)) pend
                   | OCommit t, BStarted => pend
                   | OCommit t, _ => filter (fun x => negb (Nat.eqb (fst x) t)) pend
                   | _, _ => pend
                   end in
      let won := match o, b with
                 | OBoot _ _ p, BOk => Some p
                 | OFinish t _, BOk | OFinishSlow t _, BOk => match find (fun x => Nat.eqb (fst x) t) pend with Some x => Some (snd x) | None => None end
                 | _, _ => None
                 end in
      let oks1 := match won with Some p => p :: oks | None => oks end in
      let ids1 := match b with BId k => k :: ids | _ => ids end in
      (* after a reload a cluster whose record is stored is running again, until it is stopped *)
      let must1 := match o with
                   | OReload => v_root v
                   | OStop => false
                   | _ => must_run || match b with BOk => true | _ => false end
                   end in
      (* 0. one identity: the cluster meta that is stored and served carries the cluster's id, whatever PutClusterConfig
            is sent; a stored record means the cluster comes up again after a reload *)
      if match o, b with
         | OPutConfig body, BUnit => negb (is_some (put_config the_cid body))
         | _, _ => false
         end then Some "C20:cluster-config-with-foreign-id-accepted"
      else if match b with BCfg false _ => true | _ => false end then Some "C20:cluster-identity-overwritten"
      else if match o, b with
              | OIsBoot, BBool false | OGetConfig, BNotBoot | OPutConfig _, BNotBoot => must_run
              | _, _ => false
              end then Some "C20:bootstrap-state-lost-after-reload"
      (* 1. at most one request is answered OK *)
      else if (1 <? Z.of_nat (List.length oks1))%Z then Some "C20:bootstrapped-twice"
      (* 2. what is stored comes from the one acknowledged request *)
      else if match oks1 with
              | [p] => negb (v_root v && v_time v && list_eqb Z.eqb (v_stores v) [store_of p] && list_eqb Z.eqb (v_regions v) [region_of p])
              | _ => false
              end then Some "C20:stored-records-not-from-the-acknowledged-request"
      else if (1 <? Z.of_nat (List.length (v_stores v)))%Z || (1 <? Z.of_nat (List.length (v_regions v)))%Z
      then Some "C20:stored-records-from-several-requests"
      (* 2a. the leader serves what the acknowledged request bootstrapped: its first region; and a raft cluster only runs
             after an acknowledged bootstrap or a reload that found the record - a refused request never starts it *)
      else if match o, b, oks1 with
              | OServed, BRegions l, [p] => negb (existsb (Z.eqb (region_of p)) l)
              | _, _, _ => false
              end then Some "C20:acknowledged-bootstrap-region-not-served"
      else if match o, b with
              | OServed, BRegions _ | OIsBoot, BBool true => negb must_run
              | _, _ => false
              end then Some "C20:raft-cluster-running-without-acknowledged-bootstrap"
      (* 2a'. a request whose transaction etcd commits within the time a request waits for it is answered by the
              transaction's outcome, not with a storage error *)
      else if match o, b with
              | OFinishSlow _ ms, BEtcdErr => (ms <? request_timeout_ms)%Z
              | _, _ => false
              end then Some "C20:bootstrap-gave-up-on-a-transaction-etcd-was-committing"
      (* 2b. the region storage (what a restart loads) only holds the region of the stored record: never the region of a
             request that was refused *)
      else if negb (forallb (fun x => existsb (Z.eqb x) (v_regions v)) (v_rstore v))
      then Some "C20:region-storage-holds-region-of-a-refused-request"
      (* 2c. a Bootstrap that is answered with an error other than a storage / start failure has not bootstrapped the cluster *)
      else if match o, b with
              | OBoot _ _ _, BBad | OFinish _ _, BBad | OFinishStartFail _, BBad => negb (records_same prev v)
              | _, _ => false
              end then Some "C20:bootstrap-answered-error-but-bootstrapped"
      (* 3. a refused request changes nothing *)
      else if match b with
              | BAlready | BInvalid _ | BConflict | BMismatch => negb (records_same prev v)
              | _ => false
              end then Some "C20:refused-request-changed-stored-records"
      (* 3b. a malformed request is never accepted; a valid one is not refused for "conflict" while nothing is stored *)
      else if match payload_of_op o, b with
              | Some p, BOk | Some p, BStarted => is_some (check_req p)
              | _, _ => false
              end then Some "C20:malformed-request-accepted"
      else if match o, b with
              | OBoot _ _ _, BConflict | OFinish _ Ok, BConflict => negb (v_root prev)
              | _, _ => false
              end then Some "C20:bootstrap-refused-although-nothing-is-stored"
      (* 3c. on an open stream every message is validated: one with a foreign or absent header is refused whatever preceded it *)
      else if match o, b with
              | OStream _ hs, BStream bs =>
                  (fix bad (l1 : list (option Z)) (l2 : list obs) : bool :=
                     match l1, l2 with
                     | h :: r1, x :: r2 =>
                         (negb (hid_of h =? the_cid)%Z && negb (match x with BMismatch | BNotBoot => true | _ => false end)) || bad r1 r2
                     | _, _ => false
                     end) hs bs
              | _, _ => false
              end then Some "C20:stream:foreign-or-headerless-message-accepted"
      (* 4. a request that carries a different cluster id - a wrong one, 0, or no header at all - does not get past
            the validation: whatever it is answered, it is the mismatch refusal (RegionHeartbeat without a running
            cluster: NOT_BOOTSTRAPPED) *)
      else if match foreign_hdr o, b with
              | Some _, BMismatch | Some _, BNotBoot | Some _, BBad => false
              | Some None, _ => true
              | _, _ => false
              end then Some "C20:headerless-request-accepted"
      else if match foreign_hdr o, b with
              | Some _, BMismatch | Some _, BNotBoot | Some _, BBad => false
              | Some (Some _), _ => true
              | _, _ => false
              end then Some "C20:mismatched-cluster-id-accepted"
      (* 5. members agree on one cluster id, and it never changes *)
      else if existsb (fun k => negb (Nat.eqb k 0)) ids1 then Some "C20:members-disagree-on-cluster-id"
      else if match v_cid prev, v_cid v with Some a, Some c => negb (Nat.eqb a c) | Some _, None => true | _, _ => false end
      then Some "C20:cluster-id-changed"
      else if match o, b with OMemInit _, BEtcdErr | OMemInit _, BBad | OMemFinish _ Ok, BEtcdErr | OMemFinish _ Ok, BBad => true | _, _ => false end
      then Some "C20:cluster-id-init-failed-without-fault"
      else mon must1 v oks1 pend1 ids1 r br
  | _, _ => None
  end.

Definition monitor (c : case) : option string :=
  mon false (View false false [] [] None []) [] [] [] (fst c) (snd c).

Fixpoint monitor_fails_from (n : nat) (cs : list case) : list (nat * string) :=
  match cs with
  | [] => []
  | c :: r => match monitor c with
              | None => monitor_fails_from (S n) r
              | Some sg => (n, sg) :: monitor_fails_from (S n) r
              end
  end.
Definition monitor_fails := monitor_fails_from 0.
