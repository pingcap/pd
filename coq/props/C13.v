(* C13 — Placement rule updates are all-or-nothing and the key-range index is exact.
   The index theorems are about every set of rules with pairwise different (group, id) and well-formed ranges
   (wf_rules: what adjustRule enforces) that buildRuleList accepts.  The update theorems are about the state
   machine `step` of model/C13_Rules.v (restart, every kind of update with a storage fault at any write and any
   write order, foreign storage writes).  The model is of the code after 4fc9a45 and 4f573f0;
   `C13_s5_history_unchanged` and `C13_gap_rule_rejected` are the inputs that failed before them (also in
   corpus/C13.json).  Structural obligations: proof/C13_Skel.v. *)
From Coq Require Import String Permutation Sorting.Sorted.
From PDV Require Import lib.Base lib.C12_Order gen.Gen_C13 model.C13_Rules proof.C13_RulesProof proof.C13_UpdateProof proof.C13_HistoryProof proof.C13_FrameProof proof.C13_RestartProof model.C13_Paged proof.C13_PagedProof proof.C13_LockProof proof.C13_Skel.
Local Open Scope list_scope.


(* the rules reported for a key are exactly the configured rules whose range contains the key
   (start <= key, and key < end or end empty), in compareRule order *)
Theorem C13_rules_by_key_exact :
  forall rules rl k, wf_rules rules -> build_rule_list rules = inr rl ->
    StronglySorted rule_lt (get_rules_by_key rl k) /\
    (forall y, In y (get_rules_by_key rl k) <-> In y rules /\ covers y k = true).
Proof. intros rules rl k Hwf H. exact (rules_by_key_exact rules rl (build_indexes rules rl Hwf H) k). Qed.

(* compareRule is the documented order: group index, group id, index, id *)
Theorem C13_rule_order_documented :
  forall a b, rule_lt a b <->
    (group_index a < group_index b)%Z \/ (group_index a = group_index b /\
      (key_lt (r_gid a) (r_gid b) \/ (r_gid a = r_gid b /\
        ((r_index a < r_index b)%Z \/ (r_index a = r_index b /\ key_lt (r_id a) (r_id b)))))).
Proof.
  intros a b. unfold rule_lt, compare_rule, key_lt.
  assert (L : forall c d, lexc c d = Lt <-> c = Lt \/ (c = Eq /\ d = Lt)).
  { intros c d. destruct c; cbn; split; intros H; auto; try discriminate.
    - destruct H as [H|[_ H]]; [discriminate|exact H].
    - destruct H as [H|[H _]]; discriminate. }
  assert (KE : forall x y, key_cmp x y = Eq <-> x = y).
  { intros x y. split; [apply key_cmp_eq|intros ->; apply key_cmp_refl]. }
  rewrite !L, !Z.compare_lt_iff, !Z.compare_eq_iff, !KE. tauto.
Qed.

(* a region is given the rules of its segment after rule and group override (prepareRulesForApply of
   the rules covering its start key) if no segment boundary lies strictly inside it, and none otherwise *)
Theorem C13_apply_rules_for_region :
  forall rules rl s e, wf_rules rules -> build_rule_list rules = inr rl ->
    match get_rules_for_apply_region rl s e with
    | Some rs =>
        rs = prepare_rules_for_apply (get_rules_by_key rl s) /\ get_rules_by_key rl s <> [] /\
        check_apply_rules rs = None /\
        ~ (exists k, boundary rules k /\ key_lt s k /\ (e = [] \/ key_lt k e))
    | None =>
        get_rules_by_key rl s = [] \/ (exists k, boundary rules k /\ key_lt s k /\ (e = [] \/ key_lt k e))
    end.
Proof. intros rules rl s e Hwf H. exact (apply_region_exact rules rl (build_indexes rules rl Hwf H) s e). Qed.

(* the split keys reported for (s, e) are exactly the segment boundaries strictly inside it, ascending *)
Theorem C13_split_keys_exact :
  forall rules rl s e, wf_rules rules -> build_rule_list rules = inr rl ->
    StronglySorted key_lt (get_split_keys rl s e) /\
    (forall k, In k (get_split_keys rl s e) <-> boundary rules k /\ key_lt s k /\ (e = [] \/ key_lt k e)).
Proof. intros rules rl s e Hwf H. exact (split_keys_exact rules rl (build_indexes rules rl Hwf H) s e). Qed.

(* the override loop = "drop everything before the last overriding group, and inside each remaining
   group everything before its last overriding rule" *)
Theorem C13_prepare_eq_override_spec :
  forall rules, prepare_rules_for_apply rules = override_spec rules.
Proof. exact prepare_eq_override_spec. Qed.

(* the unstable sort of the split points is harmless: any arrangement of points with equal keys gives the same index *)
Theorem C13_sweep_order_irrelevant :
  forall rules pts1 pts2 rl1 rl2, wf_rules rules ->
    (forall p, In p pts1 <-> In p (points_of rules)) -> NoDup pts1 ->
    StronglySorted (fun a b => key_le (p_key a) (p_key b)) pts1 ->
    (forall p, In p pts2 <-> In p (points_of rules)) -> NoDup pts2 ->
    StronglySorted (fun a b => key_le (p_key a) (p_key b)) pts2 ->
    sweep pts1 [] = inr rl1 -> sweep pts2 [] = inr rl2 ->
    forall k, get_rules_by_key rl1 k = get_rules_by_key rl2 k.
Proof.
  intros rules pts1 pts2 rl1 rl2 Hwf A1 B1 C1 A2 B2 C2 H1 H2 k.
  rewrite (sweep_order_irrelevant rules pts1 pts2 rl1 rl2 Hwf A1 B1 C1 A2 B2 C2 H1 H2). reflexivity.
Qed.

(* an accepted rule set leaves no key without a valid rule set (no rule / no voter or leader / several
   leaders).  Rests on buildRuleList rejecting a first split point that is not the empty key (4f573f0). *)
Theorem C13_accepted_covers_every_key :
  forall rules rl k, wf_rules rules -> build_rule_list rules = inr rl ->
    get_rules_by_key rl k <> [] /\ check_apply_rules (prepare_rules_for_apply (get_rules_by_key rl k)) = None.
Proof. intros rules rl k Hwf H. exact (accepted_covers_every_key rules rl (build_indexes rules rl Hwf H) k). Qed.

(* the input that 4f573f0 is about: a single rule [0x10, +inf) *)
Definition gap_rule : rule := Rule [112;100]%N [114;49]%N 0 false [16]%N [] Voter 3 101 true (Some (default_group [112;100]%N)).
Example C13_gap_rule_rejected : build_rule_list [gap_rule] = inl ENoRuleForRange.
Proof. vm_compute. reflexivity. Qed.


(* an update that returns an error — rejected by adjustRule or buildRuleList, or failed at any storage
   write — changes nothing that is served (the RuleManager is *equal* to what it was, so every observer
   answers as before); a rejected one leaves the storage untouched as well.  In every reachable state:
   any history of restarts, updates of every kind, storage faults and foreign storage writes.
   Rests on both error paths of tryCommitPatch re-adjusting the served configuration (4fc9a45; DESIGN.md section 7, S5). *)
Theorem C13_rejected_update_changes_nothing :
  forall ops u f w st' o e,
    step (run_state step init_state ops) (OUpdate u f w) = (st', o) ->
    o_res o = RErr e ->
    st_live st' = st_live (run_state step init_state ops) /\
    (e <> EStorage -> st_store st' = st_store (run_state step init_state ops)).
Proof. intros ops u f w st' o e. exact (update_error_changes_nothing _ u f w st' o e (reachable_canonical ops)). Qed.

Theorem C13_storage_failure_keeps_served :
  forall m s p order f m' s' e ok,
    canonical (m_conf m) -> try_commit m s p order f = (m', s', Some e, ok) -> m' = m /\ (e = EBuild -> s' = s).
Proof.
  intros m s p order f m' s' e ok Hc H. destruct (try_commit_error _ _ _ _ _ _ _ _ _ Hc H) as [Hm [[_ Hs]|[-> _]]];
    (split; [exact Hm|]); [intros _; exact Hs|discriminate].
Qed.

(* the S5 history: the rejected SetRuleGroup{b, index 3, override} leaves GetAllRules alone *)
Definition s5_history : list op :=
  [ORestart 3;
   OUpdate (USetRule (Rule [97]%N [114;49]%N 0 false [] [] Voter 3 101 true None)) None [WRule [97]%N [114;49]%N];
   OUpdate (USetGroup (Group [98]%N 1 false)) None [WGroup [98]%N];
   OUpdate (USetRule (Rule [98]%N [114;50]%N 0 false [] [] Learner 1 102 true None)) None [WRule [98]%N [114;50]%N];
   OUpdate (USetGroup (Group [99]%N 2 false)) None [WGroup [99]%N];
   OUpdate (USetRule (Rule [99]%N [114;51]%N 0 false [] [] Voter 1 103 true None)) None [WRule [99]%N [114;51]%N]]%Z.
Example C13_s5_history_unchanged :
  let st := run_state step init_state s5_history in
  let '(st', o) := step st (OUpdate (USetGroup (Group [98]%N 3 true)) None []) in
  o_res o = RErr EBuild /\ option_map (fun m => d_all (dump_of m)) (st_live st') = Some [101; 0; 102; 103]%Z /\ st_live st' = st_live st.
Proof. vm_compute. repeat split. Qed.

(* accepted updates are complete and durable: in every history that starts PD on an empty storage and
   then issues updates of any kind without storage faults (accepted or rejected, retries included), the
   storage holds exactly the served rule contents and the served non-default groups after every step *)
Theorem C13_storage_mirrors_served :
  forall mr ups, forallb fault_free_update ups = true ->
    match st_live (run_state step init_state (ORestart mr :: ups)) with
    | Some m => let s := st_store (run_state step init_state (ORestart mr :: ups)) in
                s_rules s = map_vals sv (c_rules (m_conf m)) /\
                s_groups s = filter nd (c_groups (m_conf m))
    | None => True
    end.
Proof.
  intros mr ups H. pose proof (fault_free_history_ok mr ups H) as Hok. unfold st_in_sync, on_live in Hok.
  destruct (st_live _); [|exact I]. destruct (ho_mirror _ _ Hok). split; assumption.
Qed.

(* after every update of a history that starts PD on an empty storage and issues updates of any kind
   without storage faults (accepted or rejected; retries included), a PD restarted on the storage loads
   exactly what is being served: every observer of the second RuleManager answers as the live one *)
Theorem C13_accepted_update_reload_equal :
  forall mr ups, forallb fault_free_update ups = true ->
    let st := run_state step init_state (ORestart mr :: ups) in
    forall m, st_live st = Some m -> reload_dump (st_store st) = Some (dump_of m).
Proof.
  intros mr ups H st m El. pose proof (fault_free_history_ok mr ups H) as Hok. fold st in Hok.
  unfold st_in_sync, on_live in Hok. rewrite El in Hok. unfold reload_dump. rewrite (in_sync_reload m _ 3 Hok). reflexivity.
Qed.

(* an accepted update touches only what it names.  In every history that starts PD on an empty storage and
   issues updates of any kind without storage faults: after an accepted update, every rule under a key the
   update does not name is served as before (same rule object), and every served rule was served under
   that key before or is one the update carries.  "Names" (`names_key`): the key of a rule the update
   carries; a deleted key; for a prefix deletion the group and a prefix of the id; for the bundle
   operations the group id, compared for EQUALITY (DeleteGroupBundle with regexp=false takes a plain id,
   not a pattern: "dc" does not name "all-dc-east"); every key for a full replacement *)
Theorem C13_accepted_update_touches_only_what_it_names :
  forall mr ups u w st' o, forallb fault_free_update ups = true ->
    let st := run_state step init_state (ORestart mr :: ups) in
    step st (OUpdate u None w) = (st', o) -> o_res o = ROk ->
    forall m m', st_live st = Some m -> st_live st' = Some m' ->
      (forall g i, names_key u g i = false -> cver (m_conf m') (g, i) = cver (m_conf m) (g, i)) /\
      (forall k r', rget k (c_rules (m_conf m')) = Some r' ->
         cver (m_conf m) k = Some (r_ver r') \/ In (r_ver r') (map r_ver (rules_of_update u))).
Proof.
  intros mr ups u w st' o H st Hstep Hres m m' El El'.
  pose proof (fault_free_history_ok mr ups H) as Hok. fold st in Hok. unfold st_in_sync, on_live in Hok. rewrite El in Hok.
  exact (accepted_update_frame st u None w st' o m m' El (ho_conf _ _ Hok) Hstep Hres El').
Qed.

(* regression (seeded change C13-10): a plain id is matched literally and in full *)
Example C13_delete_bundle_plain_id :
  names_key (UDeleteBundle [100; 99]%N) [97; 108; 108; 45; 100; 99]%N [114; 49]%N = false /\
  names_key (UDeleteBundle []%N) [112; 100]%N [100]%N = false.
Proof. vm_compute. split; reflexivity. Qed.

(* after a storage failure in the middle of an update, retrying the update converges: the retry ends in
   exactly the state (served configuration, index, storage) the update would have produced had its first
   attempt not failed.  In every reachable state (any history, including earlier faults and foreign
   writes), whichever write failed, whether or not the failing write was applied, whatever the orders *)
Theorem C13_retry_converges :
  forall ops u f w1 w2 w3 st1 o1 st2 o2 st3 o3,
    let st := run_state step init_state ops in
    step st (OUpdate u (Some f) w1) = (st1, o1) -> o_res o1 = RErr EStorage ->
    step st1 (ORetry u w2) = (st2, o2) -> o_res o2 = ROk ->
    step st (OUpdate u None w3) = (st3, o3) -> o_res o3 = ROk ->
    st2 = st3.
Proof.
  intros ops u f w1 w2 w3 st1 o1 st2 o2 st3 o3 st.
  exact (retry_converges_from st u f w1 w2 w3 st1 o1 st2 o2 st3 o3 (reachable_canonical ops) (reachable_sorted ops)).
Qed.

(* `initialize` of the state machine loads every stored rule and group; in the code that is
   Storage.LoadRules / LoadRuleGroups = LoadRangeByPrefix, a paged scan (pages of minKVRangeLimit keys,
   next page from last key + "\x00").  For every ascending key list (any number of keys, any prefix
   chains among them) and every page size >= 1 the scan returns each key of the range exactly once, in
   order; with the regenerated page size it returns exactly the keys that have the prefix.  The proof
   rests on `next_key_succ`: last ++ [0] is the immediate successor of last (obligation
   `load_next_key_ok` in proof/C13_Skel.v ties that expression to the source). *)
Theorem C13_paged_load_complete :
  forall limit, (1 <= limit)%nat -> forall fuel lo hi keys,
    StronglySorted key_lt keys -> (length (filter (in_range lo hi) keys) < fuel)%nat ->
    paged fuel limit lo hi keys = Some (filter (in_range lo hi) keys).
Proof. exact paged_complete. Qed.

Theorem C13_load_by_prefix_all_with_prefix :
  forall q b keys, (b <? 255)%N = true -> StronglySorted key_lt keys ->
    load_range_by_prefix (q ++ [b]) keys = Some (filter (is_prefix (q ++ [b])) keys).
Proof.
  intros q b keys Hb S. rewrite load_range_by_prefix_complete by exact S. rewrite prefix_end_snoc by exact Hb.
  f_equal. apply filter_ext. intros k. apply prefix_range.
Qed.

(* foreign writes below rules/ (environment labels OCorruptRule / OCorruptDrop): what a restart guarantees then.
   Proved for every history: Initialize is total in the model (garbage, invalid, duplicated and mis-keyed entries
   are branches of load_rules, not errors), the configuration it serves is canonical (reachable_canonical) and the
   storage stays a pair of sorted maps (reachable_sorted).  And (proof/C13_RestartProof.v; rests on fix
   f6216a3; checked by the monitor `C13:restart-leaves-storage-different-*` on every restart of every run): after
   a successful restart the stored rules are exactly the served ones, each under its own key, whatever was
   written below rules/ before - garbage, rules adjustRule refuses, rules under a key that is not their own,
   several records claiming one key.  Proof: an invariant of loadRules' scan over the processed prefix of the
   storage (`scan_inv`: per key, what is served is the record moved there, or nothing if the key is marked for
   deletion, or the record found in place), then the effect of the repairs key by key (`repaired_get`). *)
Theorem C13_restart_repairs_storage :
  forall ops mr st' o m,
    step (run_state step init_state ops) (ORestart mr) = (st', o) -> o_res o = ROk -> st_live st' = Some m ->
    map_vals strip_sval (s_rules (st_store st')) = map_vals sv (c_rules (m_conf m)).
Proof.
  intros ops mr st' o m Hstep _ Hl. cbn [step] in Hstep.
  destruct (initialize (st_store (run_state step init_state ops)) mr) as [[m0|e] s1] eqn:Ei; inversion Hstep; subst;
    cbn [st_live] in Hl; [|discriminate].
  inversion Hl; subst m0. exact (initialize_repairs _ mr m s1 (reachable_sorted ops) Ei).
Qed.

(* `strip_sval` forgets the in-memory group pointer of a stored rule (Rule.group is `json:"-"`: it is not part
   of a record; the model's foreign writes may carry one).  When no stored rule carries one - PD's own writes
   never do - the equality is literal: *)
Theorem C13_restart_repairs_storage_literal :
  forall ops mr st' o m,
    step (run_state step init_state ops) (ORestart mr) = (st', o) -> o_res o = ROk -> st_live st' = Some m ->
    groupless (s_rules (st_store st')) ->
    s_rules (st_store st') = map_vals sv (c_rules (m_conf m)).
Proof.
  intros ops mr st' o m H1 H2 H3 G. rewrite <- (groupless_map_vals _ G) at 1.
  exact (C13_restart_repairs_storage ops mr st' o m H1 H2 H3).
Qed.

(* regression: records under foreign keys, two records claiming one key, garbage, an invalid rule - after the
   restart the storage holds exactly the served rules, each under its own key (f6216a3: a key that was just
   rewritten is not deleted) *)
Example C13_restart_repairs_example :
  let r (g i : list N) (v : Z) := Rule g i 0 false [] [] Voter 1 v true None in
  let st := run_state step init_state
    [OCorruptRule ([97], [49])%N (SVRule (r [97]%N [50]%N 1%Z));        (* a/2 stored under a/1 *)
     OCorruptRule ([97], [50])%N (SVRule (r [97]%N [50]%N 2%Z));        (* a/2 under its own key too *)
     OCorruptRule ([97], [51])%N SVGarbage;
     OCorruptRule ([98], [49])%N (SVRule (Rule [98]%N [49]%N 0%Z false [] [] Voter 0%Z 3%Z true None));  (* count 0 *)
     ORestart 3] in
  option_map (fun m => map (fun kr => r_ver (snd kr)) (c_rules (m_conf m))) (st_live st) = Some [1]%Z /\
  map fst (s_rules (st_store st)) = [([97], [50])]%N.
Proof. vm_compute. split; reflexivity. Qed.

(* the store set (RuleManager's StoreSetInformer) is an input of client updates only (`UWithStores`): it can make
   adjustRule refuse a rule that matches no store, never change what an accepted update does; the load path
   (`initialize`, every ORestart / leader change) does not have it at all (f88d4e2), so the restart
   theorems above hold whatever becomes of the stores after a rule was accepted *)
Theorem C13_store_check_only_refuses :
  forall c um u p, make_patch c (UWithStores um u) = Some p -> make_patch c u = Some p.
Proof. intros c um u p. cbn [make_patch]. destruct (existsb _ (added_rules u)); [discriminate|exact (fun H => H)]. Qed.

(* a failed Initialize retried on the same manager is a fresh start (fix 7c6ce3c): the earlier attempt leaves
   nothing behind in the manager; what it may have done to the storage are loadRules' repairs *)
Theorem C13_retried_initialize_is_a_fresh_start :
  forall st mr, step st (OInitAgain mr) = step st (ORestart mr).
Proof. reflexivity. Qed.

(* every public method of RuleManager is one section under m's mutex (exclusive for Initialize, the updates and
   SetKeyType; shared and assignment-free for the readers); what runs before the lock only validates the
   arguments; the helpers never touch the mutex (proof/C13_LockProof.v, helpers_do_not_lock).  Overlapping calls are therefore executions of the same
   calls' locked sections in some order, i.e. the histories of `step` quantified over above. *)
Theorem C13_updates_are_one_locked_section :
  forallb one_locked_section
    [skel_Initialize; skel_SetRule; skel_DeleteRule; skel_SetRules; skel_Batch; skel_SetRuleGroup; skel_DeleteRuleGroup;
     skel_SetAllGroupBundles; skel_SetGroupBundle; skel_DeleteGroupBundle; skel_SetKeyType] = true.
Proof. vm_compute. reflexivity. Qed.
Theorem C13_readers_are_one_locked_section :
  forallb one_locked_section
    [skel_GetRule; skel_GetSplitKeys; skel_GetAllRules; skel_GetRulesByGroup; skel_GetRulesByKey;
     skel_GetRulesForApplyRegion; skel_GetRuleGroup; skel_GetRuleGroups; skel_GetAllGroupBundles; skel_GetGroupBundle;
     skel_IsInitialized] = true.
Proof. vm_compute. reflexivity. Qed.

(* non-vacuity: nested, adjacent and unbounded ranges, an overriding group; five segments *)
Example C13_nonvacuous :
  let g0 := Some (default_group [112;100]%N) in let ga := Some (Group [97]%N 1 true) in
  let rules := [Rule [112;100]%N [100]%N 0 false [] [] Voter 3 1 true g0;
                Rule [112;100]%N [101]%N 1 false [16]%N [48]%N Learner 1 2 true g0;
                Rule [97]%N [102]%N 0 false [32]%N [64]%N Voter 5 3 true ga;
                Rule [112;100]%N [103]%N 2 true [48]%N [] Voter 1 4 true g0]%Z in
  wf_rules rules /\
  exists rl, build_rule_list rules = inr rl /\ map rg_start rl = [[]; [16]; [32]; [48]; [64]]%N /\
             map (fun g => map r_ver (rg_apply g)) rl = [[1]; [1; 2]; [3]; [3]; [4]]%Z.
Proof.
  cbv zeta. split.
  - constructor.
    + vm_compute. repeat constructor; cbn; intuition discriminate.
    + intros r Hr. cbn in Hr. destruct Hr as [<-|[<-|[<-|[<-|[]]]]]; cbn; auto; right; reflexivity.
  - eexists. split; [vm_compute; reflexivity|]. split; reflexivity.
Qed.

Print Assumptions C13_rules_by_key_exact.
Print Assumptions C13_rule_order_documented.
Print Assumptions C13_apply_rules_for_region.
Print Assumptions C13_split_keys_exact.
Print Assumptions C13_prepare_eq_override_spec.
Print Assumptions C13_sweep_order_irrelevant.
Print Assumptions C13_accepted_covers_every_key.
Print Assumptions C13_rejected_update_changes_nothing.
Print Assumptions C13_storage_failure_keeps_served.
Print Assumptions C13_storage_mirrors_served.
Print Assumptions C13_accepted_update_reload_equal.
Print Assumptions C13_retry_converges.
Print Assumptions C13_paged_load_complete.
Print Assumptions C13_store_check_only_refuses.
Print Assumptions C13_updates_are_one_locked_section.
Print Assumptions C13_readers_are_one_locked_section.
Print Assumptions C13_load_by_prefix_all_with_prefix.
Print Assumptions C13_accepted_update_touches_only_what_it_names.
Print Assumptions C13_restart_repairs_storage.
Print Assumptions C13_restart_repairs_storage_literal.
Print Assumptions C13_retried_initialize_is_a_fresh_start.
