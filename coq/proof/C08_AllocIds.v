(* C08 — the hypothesis "peer ids pairwise distinct" of the non-joint theorem, tied to the id allocator:
   if every NEW peer reaches the builder without an id (the obligation peer_ids_ok of proof/C08_Skel.v: no call site
   outside the builder invents one), every peer the plan adds carries the id b.cluster.AllocID() returned for its
   store; so distinct, fresh allocator answers give pairwise distinct ids. *)
From Coq Require Import String Sorting.Sorted.
From PDV Require Import lib.Base gen.Gen_C08 model.C08_Steps model.C08_Builder
     proof.C08_ListFacts proof.C08_PmapFacts proof.C08_PrepareFacts.
Local Open Scope list_scope.
Local Open Scope Z_scope.

(* the calls hand in new peers (stores the origin has no peer on) without an id *)
Definition op_unnamed (origin : pmap) (o : bop) : Prop :=
  match o with
  | OAddPeer p => pm_get origin (pstore p) = None -> pid p = 0
  | OSetPeers ps => forall p, In p ps -> pm_get origin (pstore p) = None -> pid p = 0
  | _ => True
  end.

Definition TUnnamed (b : bstate) : Prop :=
  forall p, In p (b_target b) -> pm_get (b_origin b) (pstore p) = None -> pid p = 0.

Lemma api_op_unnamed b o b' : TUnnamed b -> op_unnamed (b_origin b) o -> api_op b o = Some b' -> TUnnamed b' /\ b_origin b' = b_origin b.
Proof.
  intros N U H. destruct (api_op_frame _ _ _ H) as [F _]. inversion F as [[F1 F2 F3 F4 F5 F6]]. split; [|reflexivity].
  unfold TUnnamed. rewrite F1.
  refine (api_op_target_all (fun p => pm_get (b_origin b) (pstore p) = None -> pid p = 0) _ b o b' H _ N); [auto|].
  intros p Hp _ _. destruct o; cbn [op_peer op_unnamed] in Hp, U; try contradiction; [subst p; exact U|apply U; exact Hp].
Qed.

Lemma api_ops_unnamed : forall os b b', TUnnamed b -> Forall (op_unnamed (b_origin b)) os -> api_ops b os = Some b' ->
  TUnnamed b' /\ b_origin b' = b_origin b.
Proof.
  induction os as [|o os IH]; intros b b' N U H; cbn [api_ops] in H; [inversion H; subst; auto|].
  inversion U as [|? ? U1 U2]; subst. destruct (api_op b o) as [b1|] eqn:E; [|discriminate].
  destruct (api_op_unnamed _ _ _ N U1 E) as [N1 E1]. rewrite <- E1 in U2.
  destruct (IH _ _ N1 U2 H) as [N2 E2]. split; [exact N2|congruence].
Qed.

Theorem added_ids_are_allocated i b :
  ND (peers (i_region i)) ->
  Forall (op_unnamed (pm_of_list (peers (i_region i)))) (i_ops i) ->
  prepared i = Some b ->
  forall a, In a (b_add b) -> pid a = alloc_of (i_alloc i) (pstore a).
Proof.
  intros Hnd U Hprep a Ha. unfold prepared in Hprep.
  destruct (new_builder i) as [b0|] eqn:Enb; [|discriminate].
  destruct (api_ops b0 (i_ops i)) as [b1|] eqn:Eapi; [|discriminate].
  destruct (new_builder_target _ _ Enb) as [Eo Et].
  assert (N0 : TUnnamed b0).
  { intros p Hp Hn. exfalso. rewrite Et, <- Eo in Hp.
    assert (X : pm_get (b_origin b0) (pstore p) = Some p).
    { apply lk_In; [rewrite Eo; apply PSorted_ND, pm_of_list_sorted|exact Hp]. }
    congruence. }
  rewrite <- Eo in U.
  destruct (api_ops_unnamed _ _ _ N0 U Eapi) as [N1 E1].
  rewrite (pf_add _ _ _ (prepare_build_spec _ _ _ Hprep)) in Ha. apply cfold_In in Ha as [[]|(n & Hn & Ef)].
  unfold f_add in Ef. destruct (negb (is_some (pm_get (b_origin b1) (pstore n))) || _); [|discriminate].
  inversion Ef; subst a. destruct (pm_get (b_origin b1) (pstore n)) as [o|] eqn:Eo1; cbn [is_some].
  - rewrite orb_true_r. reflexivity.
  - rewrite (N1 n Hn Eo1). reflexivity.
Qed.

Theorem alloc_gives_distinct_ids i b :
  ND (peers (i_region i)) ->
  Forall (op_unnamed (pm_of_list (peers (i_region i)))) (i_ops i) ->
  prepared i = Some b ->
  NoDup (map pid (peers (i_region i))) ->
  (forall st, ~ In (alloc_of (i_alloc i) st) (map pid (peers (i_region i)))) ->
  (forall s1 s2, In s1 (map pstore (b_add b)) -> In s2 (map pstore (b_add b)) -> s1 <> s2 ->
                 alloc_of (i_alloc i) s1 <> alloc_of (i_alloc i) s2) ->
  NoDup (map pid (peers (i_region i)) ++ map pid (b_add b)).
Proof.
  intros Hnd U Hprep Hids Hfresh Hinj.
  pose proof (added_ids_are_allocated i b Hnd U Hprep) as Hal.
  assert (Hadd_nd : ND (b_add b)).
  { unfold prepared in Hprep. destruct (new_builder i); [|discriminate]. destruct (api_ops b0 (i_ops i)); [|discriminate].
    rewrite (pf_add _ _ _ (prepare_build_spec _ _ _ Hprep)). apply PSorted_ND, cfold_sorted. constructor. }
  assert (Hadd_ids : NoDup (map pid (b_add b))).
  { revert Hal Hinj Hadd_nd. generalize (b_add b) as l. induction l as [|a l IH]; intros Hal Hinj Hn; cbn [map]; [constructor|].
    unfold ND in Hn. cbn [map] in Hn. inversion Hn as [|x0 l0 Hn1 Hn2]; subst x0 l0. constructor.
    - intros C. apply in_map_iff in C as (a' & Ea & Hin').
      rewrite (Hal a (or_introl eq_refl)), (Hal a' (or_intror Hin')) in Ea.
      apply (Hinj (pstore a') (pstore a)); [right; apply in_map; exact Hin'|left; reflexivity| |exact Ea].
      intros E. apply Hn1. rewrite <- E. apply in_map. exact Hin'.
    - apply IH; [intros x Hx; apply Hal; right; exact Hx|intros s1 s2 H1 H2; apply Hinj; right; assumption|exact Hn2]. }
  clear Hadd_nd. induction (map pid (peers (i_region i))) as [|x l IH] in Hids, Hfresh |- *; cbn [app]; [exact Hadd_ids|].
  inversion Hids as [|x0 l0 Hn1 Hn2]; subst x0 l0. constructor.
  - intros C. apply in_app_or in C as [C|C]; [contradiction|].
    apply in_map_iff in C as (a & Ea & Hin). rewrite (Hal a Hin) in Ea. apply (Hfresh (pstore a)). left. symmetry. exact Ea.
  - apply IH; [exact Hn2|]. intros st C. apply (Hfresh st). right. exact C.
Qed.
