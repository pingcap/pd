(* C10 — obligations on the tables, literals and skeletons the translator regenerates from /repo on
   every run (gen/Gen_C10.v).  The model consumes conds / temp_conds / *_dispatch / the flag sets / the
   comparison operators / the cascade order directly; the facts below are what the theorems need from
   them.  Everything the model transcribes by hand is pinned to the source text it was written against. *)
From PDV Require Import lib.Skel lib.C10_Cluster gen.Gen_C10 model.C10_Checker proof.C10_Pins.
Local Open Scope string_scope.

(* what the two filter values of SelectStoreToAdd exclude: the permanent conditions for the first (it allows temporary
   states), every condition of regionTarget for the strict one; deleting a condition from the Go table breaks the
   clause of the value that needs it *)
Lemma first_filter_excludes :
  forallb (excludes Gen_C10.conds Gen_C10.temp_conds Gen_C10.target_dispatch Gen_C10.sel_add_first_flags)
          [isTombstone; isOffline; isDown] = true.
Proof. reflexivity. Qed.
Lemma strict_filter_excludes :
  forallb (excludes Gen_C10.conds Gen_C10.temp_conds Gen_C10.target_dispatch Gen_C10.sel_add_strict_flags)
          [isTombstone; isOffline; isDown; isDisconnected; isBusy; exceedAddLimit; tooManySnapshots; tooManyPendingPeers] = true.
Proof. reflexivity. Qed.

(* leader targets (Builder.allowLeader, RuleChecker.allowLeader): the row and the conditions *)
Lemma leader_target_row : In ([(TransferLeader, true)], leaderTarget) Gen_C10.target_dispatch.
Proof. cbv. tauto. Qed.
Lemma lt_conds : incl [isTombstone; isOffline; isDown; pauseLeaderTransfer; isDisconnected; isBusy; hasRejectLeaderProperty] (Gen_C10.conds leaderTarget).
Proof. intros c H; cbn in H; cbv. repeat destruct H as [<-|H]; tauto. Qed.

(* removal sources (SelectStoreToRemove) *)
Lemma region_source_row : In ([(MoveRegion, true)], regionSource) Gen_C10.source_dispatch.
Proof. cbv. tauto. Qed.
Lemma remove_flags_guards : forallb (guard_holds Gen_C10.sel_remove_flags) [(MoveRegion, true)] = true.
Proof. reflexivity. Qed.

(* what every condition function reads (model: cond_raw in lib/C10_Cluster.v) *)
Lemma cond_src_ok : Gen_C10.cond_src =
  [(exceedAddLimit, "!store.IsAvailable(storelimit.AddPeer)"); (exceedRemoveLimit, "!store.IsAvailable(storelimit.RemovePeer)");
   (hasRejectLeaderProperty, "opts.CheckLabelProperty(opt.RejectLeader, store.GetLabels())"); (isBusy, "store.IsBusy()");
   (isDisconnected, "store.IsDisconnected()"); (isDown, "store.DownTime() > opt.GetMaxStoreDownTime()"); (isOffline, "store.IsOffline()");
   (isTombstone, "store.IsTombstone()"); (pauseLeaderTransfer, "!store.AllowLeaderTransfer()");
   (tooManyPendingPeers, "opt.GetMaxPendingPeerCount() > 0 && store.GetPendingPeerCount() > int(opt.GetMaxPendingPeerCount())");
   (tooManySnapshots, "(uint64(store.GetSendingSnapCount()) > opt.GetMaxSnapshotCount() || uint64(store.GetReceivingSnapCount()) > opt.GetMaxSnapshotCount())")].
Proof. reflexivity. Qed.
Lemma state_kinds_ok : Gen_C10.state_kinds = ["leaderSource"; "regionSource"; "leaderTarget"; "regionTarget"; "scatterRegionTarget"].
Proof. exact pin_state_kinds. Qed.
Lemma base_score_ok : (1 < Gen_C10.replicaBaseScore)%Z.
Proof. reflexivity. Qed.

Lemma sel_add_filters_ok : Gen_C10.sel_add_filters =
  ["filter.NewExcludedFilter(s.checkerName, nil, s.region.GetStoreIds())"; "filter.NewStorageThresholdFilter(s.checkerName)";
   "filter.NewSpecialUseFilter(s.checkerName)"; "&filter.StoreStateFilter{ActionScope: s.checkerName, MoveRegion: true, AllowTemporaryStates: true}"].
Proof. exact pin_sel_add_filters. Qed.
Lemma skel_fix_ok : Gen_C10.skel_SelectStoreToFix = [Call "swapStoreToFirst"; Call "SelectStoreToAdd"; Ret]
  /\ Gen_C10.ret_SelectStoreToFix = ["SelectStoreToAdd(coLocationStores[1:])"].
Proof. exact (conj pin_skel_SelectStoreToFix pin_ret_SelectStoreToFix). Qed.

Lemma make_up_in_order : In "checkMakeUpReplica" Gen_C10.replica_check_order.
Proof. rewrite pin_replica_check_order. cbn. tauto. Qed.
(* "removes only when voters exceed max-replicas": the three guards *)
Lemma fix_peer_op_ok : Gen_C10.fix_peer_surplus_op = CGt /\ Gen_C10.fix_peer_surplus_op_src = "len(region.GetVoters()) > r.opts.GetMaxReplicas()".
Proof. split; reflexivity. Qed.
Lemma remove_extra_op_ok : Gen_C10.remove_extra_skip_op = CLe /\ Gen_C10.remove_extra_skip_op_src = "len(region.GetVoters()) <= r.opts.GetMaxReplicas()".
Proof. split; reflexivity. Qed.
Lemma make_up_op_ok : Gen_C10.make_up_skip_op = CGe /\ Gen_C10.make_up_skip_op_src = "len(region.GetPeers()) >= r.opts.GetMaxReplicas()".
Proof. split; reflexivity. Qed.

Lemma chains_ok :
  Gen_C10.chain_CreateAddPeerOperator = ["NewBuilder(desc, cluster, region)"; "AddPeer(peer)"; "Build(kind)"]
  /\ Gen_C10.chain_CreateRemovePeerOperator = ["NewBuilder(desc, cluster, region)"; "RemovePeer(storeID)"; "Build(kind)"]
  /\ Gen_C10.chain_CreateMovePeerOperator = ["NewBuilder(desc, cluster, region)"; "RemovePeer(oldStore)"; "AddPeer(peer)"; "Build(kind)"]
  /\ Gen_C10.chain_CreateReplaceLeaderPeerOperator =
       ["NewBuilder(desc, cluster, region)"; "RemovePeer(oldStore)"; "AddPeer(peer)"; "SetLeader(leader.GetStoreId())"; "Build(kind)"].
Proof.
  exact (conj pin_chain_CreateAddPeerOperator (conj pin_chain_CreateRemovePeerOperator
          (conj pin_chain_CreateMovePeerOperator pin_chain_CreateReplaceLeaderPeerOperator))).
Qed.
