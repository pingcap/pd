(* C09 — every function of the controller, every event, every history.
   What a function of the controller does is one relation, Step: the frame of proof/C09_CtlProof.v, and whoever
   leaves the running set is ended and recorded (Left) provided the running set was well formed.  Each function
   is a composition of steps; an event changes what the controller does not look after (regions, inbox, streams,
   the creation of an operator) and then runs one function; the invariants of a history follow. *)
From PDV Require Import lib.Base model.C08_Steps model.C09_OpCtl proof.C09_StatusProof proof.C09_CtlProof.
Local Open Scope list_scope.
Local Open Scope Z_scope.

Definition ended (c : ctl) (id : Z) : Prop := exists o, get_op c id = Some o /\ is_end_status (o_st o) = true.

(* ended, and GetOperatorStatus has a record for the region it ran on *)
Definition gone (c : ctl) (rid id : Z) : Prop := ended c id /\ alist_get (records c) rid <> None.

Definition Left (c c' : ctl) : Prop :=
  forall rid id, In (rid, id) (running c) -> In (rid, id) (running c') \/ gone c' rid id.

Lemma ended_fwd c c' id : ops_fwd c c' -> ended c id -> ended c' id.
Proof.
  intros F (o & Ho & E). destruct (F _ _ Ho) as (o' & Ho' & R). exists o'. split; [exact Ho'|].
  rewrite (rel_end _ _ R E). exact E.
Qed.

Lemma left_refl c : Left c c.
Proof. intros rid id H. left. exact H. Qed.

Lemma left_running_same_frame c c' : running c' = running c -> Left c c'.
Proof. intros H rid id Hin. left. rewrite H. exact Hin. Qed.

Lemma left_comp a b c : Left a b -> Frame b c -> Left b c -> Left a c.
Proof.
  intros L1 F L2 rid id H. destruct (L1 _ _ H) as [H1|H1].
  - apply L2. exact H1.
  - right. destruct H1 as [E R]. split; [apply (ended_fwd _ _ _ (fr_fwd _ _ F) E)|apply (fr_keep _ _ F), R].
Qed.

Lemma left_set c c' rid id : alist_get (running c) rid = None -> running c' = alist_set (running c) rid id -> Left c c'.
Proof.
  intros N E r i Hin. left. rewrite E. right. apply alist_del_In. split; [exact Hin|].
  intros C. cbn in C. subst r. exact (alist_get_None _ _ _ N Hin).
Qed.

Definition RunOps (c : ctl) : Prop := forall rid id, In (rid, id) (running c) -> exists o, get_op c id = Some o.
Definition KeyOk (c : ctl) : Prop := forall rid id o, In (rid, id) (running c) -> get_op c id = Some o -> o_rid o = rid.

Record WF (c : ctl) : Prop := { wf_rinv : RInv c; wf_runops : RunOps c; wf_key : KeyOk c }.

Lemma WF_frame c c' : Frame c c' -> WF c -> WF c'.
Proof.
  intros F [A B C]. constructor.
  - apply (fr_rinv _ _ F), A.
  - intros rid id H. destruct (fr_adm _ _ F _ _ H) as [H1|(o & r & Ho & _)]; [destruct (B _ _ H1) as (o & Ho)|];
      destruct (fr_fwd _ _ F _ _ Ho) as (o' & Ho' & _); eauto.
  - intros rid id o' Hin Ho'. destruct (fr_bwd _ _ F _ _ Ho') as (o & Ho & R). rewrite (rel_rid _ _ R).
    destruct (fr_adm _ _ F _ _ Hin) as [H1|(x & r & Hx & Hr & _)]; [eapply C; eauto|congruence].
Qed.

Lemma WF_fwd c c' : ops_fwd c c' -> running c' = running c -> WF c -> WF c'.
Proof.
  intros F E [A B C]. constructor.
  - unfold RInv. rewrite E. exact A.
  - intros rid id Hin. rewrite E in Hin. destruct (B _ _ Hin) as (o & Ho). destruct (F _ _ Ho) as (o' & Ho' & _). eauto.
  - intros rid id o' Hin Ho'. rewrite E in Hin. destruct (B _ _ Hin) as (o & Ho). destruct (F _ _ Ho) as (x & Hx & R).
    replace o' with x by congruence. rewrite (rel_rid _ _ R). eapply C; eauto.
Qed.

Record Step (c c' : ctl) : Prop := { st_frame : Frame c c'; st_left : WF c -> Left c c' }.
Arguments st_frame {c c'}.
Arguments st_left {c c'}.

Lemma Step_refl c : Step c c.
Proof. split; [apply Frame_refl|intros _; apply left_refl]. Qed.

Lemma Step_trans a b c : Step a b -> Step b c -> Step a c.
Proof.
  intros [F1 L1] [F2 L2]. split; [eapply Frame_trans; eauto|].
  intros W. apply (left_comp a b c (L1 W) F2), L2. eapply WF_frame; eauto.
Qed.

Lemma Step_quiet c c' : Frame c c' -> running c' = running c -> Step c c'.
Proof. intros F E. split; [exact F|intros _; apply left_running_same_frame, E]. Qed.

Lemma Step_fold {S X} (pr : S -> ctl) (g : S -> X -> S) :
  (forall s x, Step (pr s) (pr (g s x))) -> forall l s, Step (pr s) (pr (fold_left g l s)).
Proof.
  intros H. induction l as [|x l IH]; intros s; cbn [fold_left]; [apply Step_refl|].
  eapply Step_trans; [apply H|apply IH].
Qed.

(* the waiting queue and its counters, the inbox *)
Lemma step_aside c c' :
  cache c' = cache c -> truth c' = truth c -> max_waiting c' = max_waiting c -> ops c' = ops c -> records c' = records c ->
  running c' = running c -> Step c c'.
Proof.
  intros H1 H2 H3 H4 H5 H6. apply Step_quiet; [|exact H6].
  apply frame_same_ops; auto; [unfold RInv; rewrite H6; auto|apply adm_same, H6].
Qed.

Lemma step_op_update c id o o' : get_op c id = Some o -> rel o o' -> Step c (set_op c o').
Proof. intros Ho R. apply Step_quiet; [eapply frame_op_update; eauto|reflexivity]. Qed.

Lemma step_cancel c id : Step c (cancel c id).
Proof.
  unfold cancel. destruct (get_op c id) as [o|] eqn:Ho; [|apply Step_refl].
  apply (step_op_update c id o _ Ho), rel_op_to.
Qed.

Lemma step_bury c id : Step c (bury c id).
Proof.
  destruct (get_op c id) as [o|] eqn:Ho; [|unfold bury; rewrite Ho; apply Step_refl].
  destruct (bury_eq c id o Ho) as (o' & R & E & ->).
  eapply Step_trans; [apply (step_op_update c id o o' Ho R)|].
  apply Step_quiet; [|reflexivity]. apply (frame_record _ id); [apply (get_op_update c id o o' Ho R)|exact E].
Qed.

Lemma step_cancel_bury c id : Step c (bury (cancel c id) id).
Proof. eapply Step_trans; [apply step_cancel|apply step_bury]. Qed.

Lemma running_bury c id : running (bury c id) = running c.
Proof. unfold bury. destruct (get_op c id); reflexivity. Qed.

Lemma get_op_cancel c id o : get_op c id = Some o -> exists o', get_op (cancel c id) id = Some o'.
Proof. intros Ho. rewrite (cancel_eq _ _ _ Ho). eexists. apply (get_op_update _ _ _ _ Ho), rel_op_to. Qed.

Lemma bury_gone c id o : get_op c id = Some o -> gone (bury c id) (o_rid o) id.
Proof.
  intros Ho. destruct (bury_eq c id o Ho) as (o' & R & E & ->). split.
  - exists o'. split; [exact (get_op_update c id o o' Ho R)|exact E].
  - cbn [records put_record upd]. rewrite alist_get_set, (rel_rid _ _ R), Z.eqb_refl. discriminate.
Qed.

(* the one way out of the running set: the entry of the operator's region is deleted, the operator moved along rel
   (cancelled, replaced) and buried; everybody else stays *)
Lemma step_take_out c id o o' :
  get_op c id = Some o -> alist_get (running c) (o_rid o) = Some id -> rel o o' ->
  Step c (bury (set_op (set_running c (alist_del (running c) (o_rid o))) o') id).
Proof.
  intros Ho Hrun R. set (c1 := set_running c (alist_del (running c) (o_rid o))).
  split.
  - eapply Frame_trans; [apply frame_running_del|].
    eapply Frame_trans; [apply (frame_op_update c1 id o o' Ho R)|apply st_frame, step_bury].
  - intros W r i Hin. destruct (Z.eq_dec r (o_rid o)) as [->|Hne].
    + right. rewrite (alist_unique _ _ _ _ (wf_rinv _ W) Hin Hrun), <- (rel_rid _ _ R).
      apply bury_gone, (get_op_update c1 id o o' Ho R).
    + left. rewrite running_bury. apply alist_del_In. split; assumption.
Qed.

(* removeOperatorLocked, a move of the operator, buryOperator: also when nothing was removed *)
Lemma step_remove_bury c id o o' : get_op c id = Some o -> rel o o' -> Step c (bury (set_op (fst (remove_locked c o)) o') id).
Proof.
  intros Ho R. destruct (remove_locked_cases c o) as [[-> Hrun]| ->]; cbn [fst].
  - rewrite (get_op_id _ _ _ Ho) in Hrun. apply step_take_out; assumption.
  - eapply Step_trans; [apply (step_op_update c id o o' Ho R)|apply step_bury].
Qed.

Lemma step_remove_cancel_bury c id o : get_op c id = Some o -> Step c (bury (cancel (fst (remove_locked c o)) id) id).
Proof.
  intros Ho. rewrite (cancel_eq _ id o); [apply step_remove_bury; [exact Ho|apply rel_op_to]|].
  destruct (remove_locked_cases c o) as [[-> _]| ->]; exact Ho.
Qed.

Lemma step_remove_operator c id : Step c (fst (remove_operator c id)).
Proof.
  unfold remove_operator. destruct (get_op c id) as [o|] eqn:Ho; [|apply Step_refl].
  pose proof (step_remove_cancel_bury c id o Ho) as S.
  destruct (remove_locked_cases c o) as [[E _]|E]; rewrite E in *; [exact S|apply Step_refl].
Qed.

Lemma step_check_add c ids : Step c (fst (check_add c ids)).
Proof.
  unfold check_add. destruct (negb _); cbn [fst]; [apply Step_refl|].
  change c with (fst (c, true)) at 1. apply (Step_fold fst). intros [c' ok] id. cbn [fst].
  destruct (get_op c' id) as [o|] eqn:Ho; [|apply Step_refl].
  pose proof (rel_check_expired o) as R. destruct (check_expired o) as [o' ex]. cbn [fst] in *.
  eapply step_op_update; eauto.
Qed.

(* what checkAddOperator has checked when addOperatorLocked is called *)
Definition admissible (c : ctl) (id : Z) : Prop :=
  forall o, get_op c id = Some o -> epoch_ok c (o_rid o) id.

Lemma admissible_fwd c c' id : Frame c c' -> admissible c id -> admissible c' id.
Proof.
  intros F A o' Ho'. destruct (fr_bwd _ _ F _ _ Ho') as (o & Ho & R).
  rewrite (rel_rid _ _ R). eapply epoch_ok_fwd; eauto.
Qed.

Lemma check_add_one_epoch c o : get_op c (o_id o) = Some o -> check_add_one c o = true -> epoch_ok c (o_rid o) (o_id o).
Proof.
  unfold check_add_one. intros Ho H. destruct (alist_get (cache c) (o_rid o)) as [r|] eqn:Hr; [|discriminate].
  destruct (Gen_C09.epoch_mismatch_GetVersion (rng r) (o_ver o) || Gen_C09.epoch_mismatch_GetConfVer (conf_ver r) (o_cv o)) eqn:E; [discriminate|].
  apply orb_false_iff in E as [E1 E2].
  unfold Gen_C09.epoch_mismatch_GetVersion in E1. unfold Gen_C09.epoch_mismatch_GetConfVer in E2.
  apply negb_false_iff in E1, E2. apply Z.eqb_eq in E1, E2.
  exists o, r. repeat split; auto.
Qed.

Lemma check_add_admissible c ids c' :
  check_add c ids = (c', true) -> forall id, In id ids -> admissible c' id.
Proof.
  intros H id Hin. pose proof (step_check_add c ids) as S. rewrite H in S.
  apply (admissible_fwd _ _ _ (st_frame S)). intros o Ho.
  pose proof (get_op_id _ _ _ Ho) as I. subst id. apply check_add_one_epoch; [exact Ho|].
  unfold check_add in H. destruct (forallb (check_add_one c) _) eqn:E; [|discriminate].
  rewrite forallb_forall in E. apply E, in_flat_map. exists (o_id o). rewrite Ho. split; [exact Hin|left; reflexivity].
Qed.

Lemma step_add_locked c id : admissible c id -> Step c (fst (add_locked c id)).
Proof.
  intros A. unfold add_locked. destruct (get_op c id) as [o|] eqn:Ho; [|apply Step_refl].
  specialize (A o Ho).
  set (c1 := match alist_get (running c) (o_rid o) with
             | Some oldid => match get_op c oldid with
                             | Some old => bury (set_op (fst (remove_locked c old)) (fst (op_to old REPLACED))) oldid
                             | None => c end
             | None => c end).
  assert (S1 : Step c c1 /\ (WF c -> alist_get (running c1) (o_rid o) = None)).
  { unfold c1. destruct (alist_get (running c) (o_rid o)) as [oldid|] eqn:Hrun; [|split; [apply Step_refl|auto]].
    destruct (get_op c oldid) as [old|] eqn:Hold; (split; [|intros W]).
    - apply step_remove_bury; [exact Hold|apply rel_op_to].
    - (* a well-formed entry names an operator of this region: it is removed *)
      pose proof (wf_key _ W _ _ _ (alist_get_In _ _ _ Hrun) Hold) as Hk.
      rewrite remove_locked_hit by (rewrite Hk, (get_op_id _ _ _ Hold); exact Hrun).
      rewrite running_bury. cbn [fst set_op set_ops set_running upd running]. rewrite Hk, alist_get_del, Z.eqb_refl. reflexivity.
    - apply Step_refl.
    - destruct (wf_runops _ W _ _ (alist_get_In _ _ _ Hrun)) as (x & Hx). congruence. }
  destruct S1 as [S1 Hfree]. fold c1.
  destruct (fr_fwd _ _ (st_frame S1) _ _ Ho) as (x & Hx & Rx). rewrite Hx.
  pose proof (rel_op_to x STARTED) as Rs. destruct (op_to x STARTED) as [o1 started]. cbn [fst] in Rs.
  destruct started; cbn [negb]; [|exact S1].
  set (c2 := set_running (set_op c1 o1) (alist_set (running c1) (o_rid o) id)).
  assert (F2 : Frame c1 c2).
  { eapply Frame_trans; [apply (frame_op_update c1 id x o1 Hx Rs)|]. apply (frame_running_set (set_op c1 o1)).
    apply (epoch_ok_fwd c), A. eapply Frame_trans; [apply (st_frame S1)|apply (frame_op_update c1 id x o1 Hx Rs)]. }
  (* whatever follows moves the new operator and sends: the running set is that of c2 *)
  assert (Fin : forall cF, Step c2 cF -> running cF = running c2 -> Step c cF).
  { intros cF S E. pose proof (Frame_trans _ _ _ F2 (st_frame S)) as F. split.
    - apply (Frame_trans _ _ _ (st_frame S1) F).
    - intros W. apply (left_comp c c1 cF (st_left S1 W) F). apply (left_set _ _ (o_rid o) id (Hfree W)). rewrite E. reflexivity. }
  destruct (alist_get (cache c2) (o_rid o)) as [r|]; cbn [fst]; [|apply Fin; [apply Step_refl|reflexivity]].
  pose proof (rel_op_check o1 r) as Rc. destruct (op_check o1 r) as [o2 st]. cbn [fst] in Rc.
  assert (S3 : Step c2 (set_op c2 o2)) by (apply (step_op_update c2 id o1 o2); [apply (get_op_update c1 id x o1 Hx Rs)|exact Rc]).
  destruct st as [s|]; cbn [fst]; apply Fin; try reflexivity; [|exact S3].
  eapply Step_trans; [exact S3|apply step_aside; reflexivity].
Qed.

Lemma step_add_all_locked ids : forall c, (forall id, In id ids -> admissible c id) -> Step c (fst (add_all_locked c ids)).
Proof.
  induction ids as [|id r IH]; intros c A; cbn [add_all_locked fst]; [apply Step_refl|].
  pose proof (step_add_locked c id (A id (or_introl eq_refl))) as S.
  destruct (add_locked c id) as [c' ok]. cbn [fst] in S. destruct ok; cbn [fst]; [|exact S].
  eapply Step_trans; [exact S|]. apply IH. intros i Hi. apply (admissible_fwd _ _ _ (st_frame S)), A. right; exact Hi.
Qed.

Lemma step_add_operator c ids : Step c (fst (add_operator c ids)).
Proof.
  unfold add_operator. pose proof (step_check_add c ids) as S.
  destruct (check_add c ids) as [c1 ok] eqn:E. cbn [fst] in S. destruct ok; cbn [negb fst]; (eapply Step_trans; [exact S|]).
  - apply step_add_all_locked. intros id Hin. eapply check_add_admissible; eauto.
  - apply (Step_fold (fun c => c)). intros s id. apply step_cancel_bury.
Qed.

Lemma step_promote_loop fuel : forall c, Step c (promote_loop fuel c).
Proof.
  induction fuel as [|f IH]; intros c; cbn [promote_loop]; [apply Step_refl|].
  destruct (waiting c) as [|id rest]; [apply Step_refl|].
  set (c0 := upd c (truth c) (cache c) (ops c) (running c) rest (wcount c) (records c) (inbox c)).
  assert (S0 : Step c c0) by (apply step_aside; reflexivity).
  pose proof (step_check_add c0 [id]) as S1. destruct (check_add c0 [id]) as [c1 ok] eqn:E. cbn [fst] in S1.
  set (d := match get_op c0 id with Some o => o_desc o | None => 0 end).
  set (c2 := set_wcount c1 d (wcount_of c1 d - 1)).
  assert (S2 : Step c1 c2) by (apply step_aside; reflexivity).
  eapply Step_trans; [exact S0|]. eapply Step_trans; [exact S1|]. eapply Step_trans; [exact S2|].
  destruct ok.
  - apply step_add_locked, (admissible_fwd _ _ _ (st_frame S2)). eapply check_add_admissible; [exact E|left; reflexivity].
  - eapply Step_trans; [apply step_cancel_bury|apply IH].
Qed.

Lemma step_promote c : Step c (promote c).
Proof. apply step_promote_loop. Qed.

Lemma step_then_promote c c' (b : bool) : Step c c' -> Step c (if b then promote c' else c').
Proof. intros S. destruct b; [eapply Step_trans; [exact S|apply step_promote]|exact S]. Qed.

Lemma step_add_waiting_loop ids : forall c n, Step c (fst (fst (add_waiting_loop c ids n))).
Proof.
  induction ids as [|id r IH]; intros c n; cbn [add_waiting_loop fst]; [apply Step_refl|].
  destruct (get_op c id) as [o|]; [|apply Step_refl].
  pose proof (step_check_add c [id]) as S1. destruct (check_add c [id]) as [c1 ok]. cbn [fst] in S1.
  destruct ok; cbn [negb fst]; (eapply Step_trans; [exact S1|]).
  - eapply Step_trans; [|apply IH]. apply step_aside; reflexivity.
  - apply step_cancel_bury.
Qed.

Lemma step_add_waiting c ids : Step c (fst (add_waiting c ids)).
Proof.
  unfold add_waiting. pose proof (step_add_waiting_loop ids c 0) as S.
  destruct (add_waiting_loop c ids 0) as [[c1 n] complete]. cbn [fst] in *. apply step_then_promote, S.
Qed.

(* RemoveOperator, and PromoteWaitingOperator if it removed *)
Definition remove_promote (c : ctl) (id : Z) : ctl * bool :=
  let '(c', removed) := remove_operator c id in if removed then (promote c', true) else (c', false).

Lemma step_remove_promote c id : Step c (fst (remove_promote c id)).
Proof.
  unfold remove_promote. pose proof (step_remove_operator c id) as S. destruct (remove_operator c id) as [c' removed].
  destruct removed; cbn [fst] in *; [|exact S]. eapply Step_trans; [exact S|apply step_promote].
Qed.

Lemma check_stale_eq c o s r : check_stale c o s r =
  let '(c1, done1) := if is_some (check_safety r s) then remove_promote c (o_id o) else (c, false) in
  if done1 then (c1, true)
  else if Gen_C09.stale_cmp_gt ((conf_ver r - o_cv o) mod two64) (op_conf_ver_changed o r) then remove_promote c1 (o_id o)
       else (c1, false).
Proof. reflexivity. Qed.

Lemma step_check_stale c o s r : Step c (fst (check_stale c o s r)).
Proof.
  rewrite check_stale_eq.
  assert (S1 : Step c (fst (if is_some (check_safety r s) then remove_promote c (o_id o) else (c, false)))).
  { destruct (is_some (check_safety r s)); [apply step_remove_promote|apply Step_refl]. }
  destruct (if is_some (check_safety r s) then _ else _) as [c1 done1]. cbn [fst] in S1. destruct done1; [exact S1|].
  destruct (Gen_C09.stale_cmp_gt _ _); [|exact S1].
  eapply Step_trans; [exact S1|apply step_remove_promote].
Qed.

Lemma step_dispatch c rid r hb : Step c (dispatch c rid r hb).
Proof.
  unfold dispatch. destruct (alist_get (running c) rid) as [id|]; [|apply Step_refl].
  destruct (get_op c id) as [o0|] eqn:Ho; [|apply Step_refl].
  pose proof (rel_op_check o0 r) as R. destruct (op_check o0 r) as [o st]. cbn [fst] in R.
  eapply Step_trans; [apply (step_op_update c id o0 o Ho R)|].
  pose proof (get_op_update c id o0 o Ho R) as Ho1. set (c1 := set_op c o) in *.
  assert (Sd : Step c1 (let '(c2, removed) := remove_locked c1 o in if removed then promote (bury (cancel c2 id) id) else c2)).
  { pose proof (step_remove_cancel_bury c1 id o Ho1) as S.
    destruct (remove_locked_cases c1 o) as [[E _]|E]; rewrite E in *; [|apply Step_refl].
    eapply Step_trans; [exact S|apply step_promote]. }
  assert (Sr : Step c1 (let '(c2, removed) := remove_operator c1 id in if removed then promote c2 else c2)).
  { pose proof (step_remove_operator c1 id) as S. destruct (remove_operator c1 id) as [c2 removed]. apply step_then_promote, S. }
  destruct (o_st o); try exact Sd; try exact Sr.
  destruct st as [s|]; [|apply Step_refl].
  assert (Sp : Step c1 (fst (if hb then check_stale c1 o s r else (c1, false)))) by (destruct hb; [apply step_check_stale|apply Step_refl]).
  destruct (if hb then check_stale c1 o s r else (c1, false)) as [c2 handled]. cbn [fst] in Sp.
  destruct handled; [exact Sp|]. eapply Step_trans; [exact Sp|apply step_aside; reflexivity].
Qed.

Lemma step_influence c : Step c (influence c).
Proof.
  unfold influence. apply (Step_fold (fun c => c)). intros s id. unfold influence_one.
  destruct (get_op s id) as [o|] eqn:Ho; [|apply Step_refl].
  pose proof (rel_check_timeout o) as R1. destruct (check_timeout o) as [o1 t]. cbn [fst] in R1.
  eapply step_op_update; [exact Ho|]. destruct t; [exact R1|]. eapply rel_trans; [exact R1|apply rel_check_success].
Qed.

Lemma step_poll_gone c rid : Step c (poll_gone c rid).
Proof.
  unfold poll_gone. destruct (alist_get (cache c) rid); [apply Step_refl|].
  destruct (alist_get (running c) rid) as [id|]; [|apply Step_refl].
  destruct (get_op c id) as [o|] eqn:Ho; [|apply Step_refl]. apply step_remove_cancel_bury, Ho.
Qed.

(* first what the controller does not look after changes (the regions, the inbox, the streams, a new operator in the
   table), then one function of the controller runs *)
Definition Shape (c c' : ctl) : Prop :=
  exists c1, ops_fwd c c1 /\ running c1 = running c /\ records c1 = records c /\ Step c1 c'.

Lemma shape_fn c c' : Step c c' -> Shape c c'.
Proof. intros S. exists c. auto using ops_fwd_same. Qed.

Lemma shape_quiet c c' : ops c' = ops c -> running c' = running c -> records c' = records c -> Shape c c'.
Proof. intros E1 E2 E3. exists c'. auto using ops_fwd_same, Step_refl. Qed.

Lemma ctl_step_shape c e : Shape c (fst (ctl_step c e)).
Proof.
  destruct e as [id rid cv ver steps level kregion desc|ids|ids| |rid|rid|id|rid|rid|rid cm|id|id|rid r|id k| |rid|rid|st|st|n|n|rid];
    cbn [ctl_step].
  (* ERegion, EDrop, EVanish, EBreak, ERebind, ERecordStore, EEntryRace, EStaleReport leave operators, running set, records alone *)
  all: try (apply shape_quiet; reflexivity).
  - (* ECreate *) cbn [fst]. destruct (is_some (get_op c id)); [apply shape_quiet; reflexivity|].
    eexists. split; [|split; [|split; [|apply Step_refl]]]; try reflexivity.
    intros i x Hx. exists x. split; [apply get_op_app, Hx|apply rel_refl].
  - (* EAdd *) pose proof (step_add_operator c ids) as S. destruct (add_operator c ids). apply shape_fn, S.
  - (* EAddWaiting *) pose proof (step_add_waiting c ids) as S. destruct (add_waiting c ids). apply shape_fn, S.
  - (* EPromote *) apply shape_fn, step_promote.
  - (* EHeartbeat: the cache is refreshed, then Dispatch *)
    destruct (alist_get (truth c) rid) as [r|]; cbn [fst]; [|apply shape_quiet; reflexivity].
    eexists. split; [|split; [|split; [|apply step_dispatch]]]; try reflexivity. apply ops_fwd_same. reflexivity.
  - (* EPush *) destruct (alist_get (cache c) rid) as [r|]; cbn [fst]; [apply shape_fn, step_dispatch|apply shape_quiet; reflexivity].
  - (* ERemove *) pose proof (step_remove_operator c id) as S. destruct (remove_operator c id). apply shape_fn, S.
  - (* EDeliver *) destruct (first_for rid (inbox c)) as [m|]; [|apply shape_quiet; reflexivity].
    destruct (alist_get (truth c) rid) as [r|]; [|apply shape_quiet; reflexivity].
    destruct (deliver r m). apply shape_quiet; reflexivity.
  - (* EForeign *) destruct (alist_get (truth c) rid) as [r|]; [|apply shape_quiet; reflexivity].
    destruct (apply_cmd r cm); apply shape_quiet; reflexivity.
  - (* EAge *) cbn [fst]. destruct (get_op c id) as [o|] eqn:Ho; [|apply shape_quiet; reflexivity].
    apply shape_fn, (step_op_update c id o _ Ho), rel_with_flags.
  - (* ESlow *) cbn [fst]. destruct (get_op c id) as [o|] eqn:Ho; [|apply shape_quiet; reflexivity].
    apply shape_fn, (step_op_update c id o _ Ho), rel_with_flags.
  - (* EPoke *) destruct (get_op c id) as [o|] eqn:Ho; cbn [fst]; [|apply shape_quiet; reflexivity].
    apply shape_fn, (step_op_update c id o _ Ho), rel_poke_op.
  - (* EInfluence *) apply shape_fn, step_influence.
  - (* EPollGone *) apply shape_fn, step_poll_gone.
Qed.

Lemma ctl_step_fwd c e : ops_fwd c (fst (ctl_step c e)).
Proof.
  destruct (ctl_step_shape c e) as (c1 & F & _ & _ & S). apply (ops_fwd_trans _ _ _ F), (fr_fwd _ _ (st_frame S)).
Qed.

Lemma ctl_step_left c e : WF c -> Left c (fst (ctl_step c e)).
Proof.
  destruct (ctl_step_shape c e) as (c1 & F & E & _ & S). intros W rid id Hin.
  apply (st_left S (WF_fwd _ _ F E W)). rewrite E. exact Hin.
Qed.

Definition CtlInv (c : ctl) : Prop := WF c /\ Rec c.

Lemma CtlInv_step c e : CtlInv c -> CtlInv (fst (ctl_step c e)).
Proof.
  destruct (ctl_step_shape c e) as (c1 & F & E2 & E3 & S). intros [W R]. split.
  - apply (WF_frame _ _ (st_frame S)), (WF_fwd _ _ F E2 W).
  - apply (fr_rec _ _ (st_frame S)), (Rec_fwd _ _ F E3 R).
Qed.

Lemma CtlInv_history maxw es : CtlInv (run_state ctl_step (init maxw) es).
Proof.
  apply (run_state_inv ctl_step CtlInv CtlInv_step). split; [|intros rid id st H; discriminate].
  constructor; unfold RInv, RunOps, KeyOk, init; cbn; intros; try contradiction. constructor.
Qed.
