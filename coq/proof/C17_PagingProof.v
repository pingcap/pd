(* C17 — the paging loop of LoadStores / loadRegions visits every item with a uint64 id exactly once, in
   id order, for every page limit, every LoadRange fault pattern and every callback that deletes only ids it has
   already been shown. *)
From PDV Require Import lib.Base lib.C17_Map gen.Gen_C17 model.C17_Storage.
Local Open Scope Z_scope.
Local Open Scope list_scope.

Lemma next_id_small k : 0 <= k < max_id -> next_id k = k + 1.
Proof. intros H. unfold next_id. apply Z.mod_small. unfold max_id in H. lia. Qed.
(* the wrap that makes an inclusive upper bound dangerous: after 2^64-1 the scan would restart at 0; the loop
   therefore stops when nextID == 0 *)
Lemma next_id_wraps : next_id max_id = 0.
Proof. reflexivity. Qed.
Lemma next_id_zero k : 0 <= k < two64 -> (next_id k = 0 <-> k = max_id).
Proof.
  intros H. split; [|intros ->; reflexivity]. intros E.
  destruct (Z.eq_dec k max_id) as [->|Hne]; [reflexivity|].
  rewrite next_id_small in E by (unfold max_id in *; lia). lia.
Qed.

(* 20 zero-padded decimal digits hold every uint64: key order = id order *)
Lemma pad_covers_uint64 : two64 <= 10 ^ Gen_C17.store_key_pad /\ two64 <= 10 ^ Gen_C17.region_key_pad /\
                          two64 <= 10 ^ Gen_C17.leader_weight_key_pad /\ two64 <= 10 ^ Gen_C17.region_weight_key_pad.
Proof. repeat split; vm_compute; discriminate. Qed.

Lemma store_limit_pos : 1 <= store_limit. Proof. discriminate. Qed.
Lemma region_min_pos : 1 <= region_limit_min. Proof. discriminate. Qed.
Lemma region_limit0_pos : 1 <= region_limit0. Proof. discriminate. Qed.

(* what page_loop returns: how it ended, the items shown to the callback, the namespace and the callback state afterwards *)
Notation pl_status r := (fst (fst (fst r))) (only parsing).
Notation pl_seen r := (snd (fst (fst r))) (only parsing).
Notation pl_map r := (snd (fst r)) (only parsing).
Notation pl_cb r := (snd r) (only parsing).

Section Loop.
  Context {V C : Type}.
  Variable cb : C -> Z * V -> C * list Z.

  Definition todo (m : amap V) (next : Z) : amap V := filter (in_range next range_end) m.
  Notation step := (step_item cb no_rw).

  Definition final (m : amap V) (c : C) (items : amap V) : amap V * C := fst (fold_left step items (m, c, 0)).
End Loop.

Lemma in_range_below {V} b hi k (v : V) : k < b -> in_range b hi (k, v) = false.
Proof. intros H. unfold in_range; cbn [fst]. replace (b <=? k) with false by (symmetry; lia). reflexivity. Qed.

Lemma filter_empty_range {V} lo hi (m : amap V) : hi <= lo -> filter (in_range lo hi) m = [].
Proof.
  intros H. induction m as [|[a w] r IH]; cbn [filter]; [reflexivity|]. unfold in_range at 1; cbn [fst].
  replace ((lo <=? a) && (a <? hi)) with false by (symmetry; lia). exact IH.
Qed.

Lemma filter_del_below {V} (m : amap V) d b hi : d < b ->
  filter (in_range b hi) (del m d) = filter (in_range b hi) m.
Proof.
  intros Hd. induction m as [|[k v] r IH]; cbn [del filter]; [reflexivity|].
  destruct (d =? k) eqn:E.
  - apply Z.eqb_eq in E; subst k. rewrite in_range_below by exact Hd. reflexivity.
  - destruct (d <? k); [reflexivity|]. cbn [filter]. rewrite IH. reflexivity.
Qed.

Lemma filter_dels_below {V} (dels : list Z) : forall (m : amap V) b hi, (forall d, In d dels -> d < b) ->
  filter (in_range b hi) (fold_left del dels m) = filter (in_range b hi) m.
Proof.
  induction dels as [|d ds IH]; intros m b hi H; cbn [fold_left]; [reflexivity|].
  rewrite IH by (intros d' Hd'; apply H; right; exact Hd').
  apply filter_del_below. apply H. left. reflexivity.
Qed.

Lemma filter_put_below {V} : forall (m : amap V) k v b hi, k < b ->
  filter (in_range b hi) (put m k v) = filter (in_range b hi) m.
Proof.
  induction m as [|[k' v'] r IH]; intros k v b hi Hk; cbn [put filter].
  - rewrite in_range_below by exact Hk. reflexivity.
  - destruct (k =? k') eqn:E.
    + apply Z.eqb_eq in E; subst k'. cbn [filter]. rewrite !in_range_below by exact Hk. reflexivity.
    + destruct (k <? k'); cbn [filter]; [rewrite (in_range_below b hi k v Hk)|rewrite IH by exact Hk]; reflexivity.
Qed.

Lemma dels_sorted {V} (dels : list Z) : forall (m : amap V) lo, sorted_from lo m -> sorted_from lo (fold_left del dels m).
Proof. induction dels as [|d ds IH]; intros m lo H; cbn [fold_left]; [exact H|]. apply IH. apply del_sorted. exact H. Qed.

Lemma lookup_dels {V} (ds : list Z) : forall (m : amap V) lo id, sorted_from lo m ->
  lookup (fold_left del ds m) id = if existsb (Z.eqb id) ds then None else lookup m id.
Proof.
  induction ds as [|d ds IH]; intros m lo id Hs; cbn [fold_left existsb]; [reflexivity|].
  rewrite (IH (del m d) lo id (del_sorted lo m d Hs)). rewrite (lookup_del lo) by exact Hs.
  destruct (id =? d); cbn [orb]; [destruct (existsb (Z.eqb id) ds); reflexivity|reflexivity].
Qed.

Fixpoint page_ok {V} (lo : Z) (p : amap V) : Prop :=
  match p with [] => True | (k, _) :: r => lo <= k < range_end /\ page_ok (k + 1) r end.

Lemma page_ok_filter {V} lo b (m : amap V) : sorted_from b m -> page_ok lo (todo m lo).
Proof.
  revert lo b; induction m as [|[k v] r IH]; intros lo b Hs; cbn [todo filter page_ok]; [exact I|].
  destruct Hs as [H1 H2]. unfold in_range at 1; cbn [fst].
  destruct ((lo <=? k) && (k <? range_end)) eqn:E.
  - cbn [page_ok]. split; [lia|].
    assert (G : filter (in_range lo range_end) r = filter (in_range (k + 1) range_end) r).
    { rewrite (filter_all_from lo range_end r (k + 1) H2) by lia.
      rewrite (filter_all_from (k + 1) range_end r (k + 1) H2) by lia. reflexivity. }
    rewrite G. apply (IH (k + 1) (k + 1) H2).
  - apply (IH lo (k + 1) H2).
Qed.

Lemma page_ok_firstn {V} n : forall lo (p : amap V), page_ok lo p -> page_ok lo (firstn n p).
Proof.
  induction n as [|n IH]; intros lo [|[k v] r] H; cbn [firstn page_ok]; auto.
  destruct H as [H1 H2]. split; [exact H1|]. apply IH. exact H2.
Qed.

Lemma page_ok_bounds {V} : forall (q : amap V) b, page_ok b q -> forall a w, In (a, w) q -> b <= a < range_end.
Proof.
  induction q as [|[a0 w0] q IHq]; intros b Hq a w Hin; [contradiction|].
  destruct Hq as [Hq1 Hq2]. destruct Hin as [E|Hin]; [inversion E; subst; lia|].
  specialize (IHq _ Hq2 _ _ Hin). lia.
Qed.

Lemma page_ok_last {V} : forall (p : amap V) lo k v, page_ok lo (p ++ [(k, v)]) ->
  forall k' v', In (k', v') (p ++ [(k, v)]) -> k' <= k.
Proof.
  induction p as [|[k0 v0] p IH]; intros lo k v H k' v' Hin; cbn [app] in *.
  - destruct Hin as [E|[]]. inversion E; subst. lia.
  - destruct H as [H1 H2]. destruct Hin as [E|Hin]; [|apply (IH _ _ _ H2 _ _ Hin)].
    inversion E; subst k' v'.
    assert (In (k, v) (p ++ [(k, v)])) by (apply in_or_app; right; left; reflexivity).
    pose proof (page_ok_bounds _ _ H2 k v H). lia.
Qed.

Lemma firstn_In {X} n (l : list X) x : In x (firstn n l) -> In x l.
Proof. intros H. rewrite <- (firstn_skipn n l). apply in_or_app. left. exact H. Qed.

Lemma firstn_short {X} n (l : list X) : (length (firstn n l) < n)%nat -> firstn n l = l.
Proof. intros H. rewrite firstn_length in H. apply firstn_all2. lia. Qed.

Lemma log2_half limit : 2 <= limit -> (Z.to_nat (Z.log2 (limit / 2)) < Z.to_nat (Z.log2 limit))%nat.
Proof.
  intros H. assert (H0 : 0 < limit / 2) by (apply Z.div_str_pos; lia).
  pose proof (Z.div_mod limit 2 ltac:(lia)) as E.
  pose proof (Z.mod_pos_bound limit 2 ltac:(lia)) as B.
  pose proof (Z.log2_nonneg (limit / 2)) as N.
  assert (L : Z.log2 limit = Z.succ (Z.log2 (limit / 2))).
  { destruct (Z.eq_dec (limit mod 2) 0) as [Z0|Z1].
    - rewrite E at 1. rewrite Z0, Z.add_0_r. apply Z.log2_double. exact H0.
    - assert (limit mod 2 = 1) by lia. rewrite E at 1. rewrite H1. apply Z.log2_succ_double. exact H0. }
  lia.
Qed.

Lemma todo_after_page {V} (m : amap V) lo0 next n k v r0 :
  sorted_from lo0 m -> firstn n (todo m next) = r0 ++ [(k, v)] ->
  todo m next = firstn n (todo m next) ++ filter (in_range (k + 1) range_end) m.
Proof.
  intros Hs E. rewrite <- (filter_split_after next range_end m lo0 n r0 k v Hs E). symmetry. apply firstn_skipn.
Qed.

Section Exact.
  Context {V C : Type}.
  Variable fails : nat -> amap V -> bool.
  Variable cb : C -> Z * V -> C * list Z.
  Variable rw : C -> Z * V -> option V.
  Variable min_limit : Z.
  Hypothesis min_pos : 1 <= min_limit.

  (* J c b : the callback state c only refers to ids < b; then what it asks to delete lies behind the scan *)
  Variable J : C -> Z -> Prop.
  Hypothesis J_mono : forall c b b', J c b -> b <= b' -> J c b'.
  Hypothesis J_step : forall c it, J c (fst it) ->
    (forall d, In d (snd (cb c it)) -> d <= fst it) /\ J (fst (cb c it)) (fst it + 1).

  Notation step := (step_item cb rw).

  Lemma step_item_eq m c nx (it : Z * V) :
    step (m, c, nx) it =
    (match rw c it with Some v' => put (fold_left del (snd (cb c it)) m) (fst it) v' | None => fold_left del (snd (cb c it)) m end,
     fst (cb c it), next_id (fst it)).
  Proof. unfold step_item. destruct (cb c it); reflexivity. Qed.

  Lemma fold_step_nx : forall (p : amap V) m c nx nx',
    fst (fold_left step p (m, c, nx)) = fst (fold_left step p (m, c, nx')).
  Proof.
    induction p as [|it p IH]; intros m c nx nx'; cbn [fold_left]; [reflexivity|].
    rewrite !step_item_eq. reflexivity.
  Qed.

  Lemma process_page lo0 : forall (p : amap V) lo m c nx,
    page_ok lo p -> sorted_from lo0 m -> (forall k v, In (k, v) p -> lo0 <= k) -> J c lo ->
    let r := fold_left step p (m, c, nx) in
    sorted_from lo0 (fst (fst r)) /\
    (forall b hi, (forall k v, In (k, v) p -> k < b) -> lo <= b ->
       filter (in_range b hi) (fst (fst r)) = filter (in_range b hi) m) /\
    (forall k v r0, p = r0 ++ [(k, v)] -> snd r = next_id k /\ J (snd (fst r)) (k + 1)).
  Proof.
    induction p as [|[k v] p IH]; intros lo m c nx Hp Hs Hlo0 HJ r.
    - subst r. cbn [fold_left fst snd].
      split; [exact Hs|]. split; [reflexivity|].
      intros kk vv rr E; destruct rr; discriminate.
    - destruct Hp as [Hk Hp].
      subst r. cbn [fold_left]. rewrite step_item_eq. cbn [fst].
      assert (HJk : J c k) by (apply (J_mono c lo k HJ); lia).
      destruct (J_step c (k, v) HJk) as [Hd HJ']. cbn [fst] in Hd, HJ'.
      set (c' := fst (cb c (k, v))) in *. set (dels := snd (cb c (k, v))) in *.
      set (m1 := match rw c (k, v) with Some v' => put (fold_left del dels m) k v' | None => fold_left del dels m end).
      assert (Hs1 : sorted_from lo0 m1).
      { subst m1. destruct (rw c (k, v)); [|apply dels_sorted; exact Hs].
        pose proof (put_sorted lo0 (fold_left del dels m) k v0 (dels_sorted dels m lo0 Hs)) as G.
        rewrite Z.min_l in G by (apply (Hlo0 k v); left; reflexivity). exact G. }
      assert (Hf1 : forall b hi, k < b -> filter (in_range b hi) m1 = filter (in_range b hi) m).
      { intros b hi Hb. subst m1. destruct (rw c (k, v)); [rewrite filter_put_below by exact Hb|];
          apply filter_dels_below; intros d Hdin; specialize (Hd d Hdin); lia. }
      specialize (IH (k + 1) m1 c' (next_id k) Hp Hs1 (fun k' v' H => Hlo0 k' v' (or_intror H)) HJ').
      cbv zeta in IH. destruct IH as (I1 & I4 & I5).
      split; [exact I1|]. split.
      + intros b hi Hb Hlob.
        pose proof (Hb k v (or_introl eq_refl)).
        rewrite I4; [apply Hf1; lia|intros k' v' Hin; apply (Hb k' v'); right; exact Hin|lia].
      + intros k' v' r0 E. destruct r0 as [|x r0]; cbn in E; inversion E; subst.
        * cbn [fold_left fst snd]. split; [reflexivity|exact HJ'].
        * apply (I5 k' v' r0 eq_refl).
  Qed.

  Lemma page_step m next limit c m' c' next' lo0 :
    sorted_from lo0 m -> 0 <= next -> J c next -> 1 <= limit ->
    fold_left step (range m next range_end limit) (m, c, next) = (m', c', next') ->
    sorted_from lo0 m' /\
    if (Z.of_nat (length (range m next range_end limit)) <? limit) || (next' =? 0)
    then range m next range_end limit = todo m next
    else 0 <= next' /\ J c' next' /\ todo m next = range m next range_end limit ++ todo m' next'.
  Proof.
    intros Hs Hn HJ Hl Efold. set (page := range m next range_end limit) in *.
    assert (Hpage : page = firstn (Z.to_nat limit) (todo m next)) by reflexivity.
    pose proof (page_ok_firstn (Z.to_nat limit) next (todo m next) (page_ok_filter next lo0 m Hs)) as Hok.
    rewrite <- Hpage in Hok.
    assert (Hin0 : forall k v, In (k, v) page -> lo0 <= k).
    { intros k v Hin. apply (sorted_from_In lo0 m k v Hs). rewrite Hpage in Hin. apply firstn_In in Hin.
      apply filter_In in Hin. apply Hin. }
    pose proof (process_page lo0 page next m c next Hok Hs Hin0 HJ) as P. cbv zeta in P. rewrite Efold in P.
    cbn [fst snd] in P. destruct P as (P1 & P3 & P4). split; [exact P1|].
    destruct (Z.of_nat (length page) <? limit) eqn:Elen; cbn [orb].
    - rewrite Hpage. apply firstn_short. rewrite <- Hpage. lia.
    - assert (Hlen : length page = Z.to_nat limit).
      { pose proof (firstn_le_length (Z.to_nat limit) (todo m next)) as G. rewrite <- Hpage in G. lia. }
      destruct (exists_last (l := page)) as (r0 & [k v] & Elast).
      { intros E. rewrite E in Hlen. cbn in Hlen. lia. }
      destruct (P4 k v r0 Elast) as [Hnext HJ'].
      assert (Hkb : next <= k < range_end).
      { apply (page_ok_bounds page next Hok k v). rewrite Elast. apply in_or_app. right. left. reflexivity. }
      assert (Hkeys : forall k' v', In (k', v') page -> k' < k + 1).
      { intros k' v' Hin. rewrite Elast in Hok, Hin. pose proof (page_ok_last r0 next k v Hok k' v' Hin). lia. }
      pose proof (todo_after_page m lo0 next (Z.to_nat limit) k v r0 Hs) as Hsplit.
      rewrite <- Hpage in Hsplit. specialize (Hsplit Elast).
      destruct (next' =? 0) eqn:Ez.
      + (* nextID wrapped: the page ended at the largest id, nothing can lie behind it *)
        apply Z.eqb_eq in Ez. rewrite Hnext in Ez.
        assert (Hk : k = max_id) by (apply next_id_zero; [unfold range_end in Hkb; lia|exact Ez]).
        rewrite Hsplit, Hk. change (max_id + 1) with range_end. rewrite filter_empty_range by lia. symmetry. apply app_nil_r.
      + apply Z.eqb_neq in Ez. rewrite Hnext in Ez.
        assert (Hk : k <> max_id) by (intros ->; apply Ez; reflexivity).
        assert (Hnext' : next' = k + 1).
        { rewrite Hnext. apply next_id_small. unfold range_end, max_id in *. lia. }
        split; [lia|]. split; [rewrite Hnext'; exact HJ'|].
        unfold todo at 2. rewrite Hnext', (P3 (k + 1) range_end Hkeys ltac:(lia)). exact Hsplit.
  Qed.

  (* Never RDiverged with the stated fuel - also not where nextID wraps; when RDone, the callback has been shown exactly the
     items from `next` on, each once, in id order; the namespace stays sorted; without LoadRange failures the load ends. *)
  Theorem page_loop_exact : forall fuel m next limit call c acc lo0,
    sorted_from lo0 m -> 0 <= next -> J c next -> 1 <= limit ->
    (length (todo m next) + Z.to_nat (Z.log2 limit) < fuel)%nat ->
    let res := page_loop fails cb rw min_limit fuel m next limit call c acc in
    pl_status res <> RDiverged /\
    (pl_status res = RDone ->
       pl_seen res = acc ++ todo m next /\
       (pl_map res, pl_cb res) = fst (fold_left step (todo m next) (m, c, 0))) /\
    sorted_from lo0 (pl_map res) /\
    ((forall n p, fails n p = false) -> pl_status res = RDone).
  Proof.
    induction fuel as [|fuel IH]; intros m next limit call c acc lo0 Hs Hn HJ Hl Hf; [lia|].
    cbn [page_loop]. destruct (fails call (range m next range_end limit)) eqn:Ef.
    - destruct (min_limit <=? limit / 2) eqn:Em.
      + assert (2 <= limit).
        { destruct (Z.le_gt_cases 2 limit) as [G|G]; [exact G|].
          assert (limit = 1) by lia. subst limit. cbn in Em. lia. }
        pose proof (log2_half limit H). apply IH; try assumption; lia.
      + cbn [fst snd]. split; [discriminate|]. split; [discriminate|]. split; [exact Hs|].
        intros Hnf. rewrite Hnf in Ef. discriminate.
    - destruct (fold_left step (range m next range_end limit) (m, c, next)) as [[m' c'] next'] eqn:Efold.
      destruct (page_step m next limit c m' c' next' lo0 Hs Hn HJ Hl Efold) as [P1 P2].
      assert (Hpage : fst (fold_left step (range m next range_end limit) (m, c, 0)) = (m', c')).
      { rewrite (fold_step_nx _ m c 0 next), Efold. reflexivity. }
      destruct ((Z.of_nat (length (range m next range_end limit)) <? limit) || (next' =? 0)) eqn:Ec.
      + cbn [fst snd]. rewrite <- P2, Hpage. split; [discriminate|]. auto.
      + destruct P2 as (Hn' & HJ' & Hsplit).
        apply orb_false_iff in Ec as [Ec _].
        assert (Hm : (length (todo m' next') + Z.to_nat (Z.log2 limit) < fuel)%nat).
        { rewrite Hsplit, app_length in Hf. lia. }
        specialize (IH m' next' limit (S call) c' (acc ++ range m next range_end limit) lo0 P1 Hn' HJ' Hl Hm).
        cbv zeta in IH. destruct IH as (I1 & I2 & I3 & I4).
        split; [exact I1|]. split; [|split; [exact I3|exact I4]].
        intros Hd. destruct (I2 Hd) as [A B]. rewrite A, B, Hsplit, app_assoc, fold_left_app.
        split; [reflexivity|].
        destruct (fold_left step (range m next range_end limit) (m, c, 0)) as [[m2 c2] nx2].
        cbn [fst] in Hpage. inversion Hpage; subst m2 c2. apply fold_step_nx.
  Qed.
End Exact.

Lemma filter_len_le {X} (f : X -> bool) (l : list X) : (length (filter f l) <= length l)%nat.
Proof. induction l as [|x l IH]; cbn; [lia|]. destruct (f x); cbn; lia. Qed.

Lemma fuel_enough {V} (m : amap V) next limit :
  (length (todo m next) + Z.to_nat (Z.log2 limit) < fuel_for m limit)%nat.
Proof. unfold fuel_for, todo. pose proof (filter_len_le (in_range next range_end) m). lia. Qed.

Corollary page_loop_no_faults {V C} (cb : C -> Z * V -> C * list Z) (rw : C -> Z * V -> option V) min_limit (J : C -> Z -> Prop) :
  1 <= min_limit -> (forall c b b', J c b -> b <= b' -> J c b') ->
  (forall c it, J c (fst it) -> (forall d, In d (snd (cb c it)) -> d <= fst it) /\ J (fst (cb c it)) (fst it + 1)) ->
  forall m limit c lo0, sorted_from lo0 m -> J c 0 -> 1 <= limit ->
    let res := page_loop never_fails cb rw min_limit (fuel_for m limit) m 0 limit O c [] in
    pl_status res = RDone /\ pl_seen res = todo m 0 /\
    (pl_map res, pl_cb res) = fst (fold_left (step_item cb rw) (todo m 0) (m, c, 0)) /\
    sorted_from lo0 (pl_map res).
Proof.
  intros Hmin Jm Js m limit c lo0 Hs HJ Hl.
  destruct (page_loop_exact never_fails cb rw min_limit Hmin J Jm Js (fuel_for m limit) m 0 limit O c [] lo0 Hs
              (Z.le_refl 0) HJ Hl (fuel_enough m 0 limit)) as (_ & P2 & P3 & P4).
  specialize (P4 (fun _ _ => eq_refl)). destruct (P2 P4) as [A B]. auto.
Qed.

Lemma todo_from_zero {V} (m : amap V) : sorted_from 0 m -> todo m 0 = filter (fun p => fst p <? range_end) m.
Proof. intros H. unfold todo. apply (filter_all_from 0 range_end m 0 H). lia. Qed.

Lemma filter_all_below {V} (m : amap V) : (forall k v, In (k, v) m -> k < two64) ->
  filter (fun p => fst p <? range_end) m = m.
Proof.
  intros Hb. induction m as [|[k v] r IH]; cbn [filter]; [reflexivity|]. cbn [fst].
  assert (k < two64) by (apply (Hb k v); left; reflexivity).
  replace (k <? range_end) with true by (symmetry; unfold range_end; lia).
  f_equal. apply IH; intros k' v' Hin; apply (Hb k' v'); right; exact Hin.
Qed.

Lemma todo_all {V} (m : amap V) : sorted_from 0 m -> (forall k v, In (k, v) m -> k < two64) -> todo m 0 = m.
Proof. intros Hs Hb. rewrite todo_from_zero by exact Hs. apply filter_all_below. exact Hb. Qed.
