(* C01 for an allocator that differentiates its logical part (a Local TSO Allocator, or the Global one when
   dc-locations are configured): generateTSO returns  raw << b + sfx  (tso.go differentiateLogical), getTS drops the
   answer unless THAT value is below maxLogical, and a response with count n stands for the n values
   differentiate (raw - i) for i < n (client: addLogical(logical, -count+1, suffixBits), stride 2^b).

   The memory, the window and the raw counter evolve exactly as in model/C01_Tso.v (the counter is advanced before the
   check, whatever the check says), and the suffixed check is stricter than the raw one (raw <= raw << b + sfx), so a
   run of the suffixed allocator is a run of the model in which some more answers are dropped: everything the model
   proves about granted records holds for the answers the suffixed allocator hands out.  This file transports those
   facts through the differentiation: it is strictly monotone, so order and disjointness survive, and the check on
   the differentiated value is what makes every value of the answer fit the 18-bit field. *)
From Coq Require Import ZArith List Lia.
From PDV Require Import lib.Base model.C01_Tso proof.C01_Rec proof.C01_Main.
Local Open Scope Z_scope.

Definition differentiate (raw b sfx : Z) : Z := Z.shiftl raw b + sfx.

(* the i-th value (from the top) of an answer *)
Definition value_of (b sfx : Z) (r : rec) (i : Z) : Z * Z := (gP r, differentiate (gL r - i) b sfx).
(* the check of getTS on the differentiated logical part *)
Definition passes (b sfx : Z) (r : rec) : Prop := differentiate (gL r) b sfx < max_logical.

Lemma differentiate_eq raw b sfx : 0 <= b -> differentiate raw b sfx = raw * 2 ^ b + sfx.
Proof. intros Hb. unfold differentiate. rewrite Z.shiftl_mul_pow2 by exact Hb. reflexivity. Qed.

Lemma differentiate_mono b sfx x y : 0 <= b -> x < y -> differentiate x b sfx < differentiate y b sfx.
Proof.
  intros Hb Hxy. rewrite !differentiate_eq by exact Hb.
  assert (0 < 2 ^ b) by (apply Z.pow_pos_nonneg; lia). nia.
Qed.

Lemma differentiate_mono_le b sfx x y : 0 <= b -> x <= y -> differentiate x b sfx <= differentiate y b sfx.
Proof.
  intros Hb Hxy. rewrite !differentiate_eq by exact Hb.
  assert (0 < 2 ^ b) by (apply Z.pow_pos_nonneg; lia). nia.
Qed.

Lemma values_fit b sfx r i :
  0 <= b -> 0 <= sfx -> 0 < gL r - gcount r + 1 -> passes b sfx r -> 0 <= i < gcount r ->
  0 < snd (value_of b sfx r i) + 1 /\ snd (value_of b sfx r i) < max_logical.
Proof.
  intros Hb Hs Hlo Hp Hi. cbn [value_of snd]. split.
  - rewrite differentiate_eq by exact Hb. assert (0 < 2 ^ b) by (apply Z.pow_pos_nonneg; lia). nia.
  - eapply Z.le_lt_trans; [|exact Hp]. apply differentiate_mono_le; [exact Hb|lia].
Qed.

(* order: if the raw range of r1 lies below the raw range of r2, every value of r1 is below every value of r2 *)
Lemma values_ordered b sfx r1 r2 i j :
  0 <= b -> below r1 r2 -> 0 <= i -> 0 <= j < gcount r2 ->
  lt_pl (fst (value_of b sfx r1 i)) (snd (value_of b sfx r1 i)) (fst (value_of b sfx r2 j)) (snd (value_of b sfx r2 j)).
Proof.
  intros Hb Hbel Hi Hj. unfold below, le_pl in Hbel. unfold lt_pl. cbn [value_of fst snd].
  destruct Hbel as [Hlt|[Heq Hle]]; [left; exact Hlt|right]. split; [exact Heq|].
  apply differentiate_mono; [exact Hb|lia].
Qed.

Lemma values_distinct_within b sfx r i j : 0 <= b -> i < j -> snd (value_of b sfx r j) < snd (value_of b sfx r i).
Proof. intros Hb Hij. cbn [value_of snd]. apply differentiate_mono; [exact Hb|lia]. Qed.

(* the Global allocator's width grows when dc-locations join and never shrinks (GetSuffixBits = CalSuffixBits of a maximum
   that is only ever raised; the plain path of GenerateTSO uses it too).  A later, larger raw value differentiated with an
   equal or larger width is larger (props/C01.v, C01_global_width_may_only_grow); with a smaller width it need not be:
   raw 52 at width 2 is 208, raw 53 at width 0 is 53 *)
Example width_must_not_shrink : differentiate 52 2 0 = 208 /\ differentiate 53 0 0 = 53.
Proof. split; reflexivity. Qed.

(* The client library (client/client.go): a response (highest value `logical`, count n, width b) is turned into the values of
   the n waiting callers by  firstLogical = addLogical(logical, -n+1, b)  and, for caller k < n,  addLogical(firstLogical, k, b),
   where addLogical(l, c, b) = l + c << b.  The k-th caller's value is the (n-1-k)-th value from the top of the answer: the
   client hands out exactly the n values the answer stands for, each once, lowest first. *)
Definition add_logical (l c b : Z) : Z := l + Z.shiftl c b.
Definition client_value (b sfx : Z) (r : rec) (k : Z) : Z * Z :=
  (gP r, add_logical (add_logical (differentiate (gL r) b sfx) (- gcount r + 1) b) k b).

Lemma add_logical_eq l c b : 0 <= b -> add_logical l c b = l + c * 2 ^ b.
Proof. intros Hb. unfold add_logical. rewrite Z.shiftl_mul_pow2 by exact Hb. reflexivity. Qed.

Lemma client_value_is_value_of b sfx r k : 0 <= b -> client_value b sfx r k = value_of b sfx r (gcount r - 1 - k).
Proof.
  intros Hb. unfold client_value, value_of. f_equal.
  rewrite !add_logical_eq, !differentiate_eq by exact Hb. ring.
Qed.

Lemma client_values_increase b sfx r j k : 0 <= b -> j < k -> snd (client_value b sfx r j) < snd (client_value b sfx r k).
Proof.
  intros Hb Hjk. rewrite !client_value_is_value_of by exact Hb. apply values_distinct_within; [exact Hb|lia].
Qed.

