(* C07 — L1: regionTree operations on a valid, sorted, pairwise disjoint item list are filters. *)
From Coq Require Import Permutation Sorting.Sorted.
From PDV Require Import lib.Base lib.C07_Key gen.Gen_C07 model.C07_BTreeSpec model.C07_Region proof.C07_Sorted.
Local Open Scope Z_scope.

Definition validP (r : region) : Prop := valid_range r = true.
Definition before (x y : region) : Prop := r_end x <> [] /\ kle (r_end x) (r_start y).
Definition ds (T : list region) : Prop := Forall validP T /\ StronglySorted before T.

Lemma validP_cases r : validP r -> r_end r = [] \/ klt (r_start r) (r_end r).
Proof.
  unfold validP, valid_range. destruct (is_nil_spec (r_end r)); [auto|].
  cbn. destruct (key_ltb_spec (r_start r) (r_end r)); [auto|discriminate].
Qed.

Lemma before_slt x y : validP x -> before x y -> slt x y.
Proof.
  intros V [N L]. apply validP_cases in V as [V|V]; [contradiction|]. unfold slt. korder.
Qed.

Lemma ds_nil : ds [].
Proof. split; constructor. Qed.

Lemma ds_valid T x : ds T -> In x T -> validP x.
Proof. intros [V _] Hx. rewrite Forall_forall in V. auto. Qed.

Lemma ds_ssorted T : ds T -> ssorted T.
Proof.
  intros [V S]. induction S as [|a T S IH F]; [constructor|].
  inversion V; subst. apply ssorted_cons; [auto|].
  rewrite Forall_forall in *. intros y Hy. apply before_slt; auto.
Qed.

Lemma ds_pairs T x y : ds T -> In x T -> In y T -> x = y \/ before x y \/ before y x.
Proof. intros [_ S]. apply ss_pairs; exact S. Qed.

Lemma ds_filter p T : ds T -> ds (filter p T).
Proof.
  intros [V S]. split; [|apply StronglySorted_filter, S].
  rewrite Forall_forall in *. intros x Hx. apply filter_In in Hx as [Hx _]. auto.
Qed.

Lemma is_nil_true a : is_nil a = true <-> a = [].
Proof. destruct a; cbn; split; intros H; congruence. Qed.

Lemma contains_iff x k :
  contains x k = true <-> kle (r_start x) k /\ (r_end x = [] \/ klt k (r_end x)).
Proof. unfold contains. rewrite andb_true_iff, orb_true_iff, is_nil_true. reflexivity. Qed.

Lemma overlaps_iff x r :
  overlaps x r = true <-> (r_end x = [] \/ klt (r_start r) (r_end x)) /\ (r_end r = [] \/ klt (r_start x) (r_end r)).
Proof. unfold overlaps. rewrite andb_true_iff, !orb_true_iff, !is_nil_true. reflexivity. Qed.

Lemma before_end_iff r x :
  before_end r x = true <-> (r_end r = [] \/ klt (r_start x) (r_end r)).
Proof.
  unfold before_end. destruct (is_nil_spec (r_end r)), (key_leb_spec (r_end r) (r_start x)); cbn;
    split; intros H; auto; try discriminate.
  - destruct H; [contradiction|]. exfalso; korder.
  - right. korder.
Qed.

Lemma valid_contains_start x : validP x -> contains x (r_start x) = true.
Proof.
  intros V. apply contains_iff. split; [korder|]. apply validP_cases in V. exact V.
Qed.

Lemma ds_contains_unique T x y k :
  ds T -> In x T -> In y T -> contains x k = true -> contains y k = true -> x = y.
Proof.
  intros D Hx Hy Cx Cy. apply contains_iff in Cx as [Cx1 Cx2]. apply contains_iff in Cy as [Cy1 Cy2].
  destruct (ds_pairs _ _ _ D Hx Hy) as [E|[[N L]|[N L]]]; [exact E| |].
  - destruct Cx2; [contradiction|]. exfalso; korder.
  - destruct Cy2; [contradiction|]. exfalso; korder.
Qed.

Lemma ds_overlaps_eq T x y : ds T -> In x T -> In y T -> overlaps x y = true -> x = y.
Proof.
  intros D Hx Hy O. apply overlaps_iff in O as [O1 O2].
  pose proof (ds_valid _ _ D Hx) as Vx. pose proof (ds_valid _ _ D Hy) as Vy.
  apply validP_cases in Vx. apply validP_cases in Vy.
  destruct (ds_pairs _ _ _ D Hx Hy) as [E|[[N L]|[N L]]]; [exact E| |].
  - destruct O1; [contradiction|]. exfalso; korder.
  - destruct O2; [contradiction|]. exfalso; korder.
Qed.

Lemma overlaps_comm x y : overlaps x y = overlaps y x.
Proof. unfold overlaps. apply andb_comm. Qed.

(* two valid ranges that do not overlap: the one that starts first ends before the other starts *)
Lemma disjoint_before x y : validP x -> validP y -> overlaps x y = false -> kle (r_start x) (r_start y) -> before x y.
Proof.
  intros Vx Vy O L. apply validP_cases in Vy.
  assert (N : ~ ((r_end x = [] \/ klt (r_start y) (r_end x)) /\ (r_end y = [] \/ klt (r_start x) (r_end y))))
    by (rewrite <- overlaps_iff, O; discriminate).
  assert (Q : r_end y = [] \/ klt (r_start x) (r_end y)) by (destruct Vy; [auto|right; korder]).
  split; [intros E; apply N; auto|].
  destruct (key_leb_spec (r_end x) (r_start y)); [assumption|]. exfalso. apply N. split; [right; korder|exact Q].
Qed.

Lemma valid_overlaps_self x : validP x -> overlaps x x = true.
Proof. intros V. apply overlaps_iff. apply validP_cases in V. tauto. Qed.

Lemma rt_find_some T tot r x : ds T -> find (RT T tot) r = Some x -> In x T /\ contains x (r_start r) = true.
Proof.
  intros D. unfold find; cbn [items]. rewrite (descend_le_filter _ _ (ds_ssorted _ D)).
  destruct (rev (filter (fun x0 => negb (rlt r x0)) T)) as [|y rest] eqn:E; [discriminate|].
  destruct (contains y (r_start r)) eqn:C; [|discriminate]. intros H; inversion H; subst y.
  split; [|exact C]. apply rev_cons_last in E.
  assert (In x (filter (fun x0 => negb (rlt r x0)) T)) by (rewrite E; apply in_or_app; right; left; reflexivity).
  apply filter_In in H0. tauto.
Qed.

Lemma rt_find_complete T tot r x :
  ds T -> In x T -> contains x (r_start r) = true -> find (RT T tot) r = Some x.
Proof.
  intros D Hx C. unfold find; cbn [items]. rewrite (descend_le_filter _ _ (ds_ssorted _ D)).
  set (F := filter (fun x0 => negb (rlt r x0)) T).
  assert (SF : ssorted F) by (apply ssorted_filter, ds_ssorted, D).
  apply contains_iff in C as C'. destruct C' as [C1 C2].
  assert (HxF : In x F).
  { apply filter_In. split; [exact Hx|]. destruct (rlt_spec r x) as [L|_]; [unfold slt in L; exfalso; korder|reflexivity]. }
  destruct (rev F) as [|y rest] eqn:E.
  - apply (f_equal (@rev _)) in E. rewrite rev_involutive in E. cbn in E. rewrite E in HxF. destruct HxF.
  - apply rev_cons_last in E.
    assert (HyF : In y F) by (rewrite E; apply in_or_app; right; left; reflexivity).
    apply filter_In in HyF as [HyT Hy].
    assert (Ly : kle (r_start y) (r_start r)).
    { destruct (rlt_spec r y) as [L|NL]; [discriminate|]. unfold slt in NL. korder. }
    assert (x = y) as <-.
    { destruct (ds_pairs _ _ _ D Hx HyT) as [Eq|[[N L]|B]]; [exact Eq| |].
      - destruct C2; [contradiction|]. exfalso; korder.
      - exfalso. apply before_slt in B; [|eapply ds_valid; eauto].
        rewrite E in SF, HxF. apply ssorted_app_inv in SF as (_ & _ & SF).
        apply in_app_or in HxF as [HxF|[->|[]]].
        + specialize (SF x y HxF (or_introl eq_refl)). unfold slt in *. korder.
        + unfold slt in B. korder. }
    rewrite (proj2 (contains_iff x (r_start r)) (conj C1 C2)). reflexivity.
Qed.

Lemma rt_find_none T tot r :
  ds T -> find (RT T tot) r = None -> forall x, In x T -> contains x (r_start r) = false.
Proof.
  intros D H x Hx. destruct (contains x (r_start r)) eqn:C; [|reflexivity].
  rewrite (rt_find_complete _ _ _ _ D Hx C) in H. discriminate.
Qed.

(* ---- the items at or after the item that contains k (or after k): scan start ---- *)
Definition ends_after (k : key) (x : region) : bool := is_nil (r_end x) || key_ltb k (r_end x).

Lemma ascend_from_find T tot r :
  ds T ->
  l0_ascend_ge rlt (match find (RT T tot) r with Some x => x | None => r end) T = filter (ends_after (r_start r)) T.
Proof.
  intros D. rewrite (ascend_ge_filter _ _ (ds_ssorted _ D)). apply filter_ext_in. intros x Hx.
  pose proof (ds_valid _ _ D Hx) as Vx. apply validP_cases in Vx.
  unfold ends_after.
  destruct (find (RT T tot) r) as [f|] eqn:F.
  - apply rt_find_some in F as [Hf Cf]; [|exact D]. apply contains_iff in Cf as [Cf1 Cf2].
    destruct (ds_pairs _ _ _ D Hx Hf) as [->|[[N L]|[N L]]].
    + destruct (rlt_spec f f) as [L|_]; [unfold slt in L; exfalso; korder|].
      cbn. symmetry. destruct (is_nil_spec (r_end f)); [reflexivity|]. cbn.
      destruct (key_ltb_spec (r_start r) (r_end f)); [reflexivity|]. destruct Cf2; contradiction.
    + destruct Vx; [contradiction|].
      destruct (rlt_spec x f) as [_|NL]; [|unfold slt in NL; exfalso; korder]. cbn.
      destruct (is_nil_spec (r_end x)); [contradiction|]. cbn.
      destruct (key_ltb_spec (r_start r) (r_end x)); [exfalso; korder|reflexivity].
    + destruct Cf2; [contradiction|].
      destruct (rlt_spec x f) as [L'|_]; [unfold slt in L'; exfalso; korder|]. cbn.
      destruct (is_nil_spec (r_end x)); [reflexivity|]. cbn.
      destruct (key_ltb_spec (r_start r) (r_end x)); [reflexivity|]. destruct Vx; [contradiction|]. exfalso; korder.
  - pose proof (rt_find_none _ _ _ D F x Hx) as NC.
    destruct (rlt_spec x r) as [L|NL]; cbn.
    + (* x starts before r's start and does not contain it *)
      destruct (is_nil_spec (r_end x)) as [E|NE]; cbn.
      * exfalso. rewrite (proj2 (contains_iff x (r_start r))) in NC; [discriminate|]. unfold slt in L. split; [korder|auto].
      * destruct (key_ltb_spec (r_start r) (r_end x)); [|reflexivity].
        exfalso. rewrite (proj2 (contains_iff x (r_start r))) in NC; [discriminate|]. unfold slt in L. split; [korder|auto].
    + unfold slt in NL. destruct (is_nil_spec (r_end x)); [reflexivity|]. cbn.
      destruct (key_ltb_spec (r_start r) (r_end x)); [reflexivity|]. destruct Vx; [contradiction|]. exfalso; korder.
Qed.

Lemma before_end_prefix_closed r : prefix_closed (before_end r).
Proof.
  intros x y S H. apply before_end_iff in H. apply before_end_iff. destruct H; [auto|]. right. unfold slt in S. korder.
Qed.

Lemma get_overlaps_spec T tot r :
  ds T -> validP r -> get_overlaps (RT T tot) r = filter (fun x => overlaps x r) T.
Proof.
  intros D V. unfold get_overlaps. cbn [items].
  rewrite (ascend_from_find _ _ _ D).
  rewrite take_while_filter; [| apply ssorted_filter, ds_ssorted, D | apply before_end_prefix_closed].
  rewrite filter_filter. apply filter_ext_in. intros x Hx. unfold overlaps, ends_after.
  f_equal. unfold before_end. destruct (is_nil (r_end r)); cbn; [reflexivity|].
  destruct (key_leb_spec (r_end r) (r_start x)), (key_ltb_spec (r_start x) (r_end r)); try reflexivity; exfalso; korder.
Qed.

Lemma fold_delete T O tot : ssorted T ->
  fold_left (fun acc old => RT (fst (l0_delete rlt old (items acc))) (total acc - r_size old)) O (RT T tot)
  = RT (filter (fun y => negb (existsb (fun o => same o y) O)) T) (tot - sum_size O).
Proof.
  revert T tot. induction O as [|o O IH]; intros T tot S; cbn [fold_left existsb sum_size fold_right].
  - rewrite filter_true_id; [f_equal; lia|reflexivity].
  - cbn [items total]. rewrite (l0_delete_filter _ _ S). rewrite IH; [|apply ssorted_filter, S].
    rewrite filter_filter. f_equal; [|unfold sum_size; lia].
    apply filter_ext_in. intros y _. destruct (same o y); cbn; reflexivity.
Qed.

Lemma no_same_after_filter T r y :
  ds T -> validP r -> In y (filter (fun x => negb (overlaps x r)) T) -> same r y = false.
Proof.
  intros D V Hy. apply filter_In in Hy as [Hy NO]. unfold same.
  destruct (key_eqb_spec (r_start y) (r_start r)) as [E|]; [|reflexivity].
  exfalso. apply negb_true_iff in NO. rewrite (proj2 (overlaps_iff y r)) in NO; [discriminate|].
  pose proof (ds_valid _ _ D Hy) as Vy. apply validP_cases in Vy. apply validP_cases in V. rewrite E in *. tauto.
Qed.

Lemma update_spec T tot r :
  ds T -> validP r ->
  update (RT T tot) r =
    (RT (ins_region r (filter (fun x => negb (overlaps x r)) T))
        (tot + r_size r - sum_size (filter (fun x => overlaps x r) T)),
     filter (fun x => overlaps x r) T).
Proof.
  intros D V. unfold update. cbn [items total].
  rewrite (get_overlaps_spec _ _ _ D V).
  rewrite (fold_delete _ _ _ (ds_ssorted _ D)). cbn [items total].
  assert (E : filter (fun y => negb (existsb (fun o => same o y) (filter (fun x => overlaps x r) T))) T
              = filter (fun x => negb (overlaps x r)) T).
  { apply filter_ext_in. intros y Hy. f_equal. apply (existsb_filter_self same (fun x => overlaps x r)); [|apply same_refl|exact Hy].
    intros o Ho So. unfold same in So. destruct (key_eqb_spec (r_start y) (r_start o)) as [E|]; [|discriminate].
    symmetry. exact (ssorted_in_eq _ _ _ (ds_ssorted _ D) Hy Ho E). }
  rewrite E. rewrite l0_insert_ins; [reflexivity|].
  intros x Hx. eapply no_same_after_filter; eauto.
Qed.

Lemma ins_region_ds r L :
  ds L -> validP r -> (forall y, In y L -> overlaps y r = false) -> ds (ins_region r L).
Proof.
  intros [VL S] V NO. split.
  - rewrite Forall_forall in *. intros x Hx. apply ins_region_in in Hx as [->|Hx]; auto.
  - induction S as [|a L S IH F]; cbn.
    + constructor; constructor.
    + inversion VL as [|? ? Va VL']; subst.
      assert (NOa := NO a (or_introl eq_refl)).
      assert (NO' : forall y, In y L -> overlaps y r = false) by (intros y Hy; apply NO; right; exact Hy).
      apply validP_cases in Va as Va'. rewrite Forall_forall in F.
      destruct (rlt_spec r a) as [L1|NL1]; unfold slt in *.
      * (* r goes first: r ends before a starts, hence before everything *)
        assert (Bra : before r a) by (apply disjoint_before; [assumption..|rewrite overlaps_comm; exact NOa|korder]).
        constructor; [constructor; [exact S|rewrite Forall_forall; exact F]|].
        rewrite Forall_forall. intros y [<-|Hy]; [exact Bra|].
        destruct Bra as [N Lr]. specialize (F y Hy) as [Na La]. split; [exact N|].
        destruct Va'; [contradiction|]. korder.
      * (* a stays first and ends before r starts *)
        assert (Bar : before a r) by (apply disjoint_before; [assumption..|korder]).
        constructor; [apply IH; auto|].
        rewrite Forall_forall. intros y Hy. apply ins_region_in in Hy as [->|Hy]; [exact Bar|auto].
Qed.

Lemma update_ds T r : ds T -> validP r -> ds (ins_region r (filter (fun x => negb (overlaps x r)) T)).
Proof.
  intros D V. apply ins_region_ds; [apply ds_filter, D|exact V|].
  intros y Hy. apply filter_In in Hy as [_ H]. apply negb_true_iff in H. exact H.
Qed.

Lemma rt_len_zero T tot : (rt_len (RT T tot) =? 0) = true -> T = [].
Proof. unfold rt_len; cbn. destruct T; [reflexivity|]. cbn. intros H. discriminate H. Qed.

Lemma remove_sub T q tot x :
  ds T -> In x T ->
  remove (RT (filter q T) tot) x =
    RT (filter (fun y => q y && negb (same x y)) T) (tot - if q x then r_size x else 0).
Proof.
  intros D Hx. pose proof (ds_filter q _ D) as DF.
  unfold remove. destruct (rt_len (RT (filter q T) tot) =? 0) eqn:Z0.
  - apply rt_len_zero in Z0.
    assert (Q : q x = false).
    { destruct (q x) eqn:Q; [|reflexivity]. assert (In x (filter q T)) by (apply filter_In; auto). rewrite Z0 in H. destruct H. }
    rewrite Q. f_equal; [|lia]. rewrite Z0. symmetry. apply filter_false_nil. intros y Hy.
    destruct (q y) eqn:Qy; [|reflexivity]. assert (In y (filter q T)) by (apply filter_In; auto). rewrite Z0 in H. destruct H.
  - destruct (q x) eqn:Q.
    + assert (HxF : In x (filter q T)) by (apply filter_In; auto).
      rewrite (rt_find_complete _ _ _ _ DF HxF (valid_contains_start _ (ds_valid _ _ D Hx))).
      rewrite Z.eqb_refl. cbn [items total]. rewrite (l0_delete_filter _ _ (ds_ssorted _ DF)), filter_filter. reflexivity.
    + destruct (find (RT (filter q T) tot) x) as [f|] eqn:F.
      * exfalso. apply rt_find_some in F as [Hf Cf]; [|exact DF]. apply filter_In in Hf as [Hf Qf].
        rewrite (ds_contains_unique _ _ _ _ D Hx Hf (valid_contains_start _ (ds_valid _ _ D Hx)) Cf) in Q. congruence.
      * f_equal; [|lia]. apply filter_ext_in. intros y Hy. destruct (q y) eqn:Qy; [|reflexivity]. cbn.
        unfold same. destruct (key_eqb_spec (r_start y) (r_start x)) as [E|]; [|reflexivity].
        rewrite (ssorted_in_eq _ _ _ (ds_ssorted _ D) Hy Hx E) in Qy. congruence.
Qed.

Lemma remove_noop T tot x :
  ds T -> (forall y, In y T -> r_id y <> r_id x) -> remove (RT T tot) x = RT T tot.
Proof.
  intros D H. unfold remove. destruct (rt_len (RT T tot) =? 0); [reflexivity|].
  destruct (find (RT T tot) x) as [f|] eqn:F; [|reflexivity].
  apply rt_find_some in F as [Hf _]; [|exact D].
  destruct (Z.eqb_spec (r_id f) (r_id x)) as [E|]; [|reflexivity]. exfalso. eapply H; eauto.
Qed.

Lemma search_spec T tot k x :
  ds T -> (search (RT T tot) k = Some x <-> In x T /\ contains x k = true).
Proof.
  intros D. unfold search. split.
  - intros H. apply rt_find_some in H; [|exact D]. exact H.
  - intros [Hx C]. apply rt_find_complete; auto.
Qed.

Lemma search_none T tot k : ds T -> search (RT T tot) k = None -> forall x, In x T -> contains x k = false.
Proof. intros D H. apply (rt_find_none _ _ (tmp k) D H). Qed.

Lemma scan_range_spec T tot k : ds T -> scan_range (RT T tot) k = filter (ends_after k) T.
Proof. intros D. unfold scan_range. cbn [items]. apply (ascend_from_find T tot (tmp k) D). Qed.

Lemma sum_size_app a b : sum_size (a ++ b) = sum_size a + sum_size b.
Proof. induction a as [|x a IH]; cbn; [reflexivity|]. unfold sum_size in *. cbn. rewrite IH. lia. Qed.

Lemma sum_size_perm a b : Permutation a b -> sum_size a = sum_size b.
Proof. induction 1; unfold sum_size in *; cbn; lia. Qed.

Lemma sum_size_filter_split p T : sum_size T = sum_size (filter p T) + sum_size (filter (fun x => negb (p x)) T).
Proof.
  induction T as [|a T IH]; cbn; [reflexivity|]. unfold sum_size in *.
  destruct (p a); cbn; lia.
Qed.
