(* Structural obligations on the code as it is now (regenerated gen/Gen_C04.v):
   the model in model/C04_IdAlloc.v was written against exactly this skeleton. *)
From PDV Require Import lib.Skel lib.StrTable gen.Gen_C04.

(* Alloc holds the instance mutex from entry to return; rebases only when the window is used up;
   increments base and returns it. *)
Lemma skel_Alloc_ok : skel_Alloc =
  [Lock "alloc.mu"; DeferUnlock "alloc.mu";
   IfE "alloc.base == alloc.end" [Call "rebaseLocked"; IfE "err != nil" [Ret] []] [];
   Assign "alloc.base" "++"; Ret].
Proof. reflexivity. Qed.

Lemma skel_Rebase_ok : skel_Rebase = [Lock "alloc.mu"; DeferUnlock "alloc.mu"; Call "rebaseLocked"; Ret].
Proof. reflexivity. Qed.

(* rebaseLocked: one Get, one Txn; the window is adopted only after a succeeded commit *)
Lemma skel_rebaseLocked_ok : skel_rebaseLocked =
  [Call "GetValue"; IfE "err != nil" [Ret] [];
   IfE "value == nil" [] [Call "BytesToUint64"; Assign "end" "= typeutil.BytesToUint64(value)"; IfE "err != nil" [Ret] []];
   Assign "end" "+= allocStep"; Call "Commit"; IfE "err != nil" [Ret] []; IfE "!resp.Succeeded" [Ret] [];
   Assign "alloc.end" "= end"; Assign "alloc.base" "= end - allocStep"; Ret].
Proof. reflexivity. Qed.

(* the guards of the window extension: the value-or-absence CAS (two alternative comparisons) and the leader record *)
Lemma rebase_cmps_ok : rebase_cmps =
  ["clientv3.CreateRevision(key) = 0"; "clientv3.Value(key) = string(value)"; "clientv3.Value(leaderPath) = alloc.member"].
Proof. reflexivity. Qed.

(* every id PD hands out (AllocID RPC, split handling) is drawn from this allocator *)
Lemma alloc_sites_ok :
  forall s, In s ["server/grpc_service.go:AllocID"; "server/cluster/cluster.go:AllocID";
                  "server/cluster/cluster_worker.go:HandleAskSplit"; "server/cluster/cluster_worker.go:HandleAskBatchSplit"] ->
            In s alloc_sites.
Proof. apply all_in_incl. reflexivity. Qed.

(* the handlers that hand ids to TiKV: every id of a split answer comes from Alloc, and an Alloc that fails fails the
   whole request (no answer with a missing / zero id); AllocID validates the request (leader only) before it allocates *)
Lemma skel_HandleAskSplit_ok : skel_HandleAskSplit =
  [Call "ValidRequestRegion"; IfE "err != nil" [Ret] []; Call "Alloc"; Assign "newRegionID" ":= c.id.Alloc()"; IfE "err != nil" [Ret] []; Assign "peerIDs" ":= make([]uint64, len(request.Region.Peers))"; ForE [Call "Alloc"; IfE "err != nil" [Ret] []]; Ret].
Proof. reflexivity. Qed.

Lemma skel_HandleAskBatchSplit_ok : skel_HandleAskBatchSplit =
  [Call "ValidRequestRegion"; IfE "err != nil" [Ret] []; ForE [Call "Alloc"; Assign "newRegionID" ":= c.id.Alloc()"; IfE "err != nil" [Ret] []; Assign "peerIDs" ":= make([]uint64, len(request.Region.Peers))"; ForE [Call "Alloc"; IfE "err != nil" [Ret] []]]; Ret].
Proof. reflexivity. Qed.

Lemma skel_handler_AllocID_ok : skel_handler_AllocID =
  [IfE "!s.isLocalRequest(forwardedHost)" [IfE "err != nil" [Ret] []; Ret] []; Call "validateRequest"; IfE "err != nil" [Ret] []; Call "Alloc"; IfE "err != nil" [Ret] []; Ret].
Proof. reflexivity. Qed.

(* the key of the stored bound is named in one place only: nothing but the allocator's own guarded transaction reads or
   writes it (a recovery / admin / migration path to the same key would be a second way into the stored bound) *)
Lemma alloc_id_key_sites_ok : alloc_id_key_sites = ["server/id/id.go:getAllocIDPath"].
Proof. reflexivity. Qed.
