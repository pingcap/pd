(* C17 — LoadStores / LoadRegions return what the save/delete history left in storage; the write-back batch of
   RegionStorage. Built on proof/C17_PagingProof.v. *)
From PDV Require Import lib.Base lib.C17_Map gen.Gen_C17 model.C17_Storage proof.C17_PagingProof proof.C17_WarmProof.
Local Open Scope Z_scope.
Local Open Scope list_scope.

Lemma limits_ordered : region_limit_min <= region_limit0. Proof. discriminate. Qed.
Lemma batch_size_pos : 1 <= batch_size. Proof. discriminate. Qed.

Lemma no_cb_fold {V} (p : amap V) : forall m nx, fst (fold_left (step_item no_cb no_rw) p (m, tt, nx)) = (m, tt).
Proof. induction p as [|it p IH]; intros m nx; cbn [fold_left]; [reflexivity|]. rewrite step_item_eq. cbn. apply IH. Qed.

Lemma no_cb_keeps_map {V} (fails : nat -> amap V -> bool) min_limit : forall fuel m next limit call acc,
  snd (fst (page_loop fails no_cb no_rw min_limit fuel m next limit call tt acc)) = m.
Proof.
  induction fuel as [|fuel IH]; intros m next limit call acc; cbn [page_loop]; [reflexivity|].
  destruct (fails call (range m next range_end limit)).
  - destruct (min_limit <=? limit / 2); [apply IH|reflexivity].
  - pose proof (no_cb_fold (range m next range_end limit) m next) as F.
    destruct (fold_left (step_item no_cb no_rw) (range m next range_end limit) (m, tt, next)) as [[m' c'] next'].
    cbn [fst] in F. inversion F; subst m' c'.
    destruct ((Z.of_nat (length (range m next range_end limit)) <? limit) || (next' =? 0)); [reflexivity|apply IH].
Qed.

Lemma no_cb_behind {V} (c : unit) (it : Z * V) (_ : True) :
  (forall d, In d (snd (no_cb c it)) -> d <= fst it) /\ True.
Proof. split; [intros d []|exact I]. Qed.

Theorem load_stores_spec (m : amap Z) : sorted_from 0 m ->
  load_stores m = (RDone, filter (fun p => fst p <? range_end) m).
Proof.
  intros Hs. unfold load_stores.
  destruct (page_loop_no_faults no_cb no_rw store_limit (fun _ _ => True) store_limit_pos (fun _ _ _ _ _ => I) no_cb_behind
              m store_limit tt 0 Hs I store_limit_pos) as (A & B & _).
  destruct (page_loop _ _ _ _ _ _ _ _ _ _ _) as [[[st acc] m'] c']. cbn [fst snd] in A, B.
  rewrite A, B, todo_from_zero by exact Hs. reflexivity.
Qed.

Theorem load_regions_collect_spec fails (m : amap rv) : sorted_from 0 m ->
  let res := load_regions fails no_cb m tt in
  pl_status res <> RDiverged /\
  (pl_status res = RDone -> pl_seen res = filter (fun p => fst p <? range_end) m) /\
  ((forall n p, fails n p = false) -> pl_status res = RDone).
Proof.
  intros Hs res.
  destruct (page_loop_exact fails no_cb no_rw region_limit_min region_min_pos (fun _ _ => True) (fun _ _ _ _ _ => I) no_cb_behind
              (fuel_for m region_limit0) m 0 region_limit0 O tt [] 0 Hs (Z.le_refl 0) I region_limit0_pos
              (fuel_enough m 0 region_limit0)) as (P1 & P2 & _ & P4).
  fold (load_regions fails no_cb m tt) in P1, P2, P4. fold res in P1, P2, P4.
  split; [exact P1|]. split; [|exact P4].
  intros Hd. destruct (P2 Hd) as [A _]. rewrite A, todo_from_zero by exact Hs. reflexivity.
Qed.

(* the limit chain: limit, limit/2, ... while the half is still >= min *)
Section Chain.
  Variable min_limit floor : Z.
  Inductive Chain : Z -> Prop :=
  | chain_base : Chain floor
  | chain_step l : min_limit <= l / 2 -> Chain (l / 2) -> Chain l.

  Lemma small_pages_never_give_up {V C} (fails : nat -> amap V -> bool) (cb : C -> Z * V -> C * list Z) :
    0 <= floor ->
    (forall call page, Z.of_nat (length page) <= floor -> fails call page = false) ->
    forall fuel m next limit call c acc, Chain limit ->
      pl_status (page_loop fails cb no_rw min_limit fuel m next limit call c acc) <> RFailed.
  Proof.
    intros Hfl Hsmall. induction fuel as [|fuel IH]; intros m next limit call c acc Hc; cbn [page_loop]; [discriminate|].
    destruct (fails call (range m next range_end limit)) eqn:Ef.
    - destruct Hc as [|l Hmin Hc].
      + (* at the floor: the page has at most `floor` items, so it cannot have failed *)
        exfalso. rewrite Hsmall in Ef; [discriminate|].
        unfold range. rewrite firstn_length. lia.
      + rewrite (proj2 (Z.leb_le _ _) Hmin). apply IH. exact Hc.
    - destruct (fold_left (step_item cb no_rw) (range m next range_end limit) (m, c, next)) as [[m' c'] next'].
      destruct ((Z.of_nat (length (range m next range_end limit)) <? limit) || (next' =? 0)); [discriminate|apply IH; exact Hc].
  Qed.
End Chain.

(* the chain of the code as it is: 10000, 5000, 2500, 1250, 625, 312, 156 (78 < 100 ends it) *)
Lemma region_limit_chain : Chain region_limit_min 156 region_limit0.
Proof.
  repeat (apply chain_step; [vm_compute; discriminate|]); vm_compute (_ / _).
  apply chain_base.
Qed.

Record SInv (s : sstate) : Prop := {
  i_stores : sorted_from 0 (stores s); i_lw : sorted_from 0 (lweight s); i_rw : sorted_from 0 (rweight s);
  i_base : sorted_from 0 (base_r s); i_ldb : sorted_from 0 (ldb s); i_batch : sorted_from 0 (batch s)
}.

Definition op_ok (o : op) : Prop :=
  match o with
  | OSaveStore id _ | ODeleteStore id | OSaveWeight id _ _ | OSaveRegion id _ | ODeleteRegion id
  | OSaveStoreF id _ _ | ODeleteStoreF id _ | OSaveWeightF id _ _ _ _ | OSaveRegionF id _ _ | ODeleteRegionF id _ => 0 <= id < two64
  | _ => True
  end.

Lemma flush_fold_sorted (b : amap rv) : forall l, sorted_from 0 l -> sorted_from 0 b ->
  sorted_from 0 (fold_left (fun m it => put m (fst it) (snd it)) b l).
Proof.
  induction b as [|[k v] b IH]; intros l Hl Hb; cbn [fold_left]; [exact Hl|].
  destruct Hb as [Hk Hb]. apply IH; [apply put_sorted0; [exact Hl|exact Hk]|].
  eapply sorted_from_weaken; [|exact Hb]. lia.
Qed.

Lemma inv_flush s : SInv s -> SInv (flush_batch s).
Proof.
  intros [H1 H2 H3 H4 H5 H6]. constructor; cbn [flush_batch stores lweight rweight base_r ldb batch]; try assumption.
  - apply flush_fold_sorted; assumption.
  - exact I.
Qed.

(* the cache callback deletes only ids it has been shown *)
Definition Jcache (c : cache) (b : Z) : Prop := forall o, In o c -> fst o < b.
Lemma Jcache_mono c b b' : Jcache c b -> b <= b' -> Jcache c b'.
Proof. intros H Hb o Ho. specialize (H o Ho). lia. Qed.
Lemma Jcache_step c it : Jcache c (fst it) ->
  (forall d, In d (snd (check_and_put c it)) -> d <= fst it) /\ Jcache (fst (check_and_put c it)) (fst it + 1).
Proof.
  intros H. unfold check_and_put. destruct (accepts c it); cbn [fst snd].
  - split.
    + intros d Hd. apply in_map_iff in Hd as (o & <- & Ho). unfold evicted in Ho. apply filter_In in Ho as [Ho _].
      specialize (H o Ho). lia.
    + intros o [<-|Ho]; [lia|]. apply filter_In in Ho as [Ho _]. specialize (H o Ho). lia.
  - split.
    + intros d [<-|[]]. lia.
    + intros o Ho. specialize (H o Ho). lia.
Qed.

Lemma load_cache_sorted fails (m : amap rv) : sorted_from 0 m ->
  sorted_from 0 (snd (fst (load_regions fails check_and_put m []))).
Proof.
  intros Hs.
  exact (proj1 (proj2 (proj2 (page_loop_exact fails check_and_put no_rw region_limit_min region_min_pos Jcache Jcache_mono Jcache_step
                (fuel_for m region_limit0) m 0 region_limit0 O [] [] 0 Hs (Z.le_refl 0)
                (fun o (H : In o []) => match H with end) region_limit0_pos (fuel_enough m 0 region_limit0))))).
Qed.

Lemma regions_sorted s rs : SInv s -> sorted_from 0 (regions_of s rs).
Proof. intros I. destruct I, rs; assumption. Qed.

Lemma inv_set_regions s rs m : SInv s -> sorted_from 0 m -> SInv (set_regions s rs m).
Proof. intros [H1 H2 H3 H4 H5 H6] Hm. destruct rs; constructor; cbn; assumption. Qed.

Lemma collect_state s : fst (collect_regions s) = s.
Proof.
  unfold collect_regions, load_regions.
  pose proof (no_cb_keeps_map (faults_of s (use_rs s)) region_limit_min (fuel_for (regions_of s (use_rs s)) region_limit0)
                (regions_of s (use_rs s)) 0 region_limit0 O []) as K.
  destruct (page_loop _ _ _ _ _ _ _ _ _ _ _) as [[[st acc] m'] c']. cbn [fst snd] in *. subst m'. destruct s, use_rs; reflexivity.
Qed.

Lemma inv_save_region s id v : SInv s -> 0 <= id < two64 -> SInv (fst (save_region s id v)).
Proof.
  intros I Ho. pose proof I as [H1 H2 H3 H4 H5 H6]. unfold save_region.
  destruct (use_rs s).
  - destruct (cache_size s <? batch_size - 1).
    + constructor; cbn; try assumption. apply put_sorted0; [assumption|lia].
    + apply inv_flush. constructor; cbn; try assumption. apply put_sorted0; [assumption|lia].
  - constructor; cbn; try assumption. apply put_sorted0; [assumption|lia].
Qed.

Lemma inv_delete_region s id : SInv s -> SInv (fst (delete_region s id)).
Proof.
  intros I. pose proof I as [H1 H2 H3 H4 H5 H6]. unfold delete_region.
  destruct (use_rs s); cbn [fst].
  - constructor; cbn; try assumption; apply del_sorted; assumption.
  - apply inv_set_regions; [exact I|]. apply del_sorted. assumption.
Qed.

Definition with_loaded (s : sstate) : sstate :=
  SS (stores s) (lweight s) (rweight s) (base_r s) (ldb s) (batch s) (cache_size s) (use_rs s) true (budget s).

Lemma load_once_state s : fst (load_once s) = s \/ fst (load_once s) = with_loaded s.
Proof.
  unfold load_once. generalize (collect_state s). destruct (collect_regions s) as [s' b]. cbn [fst]. intros ->.
  destruct (use_rs s) eqn:Ers; [|left; reflexivity]. destruct (loaded_once s); [left; reflexivity|].
  destruct b as [| |[] l| | | |]; auto. right. unfold with_loaded. rewrite Ers. reflexivity.
Qed.

Lemma inv_load_once s : SInv s -> SInv (fst (load_once s)).
Proof. intros I. destruct (load_once_state s) as [-> | ->]; [exact I|]. destruct I. constructor; assumption. Qed.

Lemma inv_load_into_cache s : SInv s -> SInv (fst (load_into_cache s)).
Proof.
  intros I. pose proof I as [H1 H2 H3 H4 H5 H6]. unfold load_into_cache.
  pose proof (load_cache_sorted (faults_of s (use_rs s)) (regions_of s (use_rs s))) as P.
  assert (Hs : sorted_from 0 (regions_of s (use_rs s))) by (unfold regions_of; destruct (use_rs s); assumption).
  specialize (P Hs).
  destruct (load_regions (faults_of s (use_rs s)) check_and_put (regions_of s (use_rs s)) []) as [[[st acc] m'] c'].
  cbn [fst snd] in *. pose proof (inv_set_regions s (use_rs s) m' I P) as [S1 S2 S3 S4 S5 S6].
  destruct (use_rs s); [|constructor; assumption].
  constructor; cbn [stores lweight rweight base_r ldb batch]; try assumption.
  apply filter_sorted. exact S6.
Qed.

Lemma inv_step s o : SInv s -> op_ok o -> SInv (fst (run_op s o)).
Proof.
  intros I Ho. pose proof I as [H1 H2 H3 H4 H5 H6]. pose proof (inv_flush s I) as [F1 F2 F3 F4 F5 F6].
  (* first the operations that put or delete one key of a store namespace (OSaveStore, ODeleteStore, OSaveWeight, their F variants),
     set a flag (OSwitch, OBudget), or flush / drop the batch (OFlush, OTick, OFlushF, OCrash, OReopen, OCrashInFlush) *)
  destruct o; cbn [run_op op_ok] in *; try destruct applied; try destruct written; cbn [fst];
    try (constructor; cbn; try assumption; try exact Logic.I; first [apply put_sorted0; [assumption|lia] | apply del_sorted; assumption]);
    try exact I.
  - (* OLoadStores *) destruct (load_stores (stores s)); exact I.
  - (* OSaveRegion *) apply inv_save_region; assumption.
  - (* ODeleteRegion *) apply inv_delete_region; assumption.
  - (* OLoadRegions *) rewrite collect_state. exact I.
  - (* OLoadOnce *) apply inv_load_once. exact I.
  - (* OLoadIntoCache *) apply inv_load_into_cache. exact I.
  - (* OSaveRegionF, applied *) destruct (use_rs s) eqn:Ers; [apply inv_save_region; assumption|]. cbn [fst].
    constructor; cbn; try assumption. apply put_sorted0; [assumption|lia].
  - (* OSaveRegionF, not applied *) destruct (use_rs s) eqn:Ers; [apply inv_save_region; assumption|exact I].
  - (* ODeleteRegionF, applied *) destruct (use_rs s) eqn:Ers; [apply inv_delete_region; assumption|]. cbn [fst].
    constructor; cbn; try assumption. apply del_sorted; assumption.
  - (* ODeleteRegionF, not applied *) destruct (use_rs s) eqn:Ers; [apply inv_delete_region; assumption|exact I].
  - (* OLoadOnceIntoCache *) destruct (use_rs s && loaded_once s); [exact I|].
    pose proof (inv_load_into_cache s I) as IC. destruct (load_into_cache s) as [s' b]. cbn [fst] in IC.
    destruct b as [| | |st l c a| | |]; try exact IC. destruct st; try exact IC.
    destruct (use_rs s'); [|exact IC]. destruct IC as [C1 C2 C3 C4 C5 C6]. constructor; cbn; assumption.
  - (* OLoadWarm *) pose proof (proj1 (proj2 (proj2 (page_loop_exact (faults_of s (use_rs s)) put_loaded rw_loaded region_limit_min region_min_pos
                  (fun _ _ => True) (fun _ _ _ _ _ => Logic.I) (fun c it _ => conj (put_loaded_deletes_behind c it) Logic.I)
                  (fuel_for (regions_of s (use_rs s)) region_limit0) (regions_of s (use_rs s)) 0 region_limit0 O cached [] 0
                  (regions_sorted s (use_rs s) I) (Z.le_refl 0) Logic.I region_limit0_pos (fuel_enough _ 0 region_limit0))))) as P.
    destruct (page_loop _ _ _ _ _ _ _ _ _ _ _) as [[[st acc] m'] c']. cbn [fst snd] in *.
    apply inv_set_regions; assumption.
  - (* OLoadOnceCorrupt *) destruct (lookup (regions_of s (use_rs s)) bad); [|apply inv_load_once; exact I].
    destruct (use_rs s && loaded_once s); exact I.
Qed.

Lemma inv_init : SInv sinit.
Proof. constructor; exact I. Qed.

Fixpoint ops_ok (ops : list op) : Prop := match ops with [] => True | o :: r => op_ok o /\ ops_ok r end.

Lemma inv_run ops : forall s, SInv s -> ops_ok ops -> SInv (run_state run_op s ops).
Proof.
  induction ops as [|o ops IH]; intros s I Hok; cbn [run_state]; [exact I|].
  destruct Hok as [Ho Hok]. apply IH; [apply inv_step; assumption|exact Hok].
Qed.

Definition fupd {X} (f : Z -> option X) (k : Z) (v : option X) : Z -> option X := fun j => if j =? k then v else f j.

(* which key of the three store namespaces an operation writes, and what (None = removes it); an errored write
   counts iff it was applied *)
Definition store_eff (o : op) : option (Z * option Z) :=
  match o with
  | OSaveStore id p | OSaveStoreF id p true => Some (id, Some p)
  | ODeleteStore id | ODeleteStoreF id true => Some (id, None)
  | _ => None
  end.
Definition lw_eff (o : op) : option (Z * option Z) :=
  match o with
  | OSaveWeight id l _ => Some (id, Some l)
  | ODeleteStore id => Some (id, None)
  | _ => None
  end.
Definition rw_eff (o : op) : option (Z * option Z) :=
  match o with
  | OSaveWeight id _ r => Some (id, Some r)
  | ODeleteStore id => Some (id, None)
  | _ => None
  end.
Definition apply_eff (f : Z -> option Z) (e : option (Z * option Z)) : Z -> option Z :=
  match e with Some (id, v) => fupd f id v | None => f end.
Definition store_want (f : Z -> option Z) (o : op) : Z -> option Z := apply_eff f (store_eff o).
Definition lw_want (f : Z -> option Z) (o : op) : Z -> option Z := apply_eff f (lw_eff o).
Definition rw_want (f : Z -> option Z) (o : op) : Z -> option Z := apply_eff f (rw_eff o).

Definition store_part (s : sstate) := (stores s, lweight s, rweight s).

Lemma set_regions_frame s rs m : store_part (set_regions s rs m) = store_part s.
Proof. destruct rs; reflexivity. Qed.
Lemma save_region_frame s id v : store_part (fst (save_region s id v)) = store_part s.
Proof. unfold save_region. destruct (use_rs s); [destruct (cache_size s <? batch_size - 1)|]; reflexivity. Qed.
Lemma delete_region_frame s id : store_part (fst (delete_region s id)) = store_part s.
Proof. unfold delete_region. destruct (use_rs s); [reflexivity|cbn [fst]; apply set_regions_frame]. Qed.

Lemma load_once_frame s : store_part (fst (load_once s)) = store_part s.
Proof. destruct (load_once_state s) as [-> | ->]; reflexivity. Qed.

Lemma load_into_cache_frame s : store_part (fst (load_into_cache s)) = store_part s.
Proof.
  unfold load_into_cache. destruct (load_regions _ _ _ _) as [[[st acc] m'] c']. cbn [fst].
  pose proof (set_regions_frame s (use_rs s) m') as F. destruct (use_rs s); exact F.
Qed.

Definition eff_map (m : amap Z) (e : option (Z * option Z)) : amap Z :=
  match e with Some (id, Some v) => put m id v | Some (id, None) => del m id | None => m end.

Lemma store_step s o :
  store_part (fst (run_op s o)) = (eff_map (stores s) (store_eff o), eff_map (lweight s) (lw_eff o), eff_map (rweight s) (rw_eff o)).
Proof.
  destruct o; cbn [run_op store_eff lw_eff rw_eff eff_map]; try reflexivity.
  - (* OLoadStores *) destruct (load_stores (stores s)); reflexivity.
  - (* OSaveRegion *) apply save_region_frame.
  - (* ODeleteRegion *) apply delete_region_frame.
  - (* OLoadRegions *) rewrite collect_state. reflexivity.
  - (* OLoadOnce *) apply load_once_frame.
  - (* OLoadIntoCache *) apply load_into_cache_frame.
  - (* OSaveStoreF *) destruct applied; reflexivity.
  - (* ODeleteStoreF *) destruct applied; reflexivity.
  - (* OSaveRegionF *) destruct (use_rs s); [apply save_region_frame|]. destruct applied; reflexivity.
  - (* ODeleteRegionF *) destruct (use_rs s); [apply delete_region_frame|]. destruct applied; reflexivity.
  - (* OCrashInFlush *) destruct written; reflexivity.
  - (* OLoadOnceIntoCache *) destruct (use_rs s && loaded_once s); [reflexivity|].
    pose proof (load_into_cache_frame s) as F. destruct (load_into_cache s) as [s' b]. cbn [fst] in *.
    destruct b as [| | |st l c a| | |]; try exact F. destruct st; try exact F. destruct (use_rs s'); exact F.
  - (* OLoadWarm *) destruct (page_loop _ _ _ _ _ _ _ _ _ _ _) as [[[st acc] m'] c']. cbn [fst]. apply set_regions_frame.
  - (* OLoadOnceCorrupt *) destruct (lookup (regions_of s (use_rs s)) bad); [|apply load_once_frame]. destruct (use_rs s && loaded_once s); reflexivity.
Qed.

Lemma lookup_eff m e j : sorted_from 0 m -> lookup (eff_map m e) j = apply_eff (lookup m) e j.
Proof.
  intros Hs. destruct e as [[id [v|]]|]; cbn [eff_map apply_eff]; unfold fupd.
  - apply (lookup_put 0). exact Hs.
  - apply (lookup_del 0). exact Hs.
  - reflexivity.
Qed.

Lemma apply_eff_ext (f g : Z -> option Z) e : (forall j, f j = g j) -> forall j, apply_eff f e j = apply_eff g e j.
Proof. intros H j. destruct e as [[id v]|]; cbn [apply_eff]; unfold fupd; [destruct (j =? id); [reflexivity|apply H]|apply H]. Qed.

Lemma stores_follow ops : forall s f fl fr, SInv s -> ops_ok ops ->
  (forall id, lookup (stores s) id = f id) -> (forall id, lookup (lweight s) id = fl id) -> (forall id, lookup (rweight s) id = fr id) ->
  let s' := run_state run_op s ops in
  (forall id, lookup (stores s') id = fold_left store_want ops f id) /\
  (forall id, lookup (lweight s') id = fold_left lw_want ops fl id) /\
  (forall id, lookup (rweight s') id = fold_left rw_want ops fr id).
Proof.
  induction ops as [|o ops IH]; intros s f fl fr I Hok Hf Hl Hr; cbn [run_state fold_left]; [auto|].
  destruct Hok as [Ho Hok]. pose proof I as [H1 H2 H3 _ _ _].
  pose proof (store_step s o) as E. unfold store_part in E. injection E as E1 E2 E3.
  apply IH; [apply inv_step; assumption|exact Hok| | |]; intros j.
  - rewrite E1, lookup_eff by exact H1. unfold store_want. apply apply_eff_ext. exact Hf.
  - rewrite E2, lookup_eff by exact H2. unfold lw_want. apply apply_eff_ext. exact Hl.
  - rewrite E3, lookup_eff by exact H3. unfold rw_want. apply apply_eff_ext. exact Hr.
Qed.

Definition decorate (s : sstate) (it : Z * Z) : Z * Z * Z * Z :=
  (fst it, snd it, weight_of (lweight s) (fst it), weight_of (rweight s) (fst it)).

Definition no_want : Z -> option Z := fun _ => None.

Theorem stores_are_what_history_left ops : ops_ok ops ->
  let s := run_state run_op sinit ops in
  SInv s /\
  (forall id, lookup (stores s) id = fold_left store_want ops no_want id) /\
  (forall id, lookup (lweight s) id = fold_left lw_want ops no_want id) /\
  (forall id, lookup (rweight s) id = fold_left rw_want ops no_want id).
Proof.
  intros Hok s. split; [apply inv_run; [exact inv_init|exact Hok]|].
  apply (stores_follow ops sinit no_want no_want no_want inv_init Hok); intros id; reflexivity.
Qed.

(* which region id an operation writes on the direct backend, and what; an errored write counts iff it was applied *)
Definition region_eff (o : op) : option (Z * option rv) :=
  match o with
  | OSaveRegion id v | OSaveRegionF id v true => Some (id, Some v)
  | ODeleteRegion id | ODeleteRegionF id true => Some (id, None)
  | _ => None
  end.
Definition region_want (f : Z -> option rv) (o : op) : Z -> option rv :=
  match region_eff o with Some (id, v) => fupd f id v | None => f end.
Definition no_rwant : Z -> option rv := fun _ => None.

(* histories without backend switches, crashes and pruning loads; the timed flush may fire anywhere, writes of the
   store namespaces may fail *)
Definition plain_op (o : op) : bool :=
  match o with OSwitch _ | OCrash | OLoadIntoCache | OSaveRegionF _ _ _ | ODeleteRegionF _ _ | OCrashInFlush _ | OLoadOnceCorrupt _ | OLoadOnceIntoCache | OLoadWarm _ => false | _ => true end.
Definition plain_ops (ops : list op) : bool := forallb plain_op ops.
(* the direct backend also admits failing region writes *)
Definition direct_op (o : op) : bool :=
  plain_op o || match o with OSaveRegionF _ _ _ | ODeleteRegionF _ _ => true | _ => false end.
Definition direct_ops (ops : list op) : bool := forallb direct_op ops.

Lemma plain_is_direct ops : plain_ops ops = true -> direct_ops ops = true.
Proof.
  induction ops as [|o r IH]; cbn [plain_ops direct_ops forallb]; [reflexivity|]. intros H.
  apply andb_true_iff in H as [H1 H2]. unfold direct_op. rewrite H1. cbn [orb andb]. apply IH. exact H2.
Qed.

Lemma direct_step s o : direct_op o = true -> use_rs s = false ->
  use_rs (fst (run_op s o)) = false /\
  base_r (fst (run_op s o)) = match region_eff o with
                               | Some (id, Some v) => put (base_r s) id v
                               | Some (id, None) => del (base_r s) id
                               | None => base_r s
                               end.
Proof.
  (* with use_rs = false only OSaveRegion / ODeleteRegion (and their applied F variants) write base_r, by one put or del;
     every other admitted operation leaves it and the mode as they are (the loads by collect_state) *)
  intros Hp Hrs.
  destruct o; try discriminate; cbn [run_op region_eff]; unfold save_region, delete_region, load_once; rewrite ?Hrs; cbn [fst];
    try (destruct (load_stores (stores s))); try destruct applied; try destruct stage; unfold set_regions, regions_of, flush_batch;
    rewrite ?collect_state, ?Hrs;
    split; first [reflexivity | exact Hrs | cbn; first [reflexivity | exact Hrs]].
Qed.

Lemma direct_follow ops : forall s f, SInv s -> ops_ok ops -> direct_ops ops = true -> use_rs s = false ->
  (forall id, lookup (base_r s) id = f id) ->
  let s' := run_state run_op s ops in
  use_rs s' = false /\ forall id, lookup (base_r s') id = fold_left region_want ops f id.
Proof.
  induction ops as [|o ops IH]; intros s f I Hok Hp Hrs Hf; cbn [run_state fold_left]; [auto|].
  destruct Hok as [Ho Hok]. cbn [direct_ops forallb] in Hp. apply andb_true_iff in Hp as [Hpo Hp].
  pose proof (i_base s I) as Hb. destruct (direct_step s o Hpo Hrs) as [D1 D2].
  apply IH; [apply inv_step; assumption|exact Hok|exact Hp|exact D1|].
  intros id. rewrite D2. unfold region_want. destruct (region_eff o) as [[id0 [v|]]|]; [| |apply Hf].
  - rewrite (lookup_put 0) by exact Hb. unfold fupd. destruct (id =? id0); [reflexivity|apply Hf].
  - rewrite (lookup_del 0) by exact Hb. unfold fupd. destruct (id =? id0); [reflexivity|apply Hf].
Qed.

Lemma collect_obs s : SInv s ->
  exists st l, snd (collect_regions s) = BRegions st l /\ st <> RDiverged /\
    (st = RDone -> l = filter (fun p => fst p <? range_end) (regions_of s (use_rs s))) /\
    ((forall n p, faults_of s (use_rs s) n p = false) -> st = RDone).
Proof.
  intros I. unfold collect_regions.
  pose proof (load_regions_collect_spec (faults_of s (use_rs s)) _ (regions_sorted s (use_rs s) I)) as P. cbv zeta in P.
  destruct (load_regions _ _ _ _) as [[[st acc] m'] c']. exists st, acc. split; [reflexivity|exact P].
Qed.

Theorem direct_load_obs s : SInv s -> use_rs s = false -> budget s = None ->
  snd (run_op s OLoadRegions) = BRegions RDone (filter (fun p => fst p <? range_end) (base_r s)).
Proof.
  intros I Hrs Hb. destruct (collect_obs s I) as (st & l & E & _ & A & D). rewrite Hrs in A, D. cbn [faults_of] in D. rewrite Hb in D.
  specialize (D (fun _ _ => eq_refl)). cbn [run_op]. rewrite E, D, (A D). reflexivity.
Qed.

(* with a byte budget: the load never loops for ever; if it finishes it is complete; and it does finish whenever
   every page of at most 156 items (the end of the limit chain 10000, 5000, ..., 156) fits the budget *)
Theorem direct_load_budget_obs s : SInv s -> use_rs s = false ->
  (exists st l, snd (run_op s OLoadRegions) = BRegions st l /\ st <> RDiverged /\
                (st = RDone -> l = filter (fun p => fst p <? range_end) (base_r s))) /\
  ((forall page, Z.of_nat (length page) <= 156 -> over_budget (budget s) O page = false) ->
   snd (run_op s OLoadRegions) = BRegions RDone (filter (fun p => fst p <? range_end) (base_r s))).
Proof.
  intros I Hrs. destruct (collect_obs s I) as (st & l & E & P1 & A & _). rewrite Hrs in A. cbn [run_op regions_of] in *.
  split; [exists st, l; auto|]. intros Hsmall.
  pose proof (small_pages_never_give_up region_limit_min 156 (over_budget (budget s)) (@no_cb rv) ltac:(lia)
                (fun call page Hl => Hsmall page Hl) (fuel_for (base_r s) region_limit0) (base_r s) 0 region_limit0 O tt []
                region_limit_chain) as G.
  rewrite E. unfold collect_regions in E. rewrite Hrs in E. cbn [faults_of regions_of] in E. unfold load_regions in E.
  destruct (page_loop _ _ _ _ _ _ _ _ _ _ _) as [[[st0 acc] m'] c']. cbn [fst snd] in *. inversion E; subst st0 acc.
  destruct st; try contradiction. rewrite (A eq_refl). reflexivity.
Qed.

Definition overlay (s : sstate) (id : Z) : option rv :=
  match lookup (batch s) id with Some v => Some v | None => lookup (ldb s) id end.

Lemma lookup_flush_fold (b : amap rv) : forall lo l, sorted_from 0 l -> sorted_from lo b -> 0 <= lo -> forall id,
  lookup (fold_left (fun m it => put m (fst it) (snd it)) b l) id =
  match lookup b id with Some v => Some v | None => lookup l id end.
Proof.
  induction b as [|[k v] b IH]; intros lo l Hl Hb Hlo id; cbn [fold_left]; [reflexivity|].
  destruct Hb as [Hk Hb]. cbn [fst snd].
  rewrite (IH (k + 1) (put l k v) (put_sorted0 l k v Hl ltac:(lia)) Hb ltac:(lia) id).
  rewrite (lookup_put 0) by exact Hl. cbn [lookup].
  destruct (id =? k) eqn:E.
  - apply Z.eqb_eq in E; subst id. rewrite (lookup_below (k + 1) b k Hb) by lia. reflexivity.
  - destruct (id <? k) eqn:E2; [|reflexivity].
    rewrite (lookup_below (k + 1) b id Hb) by lia. reflexivity.
Qed.

Lemma overlay_flush s : SInv s -> forall id, overlay (flush_batch s) id = overlay s id.
Proof.
  intros I id. unfold overlay. cbn [flush_batch batch ldb lookup].
  apply (lookup_flush_fold (batch s) 0 (ldb s) (i_ldb s I) (i_batch s I)). lia.
Qed.

Lemma plain_keeps_mode s o : plain_op o = true -> use_rs (fst (run_op s o)) = use_rs s.
Proof.
  intros Hp. destruct o; try discriminate; cbn [run_op]; rewrite ?collect_state; try reflexivity.
  - (* OLoadStores *) destruct (load_stores (stores s)); reflexivity.
  - (* OSaveRegion *) unfold save_region. destruct (use_rs s) eqn:E; [destruct (cache_size s <? batch_size - 1)|]; cbn; rewrite ?E; reflexivity.
  - (* ODeleteRegion *) unfold delete_region. destruct (use_rs s) eqn:E; cbn; rewrite ?E; reflexivity.
  - (* OLoadOnce *) destruct (load_once_state s) as [-> | ->]; reflexivity.
  - (* OSaveStoreF *) destruct applied; reflexivity.
  - (* ODeleteStoreF *) destruct applied; reflexivity.
Qed.

(* every operation of a plain history keeps `leveldb overlaid by the batch` equal to what the history asks for;
   DeleteRegion removes the id from both (RegionStorage.Remove, 8a5de01) *)
Lemma overlay_step s o f : SInv s -> op_ok o -> plain_op o = true -> use_rs s = true ->
  (forall id, overlay s id = f id) -> forall id, overlay (fst (run_op s o)) id = region_want f o id.
Proof.
  intros I Ho Hp Hrs Hf. pose proof I as [_ _ _ _ H5 H6].
  destruct o; try discriminate; cbn [run_op]; unfold region_want; cbn [region_eff]; rewrite ?collect_state; try exact Hf.
  - (* OLoadStores *) destruct (load_stores (stores s)); exact Hf.
  - (* OSaveRegion: buffered, or buffered and flushed *) cbn [op_ok] in Ho. unfold save_region. rewrite Hrs.
    assert (Hput : forall j, lookup (put (batch s) id v) j = if j =? id then Some v else lookup (batch s) j).
    { intros j. apply (lookup_put 0). exact H6. }
    intros j. destruct (cache_size s <? batch_size - 1); cbn [fst].
    + unfold overlay, fupd. cbn [batch ldb]. rewrite Hput. destruct (j =? id); [reflexivity|apply Hf].
    + rewrite overlay_flush.
      * unfold overlay, fupd. cbn [batch ldb]. rewrite Hput. destruct (j =? id); [reflexivity|apply Hf].
      * constructor; cbn; try apply I. apply put_sorted0; [exact H6|lia].
  - (* ODeleteRegion: the pending entry and the leveldb entry *) unfold delete_region. rewrite Hrs. intros j. unfold overlay, fupd. cbn [fst batch ldb].
    rewrite (lookup_del 0) by exact H6. rewrite (lookup_del 0) by exact H5.
    destruct (j =? id) eqn:E; [reflexivity|apply Hf].
  - (* OFlush *) intros j. cbn [fst]. rewrite overlay_flush by exact I. apply Hf.
  - (* OReopen *) intros j. rewrite <- (Hf j), <- (overlay_flush s I j). reflexivity.
  - (* OLoadOnce *) destruct (load_once_state s) as [-> | ->]; exact Hf.
  - (* OSaveStoreF *) destruct applied; exact Hf.
  - (* ODeleteStoreF *) destruct applied; exact Hf.
  - (* OTick *) intros j. cbn [fst]. rewrite overlay_flush by exact I. apply Hf.
Qed.

Lemma rs_follow ops : forall s f, SInv s -> ops_ok ops -> plain_ops ops = true -> use_rs s = true ->
  (forall id, overlay s id = f id) ->
  let s' := run_state run_op s ops in
  use_rs s' = true /\ SInv s' /\ forall id, overlay s' id = fold_left region_want ops f id.
Proof.
  induction ops as [|o ops IH]; intros s f I Hok Hp Hrs Hf; cbn [run_state fold_left]; [auto|].
  destruct Hok as [Ho Hok]. cbn [plain_ops forallb] in Hp. apply andb_true_iff in Hp as [Hpo Hp].
  apply IH; [apply inv_step; assumption|exact Hok|exact Hp|rewrite plain_keeps_mode; assumption|].
  exact (overlay_step s o f I Ho Hpo Hrs Hf).
Qed.

Definition srs : sstate := fst (run_op sinit (OSwitch true)).

Theorem rs_load_obs s : SInv s -> use_rs s = true ->
  snd (run_op s OLoadRegions) = BRegions RDone (filter (fun p => fst p <? range_end) (ldb s)).
Proof.
  intros I Hrs. destruct (collect_obs s I) as (st & l & E & _ & A & D). rewrite Hrs in A, D.
  specialize (D (fun _ _ => eq_refl)). cbn [run_op]. rewrite E, D, (A D). reflexivity.
Qed.

Lemma store_eff_bound o id v : op_ok o -> store_eff o = Some (id, v) -> id < two64.
Proof.
  intros Ho E. destruct o; cbn [store_eff] in E; try discriminate; try destruct applied; try discriminate;
    inversion E; subst; unfold op_ok in Ho; lia.
Qed.
Lemma region_eff_bound o id v : op_ok o -> region_eff o = Some (id, v) -> id < two64.
Proof.
  intros Ho E. destruct o; cbn [region_eff] in E; try discriminate; try destruct applied; try discriminate;
    inversion E; subst; unfold op_ok in Ho; lia.
Qed.

Lemma want_bound {X} (eff : op -> option (Z * option X)) :
  (forall o id v, op_ok o -> eff o = Some (id, v) -> id < two64) ->
  forall ops f, ops_ok ops -> (forall k v, f k = Some v -> k < two64) ->
  forall k v, fold_left (fun f o => match eff o with Some (id, v) => fupd f id v | None => f end) ops f k = Some v -> k < two64.
Proof.
  intros Heff. induction ops as [|o r IH]; intros f Ho Hf k0 v0 E; cbn [fold_left] in E; [exact (Hf _ _ E)|].
  destruct Ho as [Ho Hr]. refine (IH _ Hr _ k0 v0 E).
  intros k1 v1 E1. destruct (eff o) as [[id v]|] eqn:Ee; [|exact (Hf _ _ E1)].
  unfold fupd in E1. destruct (k1 =? id) eqn:Ek; [|exact (Hf _ _ E1)].
  apply Z.eqb_eq in Ek. subst k1. exact (Heff o id v Ho Ee).
Qed.

(* so a load, which stops at 2^64, delivers the whole namespace *)
Lemma all_pass {V} (m : amap V) (f : Z -> option V) : sorted_from 0 m -> (forall id, lookup m id = f id) ->
  (forall k v, f k = Some v -> k < two64) -> filter (fun p => fst p <? range_end) m = m.
Proof.
  intros Hs Hl Hb. apply filter_all_below. intros k v Hin. apply (in_lookup m 0 k v Hs) in Hin.
  rewrite Hl in Hin. exact (Hb k v Hin).
Qed.

Lemma stores_all_pass ops : ops_ok ops -> forall m, sorted_from 0 m -> (forall id, lookup m id = fold_left store_want ops no_want id) ->
  filter (fun p => fst p <? range_end) m = m.
Proof.
  intros Hok m Hs A. apply (all_pass m _ Hs A). apply (want_bound store_eff store_eff_bound ops no_want Hok). intros k v E; discriminate.
Qed.
Lemma regions_all_pass ops : ops_ok ops -> forall m, sorted_from 0 m -> (forall id, lookup m id = fold_left region_want ops no_rwant id) ->
  filter (fun p => fst p <? range_end) m = m.
Proof.
  intros Hok m Hs A. apply (all_pass m _ Hs A). apply (want_bound region_eff region_eff_bound ops no_rwant Hok). intros k v E; discriminate.
Qed.

Lemma flush_makes_durable s0 f ops : SInv s0 -> use_rs s0 = true -> (forall id, overlay s0 id = f id) ->
  ops_ok ops -> plain_ops ops = true ->
  let s := run_state run_op s0 (ops ++ [OFlush]) in
  batch s = [] /\ SInv s /\ use_rs s = true /\ forall id, lookup (ldb s) id = fold_left region_want ops f id.
Proof.
  intros I0 Hrs Hf Hok Hp s.
  destruct (rs_follow ops s0 f I0 Hok Hp Hrs Hf) as (R1 & R2 & R3).
  assert (Es : s = flush_batch (run_state run_op s0 ops)).
  { unfold s. clear. revert s0. induction ops as [|o ops IH]; intros s0; cbn [app run_state]; [reflexivity|apply IH]. }
  rewrite Es. split; [reflexivity|]. split; [apply inv_flush; exact R2|]. split; [exact R1|].
  intros id. rewrite <- R3, <- (overlay_flush _ R2 id). reflexivity.
Qed.

Lemma load_once_first s : SInv s -> use_rs s = true -> loaded_once s = false ->
  load_once s = (with_loaded s, BRegions RDone (filter (fun p => fst p <? range_end) (ldb s))).
Proof.
  intros I Hrs Hl. unfold load_once. rewrite Hrs, Hl.
  pose proof (rs_load_obs s I Hrs) as O. cbn [run_op] in O. pose proof (collect_state s) as E.
  destruct (collect_regions s) as [s' b]. cbn [fst snd] in O, E. subst s' b. reflexivity.
Qed.
