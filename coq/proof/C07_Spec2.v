(* C07 — adjacent regions, previous region, candidates of random picks. *)
From Coq Require Import Permutation Sorting.Sorted.
From PDV Require Import lib.Base lib.C07_Key gen.Gen_C07 model.C07_BTreeSpec model.C07_Region
  proof.C07_Sorted proof.C07_Tree proof.C07_RegionProof proof.C07_Spec.
Local Open Scope Z_scope.

Lemma hd_filter_sorted g T x : ssorted T -> hd_error (filter g T) = Some x ->
  In x T /\ g x = true /\ forall y, In y T -> g y = true -> y = x \/ slt x y.
Proof.
  intros S H. pose proof (ssorted_filter g _ S) as SF.
  destruct (filter g T) as [|a F] eqn:E; [discriminate|]. inversion H; subst a.
  assert (Hx : In x (filter g T)) by (rewrite E; left; reflexivity).
  apply filter_In in Hx as [Hx Gx]. split; [exact Hx|]. split; [exact Gx|].
  intros y Hy Gy. assert (HyF : In y (filter g T)) by (apply filter_In; auto). rewrite E in HyF.
  destruct HyF as [->|HyF]; [left; reflexivity|]. right.
  apply ssorted_inv in SF as [_ SF]. rewrite Forall_forall in SF. auto.
Qed.

Lemma last_filter_sorted g T x : ssorted T -> hd_error (rev (filter g T)) = Some x ->
  In x T /\ g x = true /\ forall y, In y T -> g y = true -> y = x \/ slt y x.
Proof.
  intros S H. pose proof (ssorted_filter g _ S) as SF.
  destruct (rev (filter g T)) as [|a F] eqn:E; [discriminate|]. inversion H; subst a.
  apply rev_cons_last in E.
  assert (Hx : In x (filter g T)) by (rewrite E; apply in_or_app; right; left; reflexivity).
  apply filter_In in Hx as [Hx Gx]. split; [exact Hx|]. split; [exact Gx|].
  intros y Hy Gy. assert (HyF : In y (filter g T)) by (apply filter_In; auto). rewrite E in HyF, SF.
  apply ssorted_app_inv in SF as (_ & _ & SF).
  apply in_app_or in HyF as [HyF|[->|[]]]; [right; apply SF; [exact HyF|left; reflexivity]|left; reflexivity].
Qed.

Lemma hd_filter_none {A} (g : A -> bool) T : hd_error (filter g T) = None -> forall y, In y T -> g y = false.
Proof.
  intros H y Hy. destruct (g y) eqn:G; [|reflexivity].
  assert (In y (filter g T)) by (apply filter_In; auto). destruct (filter g T); [destruct H0|discriminate].
Qed.

Lemma last_filter_none {A} (g : A -> bool) T : hd_error (rev (filter g T)) = None -> forall y, In y T -> g y = false.
Proof.
  intros H y Hy. destruct (g y) eqn:G; [|reflexivity].
  assert (In y (rev (filter g T))) by (apply in_rev; rewrite rev_involutive; apply filter_In; auto).
  destruct (rev (filter g T)); [destruct H0|discriminate].
Qed.

Definition after_start (r x : region) : bool := key_ltb (r_start r) (r_start x).
Definition before_start (r x : region) : bool := key_ltb (r_start x) (r_start r).

Lemma get_adjacent_spec T tot r : ssorted T ->
  get_adjacent (RT T tot) r = (hd_error (rev (filter (before_start r) T)), hd_error (filter (after_start r) T)).
Proof.
  intros S. unfold get_adjacent. cbn [items].
  rewrite (descend_le_filter _ _ S), (ascend_ge_filter _ _ S), !find_as_filter, filter_rev, !filter_filter. f_equal.
  - f_equal. f_equal. apply filter_ext_in. intros x _. unfold before_start, rlt. cbn.
    destruct (key_ltb_spec (r_start r) (r_start x)), (key_eqb_spec (r_start r) (r_start x)), (key_ltb_spec (r_start x) (r_start r));
      cbn; try reflexivity; exfalso; korder.
  - f_equal. apply filter_ext_in. intros x _. unfold after_start, rlt. cbn.
    destruct (key_ltb_spec (r_start x) (r_start r)), (key_eqb_spec (r_start r) (r_start x)), (key_ltb_spec (r_start r) (r_start x));
      cbn; try reflexivity; exfalso; korder.
Qed.

Section Queries2.
  Variables (l : spec) (st : rinfo).
  Hypothesis R : Rel l st.
  Local Notation T := (items (tree st)).

  Let D : ds T := q_ds _ _ R.
  Let S : ssorted T := ds_ssorted _ D.

  (* the previous region in key order ends exactly where r starts *)
  Lemma prev_unique r x : In x T -> before_start r x = true -> key_eqb (r_end x) (r_start r) = true ->
    forall y, In y T -> negb (is_nil (r_end y)) && key_eqb (r_end y) (r_start r) && key_ltb (r_start y) (r_start r) = true -> y = x.
  Proof.
    intros Hx Bx Ex y Hy C. apply andb_true_iff in C as [C C3]. apply andb_true_iff in C as [C1 C2].
    destruct (key_eqb_spec (r_end x) (r_start r)) as [E1|]; [|discriminate].
    destruct (key_eqb_spec (r_end y) (r_start r)) as [E2|]; [|discriminate].
    unfold before_start in Bx. destruct (key_ltb_spec (r_start x) (r_start r)) as [L1|]; [|discriminate].
    destruct (key_ltb_spec (r_start y) (r_start r)) as [L2|]; [|discriminate].
    destruct (ds_pairs _ _ _ D Hy Hx) as [E|[[N L]|[N L]]]; [exact E| |].
    - exfalso. rewrite E2 in L. korder.
    - exfalso. rewrite E1 in L. korder.
  Qed.

  Lemma q_prev r :
    match hd_error (rev (filter (before_start r) T)) with
    | Some x => if key_eqb (r_end x) (r_start r) then get_region st (r_id x) else None
    | None => None
    end = List.find (fun p => negb (is_nil (r_end p)) && key_eqb (r_end p) (r_start r) && key_ltb (r_start p) (r_start r)) l.
  Proof.
    destruct (hd_error (rev (filter (before_start r) T))) as [x|] eqn:HP.
    - destruct (last_filter_sorted _ _ _ S HP) as (Hx & Bx & LAST).
      destruct (key_eqb (r_end x) (r_start r)) eqn:E.
      + rewrite (q_get _ _ R x Hx). symmetry. apply find_unique.
        * apply (q_in _ _ R), Hx.
        * rewrite E. unfold before_start in Bx. rewrite Bx.
           destruct (is_nil_spec (r_end x)) as [EN|]; [|reflexivity]. exfalso.
           destruct (key_eqb_spec (r_end x) (r_start r)) as [E1|]; [|discriminate].
           destruct (key_ltb_spec (r_start x) (r_start r)) as [L1|]; [|discriminate]. rewrite <- E1, EN in L1. apply (not_klt_nil _ L1).
        * intros y Hy C. apply (q_in _ _ R) in Hy. eapply prev_unique; eauto.
      + symmetry. apply find_none_intro. intros y Hy. apply (q_in _ _ R) in Hy.
        destruct (negb (is_nil (r_end y)) && key_eqb (r_end y) (r_start r) && key_ltb (r_start y) (r_start r)) eqn:C; [|reflexivity].
        exfalso. apply andb_true_iff in C as [C C3]. apply andb_true_iff in C as [C1 C2].
        destruct (LAST y Hy C3) as [->|L]; [congruence|].
        destruct (key_eqb_spec (r_end y) (r_start r)) as [E2|]; [|discriminate].
        destruct (ds_pairs _ _ _ D Hy Hx) as [->|[[N L']|[N L']]]; [unfold slt in L; korder| |].
        * unfold before_start in Bx. destruct (key_ltb_spec (r_start x) (r_start r)) as [L1|]; [|discriminate]. rewrite E2 in L'. korder.
        * pose proof (ds_valid _ _ D Hx) as Vx. apply validP_cases in Vx as [Vx|Vx]; [contradiction|]. unfold slt in L. korder.
    - symmetry. apply find_none_intro. intros y Hy. apply (q_in _ _ R) in Hy.
      pose proof (last_filter_none _ _ HP y Hy) as B. unfold before_start in B. rewrite B. apply andb_false_r.
  Qed.

  Lemma q_adjacent r : adjacent st r = spec_adjacent l r.
  Proof.
    unfold adjacent, spec_adjacent. rewrite (q_tree _ _ R). rewrite (get_adjacent_spec _ _ _ S). f_equal; [apply q_prev|].
    destruct (hd_error (filter (after_start r) T)) as [x|] eqn:HN.
    - destruct (hd_filter_sorted _ _ _ S HN) as (Hx & Ax & FIRST).
      unfold after_start in Ax.
      assert (NOBETWEEN : existsb (fun y => key_ltb (r_start r) (r_start y) && key_ltb (r_start y) (r_start x)) l = false).
      { destruct (existsb _ l) eqn:X; [|reflexivity]. exfalso. apply existsb_exists in X as (y & Hy & C).
        apply (q_in _ _ R) in Hy. apply andb_true_iff in C as [C1 C2].
        destruct (FIRST y Hy C1) as [->|L].
        - destruct (key_ltb_spec (r_start x) (r_start x)) as [L|]; [korder|discriminate].
        - destruct (key_ltb_spec (r_start y) (r_start x)) as [L2|]; [|discriminate]. unfold slt in L. korder. }
      destruct (key_eqb (r_end r) (r_start x)) eqn:E.
      + rewrite (q_get _ _ R x Hx). symmetry. apply find_unique.
        * apply (q_in _ _ R), Hx.
        * rewrite E, Ax, NOBETWEEN. reflexivity.
        * intros y Hy C. apply (q_in _ _ R) in Hy as HyT. apply andb_true_iff in C as [C C3]. apply andb_true_iff in C as [C1 C2].
           destruct (FIRST y HyT C2) as [E'|L]; [exact E'|]. exfalso.
           apply negb_true_iff in C3. assert (existsb (fun x0 => key_ltb (r_start r) (r_start x0) && key_ltb (r_start x0) (r_start y)) l = true); [|congruence].
           apply existsb_exists. exists x. split; [apply (q_in _ _ R), Hx|]. rewrite Ax. cbn.
           destruct (key_ltb_spec (r_start x) (r_start y)); [reflexivity|contradiction].
      + symmetry. apply find_none_intro. intros y Hy. apply (q_in _ _ R) in Hy as HyT.
        destruct (key_eqb (r_end r) (r_start y) && key_ltb (r_start r) (r_start y) && _) eqn:C; [|reflexivity].
        exfalso. apply andb_true_iff in C as [C C3]. apply andb_true_iff in C as [C1 C2].
        destruct (FIRST y HyT C2) as [->|L]; [congruence|].
        apply negb_true_iff in C3. assert (existsb (fun x0 => key_ltb (r_start r) (r_start x0) && key_ltb (r_start x0) (r_start y)) l = true); [|congruence].
        apply existsb_exists. exists x. split; [apply (q_in _ _ R), Hx|]. rewrite Ax. cbn.
        destruct (key_ltb_spec (r_start x) (r_start y)); [reflexivity|contradiction].
    - symmetry. apply find_none_intro. intros y Hy. apply (q_in _ _ R) in Hy.
      pose proof (hd_filter_none _ _ HN y Hy) as A. unfold after_start in A. rewrite A. rewrite andb_false_r. reflexivity.
  Qed.

  Lemma q_search_prev k : search_prev_region st k = spec_prev l k.
  Proof.
    unfold search_prev_region, spec_prev. rewrite <- (q_search _ _ R k). unfold search_region, search_prev.
    rewrite (q_tree _ _ R). unfold search.
    destruct (find (RT T (sum_size T)) (tmp k)) as [cur|] eqn:F; [|reflexivity].
    apply rt_find_some in F as [Hc Cc]; [|exact D]. cbn [back]. rewrite (q_get _ _ R cur Hc).
    rewrite (get_adjacent_spec _ _ _ S). cbn [fst].
    transitivity (match hd_error (rev (filter (before_start cur) T)) with
                  | Some x => if key_eqb (r_end x) (r_start cur) then get_region st (r_id x) else None
                  | None => None
                  end).
    { destruct (hd_error _) as [x|]; [destruct (key_eqb _ _)|]; reflexivity. }
    (* a valid region that ends at the start of cur starts before it *)
    rewrite q_prev. apply find_ext_in. intros y Hy. apply (q_in _ _ R) in Hy.
    destruct (negb (is_nil (r_end y)) && key_eqb (r_end y) (r_start cur)) eqn:C; [|reflexivity]. cbn.
    apply andb_true_iff in C as [C1 C2]. destruct (key_eqb_spec (r_end y) (r_start cur)) as [E2|]; [|discriminate].
    pose proof (ds_valid _ _ D Hy) as Vy. apply validP_cases in Vy as [Vy|Vy].
    - apply negb_true_iff in C1. destruct (is_nil_spec (r_end y)); [discriminate|contradiction].
    - rewrite E2 in Vy. destruct (key_ltb_spec (r_start y) (r_start cur)); [reflexivity|contradiction].
  Qed.
End Queries2.

(* random picks: the sampled index interval contains every candidate, and only regions of the tree *)
Lemma nth_rank T x : ssorted T -> In x T -> nth_error T (length (filter (fun y => rlt y x) T)) = Some x.
Proof.
  intros S Hx. apply in_split in Hx as (T1 & T2 & ->).
  apply ssorted_app_inv in S as (A & B & C). apply ssorted_inv in B as [B1 B2]. rewrite Forall_forall in B2.
  rewrite filter_app. cbn.
  replace (rlt x x) with false by (destruct (rlt_spec x x) as [L|]; [unfold slt in L; exfalso; korder|reflexivity]).
  rewrite (filter_true_id _ T1), (filter_false_nil _ T2), app_nil_r.
  - rewrite nth_error_app2 by lia. rewrite Nat.sub_diag. reflexivity.
  - intros y Hy. specialize (B2 y Hy). destruct (rlt_spec y x) as [L|]; [unfold slt in *; exfalso; korder|reflexivity].
  - intros y Hy. specialize (C y x Hy (or_introl eq_refl)). destruct (rlt_spec y x); [reflexivity|contradiction].
Qed.

Lemma involved_iff x s e :
  involved x s e = true <-> kle s (r_start x) /\ (e = [] \/ (r_end x <> [] /\ kle (r_end x) e)).
Proof.
  unfold involved. rewrite andb_true_iff, orb_true_iff, andb_true_iff, negb_true_iff, is_nil_true.
  destruct (is_nil_spec (r_end x)); intuition congruence.
Qed.

Lemma rank_tmp k L : ssorted L ->
  l0_rank rlt (tmp k) L = length (filter (fun y => key_ltb (r_start y) k) L).
Proof. intros S. rewrite (l0_rank_filter _ _ S). reflexivity. Qed.

(* every region of the tree that lies inside [s, e) sits at an index of the sampled interval *)
Theorem random_complete L tot s e x : ds L -> In x L -> involved x s e = true ->
  let '(si, ei) := rand_interval (RT L tot) s e in
  exists d, 0 <= d < ei - si /\ l0_get_at (si + d) L = Some x.
Proof.
  intros D Hx IV. pose proof (ds_ssorted _ D) as S. apply involved_iff in IV as [I1 I2].
  pose proof (ds_valid _ _ D Hx) as Vx. apply validP_cases in Vx.
  unfold rand_interval, l0_get_with_index. cbn [items].
  set (si0 := Z.of_nat (l0_rank rlt (tmp s) L)).
  set (ix := Z.of_nat (length (filter (fun y => rlt y x) L))).
  assert (NTH : nth_error L (Z.to_nat ix) = Some x) by (unfold ix; rewrite Nat2Z.id; apply nth_rank; auto).
  assert (LEN : ix < Z.of_nat (length L)).
  { unfold ix. apply inj_lt. apply nth_error_Some. rewrite nth_rank; auto. discriminate. }
  assert (LO : si0 <= ix).
  { unfold si0, ix. rewrite (rank_tmp _ _ S). apply inj_le. apply filter_length_le. intros y _ Hy.
    unfold rlt. destruct (key_ltb_spec (r_start y) s) as [L1|]; [|discriminate].
    destruct (key_ltb_spec (r_start y) (r_start x)); [reflexivity|exfalso; korder]. }
  set (ei := if is_nil e then rt_len (RT L tot) else Z.of_nat (snd (l0_get rlt (tmp e) L, l0_rank rlt (tmp e) L))).
  assert (HI : ix < ei).
  { unfold ei. destruct (is_nil_spec e) as [En|En]; [exact LEN|]. cbn [snd].
    destruct I2 as [E|[N2 L2]]; [contradiction|]. destruct Vx as [Vx|Vx]; [contradiction|].
    unfold ix. rewrite (rank_tmp _ _ S). apply inj_lt. apply (filter_length_lt _ _ L x); auto.
    - intros y _ Hy. unfold rlt in Hy. destruct (key_ltb_spec (r_start y) (r_start x)) as [L1|]; [|discriminate].
      destruct (key_ltb_spec (r_start y) e); [reflexivity|exfalso; korder].
    - destruct (rlt_spec x x) as [L1|]; [unfold slt in L1; exfalso; korder|reflexivity].
    - destruct (key_ltb_spec (r_start x) e); [reflexivity|exfalso; korder]. }
  set (si := if negb (si0 =? 0) && _ && _ then si0 - 1 else si0).
  assert (SI : si <= si0) by (unfold si; destruct (negb (si0 =? 0) && _ && _); lia).
  assert (SI0 : 0 <= si).
  { unfold si. destruct (negb (si0 =? 0)) eqn:Z0; cbn [andb].
    - apply negb_true_iff, Z.eqb_neq in Z0. assert (0 <= si0) by (unfold si0; lia). destruct (_ && _); lia.
    - unfold si0. lia. }
  exists (ix - si). split; [lia|]. replace (si + (ix - si)) with ix by lia.
  unfold l0_get_at. replace (ix <? 0) with false by (symmetry; apply Z.ltb_ge; unfold ix; lia). exact NTH.
Qed.

(* whatever index is drawn, a non-nil pick is a region of the tree that lies inside the range *)
Theorem random_sound t s e draws x : random_one t s e draws = Some (Some x) ->
  In x (items t) /\ involved x s e = true.
Proof.
  unfold random_one. destruct (rt_len t =? 0); [discriminate|].
  destruct (rand_interval t s e) as [si ei]. destruct (ei <=? si); [discriminate|].
  destruct (nth_error draws _) as [d|]; [|discriminate].
  unfold l0_get_at. destruct (si + d <? 0); [discriminate|].
  destruct (nth_error (items t) (Z.to_nat (si + d))) as [y|] eqn:N; [|discriminate].
  destruct (involved y s e) eqn:IV; intros H; inversion H; subst. split; [eapply nth_error_In; eauto|exact IV].
Qed.

Theorem random_many_sound t ranges x : In x (snd (random_many t ranges)) ->
  In x (items t) /\ exists se, In se ranges /\ involved x (fst se) (snd se) = true.
Proof.
  unfold random_many. destruct (rt_len t =? 0); [intros []|]. cbn [snd].
  intros H. apply in_flat_map in H as (c & Hc & H). apply in_map_iff in Hc as (se & <- & Hse).
  apply in_flat_map in H as ([[i y] b] & Hy & H). cbn in H. destruct b; [|destruct H].
  destruct H as [<-|[]]. unfold rand_cands in Hy. destruct (rand_interval t (fst se) (snd se)) as [si ei].
  destruct (ei <=? si); [destruct Hy|]. apply in_flat_map in Hy as (j & _ & Hy).
  unfold l0_get_at in Hy. destruct (j <? 0); [destruct Hy|].
  destruct (nth_error (items t) (Z.to_nat j)) as [z|] eqn:N; [|destruct Hy].
  destruct Hy as [E|[]]. inversion E; subst. split; [eapply nth_error_In; eauto|]. exists se. auto.
Qed.
