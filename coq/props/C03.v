(* C03 — Only the current leaseholder serves or persists leader-only state.
   Statements, each derived in a line or two from the invariant and the lemmas of proof/C03_LeaderProof.v and
   proof/C03_EnvRefine.v; structural obligations in proof/C03_Sites.v.
   Every label list is one history: campaigns (grant / txn with outcome), keep-alives, lease expiry,
   resets (resign), crashes, leader-key deletion, guarded writes and served requests of any number
   of members, in any order, with time passing anywhere.
   The leader key disappears only through lease expiry / revocation or PD's own (revision-guarded)
   DeleteLeaderKey; an operator deleting it by hand is outside the model (DESIGN.md, E1). *)
From Coq Require Import NArith.
From PDV Require Import lib.Base model.C03_Leader model.C03_Env proof.C03_LeaderProof proof.C03_Sites proof.C03_EnvRefine.
Local Open Scope N_scope.

(* at any instant at most one member serves as leader of a given leadership *)
Theorem C03_at_most_one_serving :
  forall ls m1 m2, let s := exec step init ls in
    is_leader s m1 = true -> is_leader s m2 = true -> m1 = m2.
Proof.
  intros ls m1 m2 s H1 H2. pose proof (inv_exec ls) as I.
  destruct (leader_owns_key _ _ I H1) as (i1 & e1 & t1 & _ & K1 & _).
  destruct (leader_owns_key _ _ I H2) as (i2 & e2 & t2 & _ & K2 & _). congruence.
Qed.

(* whoever serves owns the stored leader record, attached to its own live etcd lease *)
Theorem C03_valid_lease_owns_key :
  forall ls m, let s := exec step init ls in
    is_leader s m = true ->
    exists id e et, lease (mems s m) = Granted id e /\ key s = Some (m, id) /\ leases s id = Some et.
Proof. intros ls m s; apply leader_owns_key, inv_exec. Qed.

(* a campaign succeeds only when no leader record exists, and never overwrites one *)
Theorem C03_campaign_only_without_record :
  forall s m o r s', step s (LCampaignTxn m o r) = Some s' ->
    (won (mems s' m) = true -> key s = None) /\
    (forall kv, key s = Some kv -> key s' = Some kv \/ key s' = None).
Proof. exact campaign_needs_no_record. Qed.

(* expired or resigned lease: the member is not leader, so it serves nothing (LServe is disabled) *)
Theorem C03_expired_or_resigned_serves_nothing :
  forall s m,
    (lease (mems s m) = NoLease \/ lease (mems s m) = Closed \/
     (exists id e, lease (mems s m) = Granted id e /\ e < now s)) ->
    is_leader s m = false /\ step s (LServe m) = None.
Proof.
  intros s m H.
  assert (Hn : is_leader s m = false).
  { unfold is_leader. destruct H as [H|[H|(id & e & H & Hlt)]]; rewrite H; cbn; auto.
    destruct (N.leb_spec (now s) e); [lia|reflexivity]. }
  split; [exact Hn|]. cbn. rewrite Hn. reflexivity.
Qed.

(* a guarded write of a member that does not own the stored record changes nothing in etcd,
   whatever the transport outcome: it cannot extend a window it no longer owns *)
Theorem C03_non_owner_write_rejected :
  forall s m k v o s', key_value s <> Some m -> step s (LWrite m k v o) = Some s' ->
    key s' = key s /\ data s' = data s /\ leases s' = leases s.
Proof. exact non_owner_write_rejected. Qed.

(* A delete guarded by a stale revision is refused: a restarted member reads its own old record, the old lease
   expires, another member wins, the restarted member's delete arrives late - member 1 stays the only leader and
   the restarted member's campaign loses.  (With an unguarded delete this history ends with two leaders.) *)
Definition stale_delete_trace : list label :=
  [LGrantStart 0 10; LGrantDone 0 true; LCampaignTxn 0 Ok true;
   LCrash 0; LObserve 0;
   LTick 11; LExpire 0;
   LGrantStart 1 10; LGrantDone 1 true; LCampaignTxn 1 Ok true;
   LDeleteKey 0 Ok true;
   LGrantStart 0 10; LGrantDone 0 true; LCampaignTxn 0 Ok true].

Example C03_stale_delete_harmless :
  let s := exec step init stale_delete_trace in
  (key_value s, is_leader s 0, is_leader s 1) = (Some 1%nat, false, true).
Proof. vm_compute. reflexivity. Qed.

(* non-vacuity: a history with hand-over, expiry and a rejected write, on which a leader serves *)
Example C03_nonvacuous :
  let ls := [LGrantStart 0 3; LGrantDone 0 true; LCampaignTxn 0 Ok true; LWrite 0 1 (Some 7%Z) Ok; LServe 0;
             LTick 1; LKeepStart 0; LTick 1; LKeepDone 0; LTick 2; LServe 0; LTick 5; LExpire 0;
             LGrantStart 1 3; LGrantDone 1 true; LCampaignTxn 1 Ok true; LWrite 0 1 (Some 9%Z) Ok; LServe 1; LServe 0] in
  let s := exec step init ls in
  (is_leader s 1, is_leader s 0, data s 1%nat, map snd (served s)) = (true, false, Some (0%nat, 7%Z), [1; 0; 0]%nat).
Proof. vm_compute. reflexivity. Qed.

(* Interface to C01/C02/C05: every history of the election model, projected to (who owns the record, which members
   evaluate IsLeader() to true), is a run of the leadership environment the timestamp model assumes
   (model/C03_Env.v): each environment label is enabled when taken - a record is only created when there is none,
   only the owner of the record starts believing again, and the record never disappears under a member that
   still believes.  props/C01.v (C01_accepts_leadership_environment) shows the timestamp model accepts these labels. *)
Theorem C03_refines_leadership_environment : forall ls,
  exists e, eexec env0 (env_trace ls) = Some e /\ env_eq e (env_of (exec step init ls)).
Proof. exact election_refines_environment. Qed.

Example C03_environment_trace_of_handover :
  env_trace [LGrantStart 0 3; LGrantDone 0 true; LCampaignTxn 0 Ok true; LTick 2; LKeepStart 0; LKeepDone 0; LTick 2;
             LTick 5; LKeepStart 0; LKeepDone 0; LExpire 0;
             LGrantStart 1 3; LGrantDone 1 true; LCampaignTxn 1 ErrApplied false; LTick 9; LExpire 1]
  = [EElect 0; EValidOff 0; EValidOn 0; EValidOff 0; EOwnerGone; EElect 1; EValidOff 1; EOwnerGone].
Proof. vm_compute. reflexivity. Qed.

Print Assumptions C03_at_most_one_serving.
Print Assumptions C03_valid_lease_owns_key.
Print Assumptions C03_campaign_only_without_record.
Print Assumptions C03_expired_or_resigned_serves_nothing.
Print Assumptions C03_non_owner_write_rejected.
Print Assumptions C03_refines_leadership_environment.
