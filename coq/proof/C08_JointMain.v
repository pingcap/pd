(* C08 — what NewBuilder, the API calls and prepareBuild hand to the two build paths (Prep: facts about the prepared state
   alone, used by every general theorem), and the general theorem for the joint build path: for every region, every
   sequence of builder calls and every cluster, if the builder model takes the joint path and produces a plan, the
   checker accepts it. *)
From Coq Require Import String Sorting.Sorted.
From PDV Require Import lib.Base gen.Gen_C08 model.C08_Steps model.C08_Builder
     proof.C08_ListFacts proof.C08_PmapFacts proof.C08_SimPhases proof.C08_JointScript proof.C08_PrepareFacts
     proof.C08_JointBuild proof.C08_JointFacts proof.C08_Skel.
Local Open Scope list_scope.
Local Open Scope Z_scope.

Record ApiInv (ps0 : list peer) (l0 : Z) (c : cluster) (b : bstate) : Prop := {
  ai_origin : b_origin b = pm_of_list ps0;
  ai_oleader : b_origin_leader b = l0;
  ai_cluster : b_cluster b = c;
  ai_allow : b_allow_demote b = joint_supported c;
  ai_joint : b_use_joint b = joint_supported c && joint_enabled c;
  ai_sorted : PSorted (b_target b);
  ai_nj : NJ (b_target b)
}.

Lemma api_op_inv ps0 l0 c b o b' : ApiInv ps0 l0 c b -> api_op b o = Some b' -> ApiInv ps0 l0 c b'.
Proof.
  intros [A1 A2 A3 A4 A5 A6 A7] H. destruct (api_op_frame _ _ _ H) as [F S]. inversion F as [[F1 F2 F3 F4 F5 F6]].
  constructor; try congruence; [apply S; exact A6|].
  refine (api_op_target_all (fun p => prole p = Voter \/ prole p = Learner) _ b o b' H _ A7).
  - intros p ro _ Hro. exact Hro.
  - intros p _ _ Hj. unfold in_joint in Hj. destruct (prole p); auto; discriminate.
Qed.

Lemma api_ops_inv ps0 l0 c : forall os b b', ApiInv ps0 l0 c b -> api_ops b os = Some b' -> ApiInv ps0 l0 c b'.
Proof.
  induction os as [|o os IH]; intros b b' I H; cbn [api_ops] in H; [inversion H; subst; exact I|].
  destruct (api_op b o) as [b1|] eqn:E; [|discriminate]. eapply IH; [eapply api_op_inv; eauto|exact H].
Qed.

Lemma new_builder_inv i b0 :
  new_builder i = Some b0 -> ND (peers (i_region i)) -> NJ (peers (i_region i)) ->
  ApiInv (peers (i_region i)) (leader (i_region i)) (i_cluster i) b0.
Proof.
  unfold new_builder. intros H Hnd Hnj.
  destruct (existsb (fun p => pstore p =? 0) (peers (i_region i))); [discriminate|].
  destruct (negb (is_some (pm_get (pm_of_list (peers (i_region i))) (leader (i_region i))))); [discriminate|].
  destruct (negb (i_skip_joint_check i) && is_in_joint (i_region i)); [discriminate|].
  inversion H; subst b0; clear H. constructor; cbn; auto; [apply pm_of_list_sorted|].
  intros x Hx. apply Hnj. apply pm_of_list_In. exact Hx.
Qed.

Lemma new_builder_nz i b0 : new_builder i = Some b0 -> forall p, In p (peers (i_region i)) -> pstore p <> 0.
Proof.
  unfold new_builder. destruct (existsb (fun p => pstore p =? 0) (peers (i_region i))) eqn:E; [discriminate|].
  intros _ p Hp C. assert (X : existsb (fun p => pstore p =? 0) (peers (i_region i)) = true); [|congruence].
  apply existsb_exists. exists p. split; [exact Hp|apply Z.eqb_eq; exact C].
Qed.

Record Prep (i : binput) (b : bstate) : Prop := {
  pp_nd : ND (peers (i_region i));
  pp_nj : NJ (peers (i_region i));
  pp_nz : forall p, In p (peers (i_region i)) -> pstore p <> 0;
  pp_leader : exists lp, lk (peers (i_region i)) (leader (i_region i)) = Some lp /\ prole lp = Voter;
  pp_cluster : b_cluster b = i_cluster i;
  pp_origin : b_origin b = pm_of_list (peers (i_region i));
  pp_oleader : b_origin_leader b = leader (i_region i);
  pp_cur : b_cur b = b_origin b;
  pp_curl : b_cur_leader b = b_origin_leader b;
  pp_steps : b_steps b = [];
  pp_Ts : PSorted (b_target b);
  pp_Tnj : NJ (b_target b);
  pp_Tnz : forall p, In p (b_target b) -> pstore p <> 0;
  pp_add : b_add b = cfold (f_add (b_origin b) (b_allow_demote b) (i_alloc i)) (b_target b) [];
  pp_rem : b_remove b = cfold (f_rem (b_target b) (b_allow_demote b)) (b_origin b) [];
  pp_pro : b_promote b = cfold (f_pro (b_target b)) (b_origin b) [];
  pp_dem : b_demote b = cfold (f_dem (b_target b) (b_allow_demote b)) (b_origin b) [];
  pp_joint : b_use_joint b = true -> b_allow_demote b = true;
  (* the leader the caller asked for is a voter of the target and passed allowLeader *)
  pp_tleader : b_tleader b = 0 \/ exists p, pm_get (b_target b) (b_tleader b) = Some p /\ is_learner p = false
                                            /\ allow_leader b p (b_force b) = true
}.

Lemma prepared_prep i b :
  nodup_stores (peers (i_region i)) = true ->
  is_in_joint (i_region i) = false ->
  (exists lp, get_store_peer (i_region i) (leader (i_region i)) = Some lp /\ prole lp = Voter) ->
  prepared i = Some b -> Prep i b.
Proof.
  intros Hnd Hnj Hlead Hprep. apply nodup_stores_ND in Hnd. apply NJ_of_not_joint in Hnj.
  unfold prepared in Hprep.
  destruct (new_builder i) as [b0|] eqn:Enb; [|discriminate].
  destruct (api_ops b0 (i_ops i)) as [b1|] eqn:Eapi; [|discriminate].
  pose proof (new_builder_nz _ _ Enb) as Hnz.
  pose proof (api_ops_inv _ _ _ _ _ _ (new_builder_inv i b0 Enb Hnd Hnj) Eapi) as [A1 A2 A3 A4 A5 A6 A7].
  assert (N1 : forall p, In p (b_target b1) -> pstore p <> 0).
  { refine (api_ops_target_all (fun p => pstore p <> 0) _ (i_ops i) b0 b1 Eapi _ _); auto.
    intros p Hp. rewrite (proj2 (new_builder_target _ _ Enb)) in Hp. apply Hnz, pm_of_list_In, Hp. }
  pose proof (prepare_build_spec _ _ _ Hprep) as F.
  pose proof (pf_target _ _ _ F) as Et. pose proof (pf_origin _ _ _ F) as Eo. pose proof (pf_allow _ _ _ F) as Ea.
  constructor; try assumption.
  - rewrite (pf_cluster _ _ _ F). exact A3.
  - rewrite Eo. exact A1.
  - rewrite (pf_oleader _ _ _ F). exact A2.
  - rewrite (pf_cur _ _ _ F). symmetry. exact Eo.
  - rewrite (pf_curl _ _ _ F). symmetry. apply (pf_oleader _ _ _ F).
  - apply (pf_steps _ _ _ F).
  - rewrite Et. exact A6.
  - rewrite Et. exact A7.
  - rewrite Et. exact N1.
  - rewrite (pf_add _ _ _ F), Eo, Ea, Et. reflexivity.
  - rewrite (pf_rem _ _ _ F), Eo, Ea, Et. reflexivity.
  - rewrite (pf_pro _ _ _ F), Eo, Et. reflexivity.
  - rewrite (pf_dem _ _ _ F), Eo, Ea, Et. reflexivity.
  - intros Huj. destruct (pf_joint _ _ _ F Huj) as [Huj1 _]. rewrite A5 in Huj1. apply andb_true_iff in Huj1. rewrite Ea, A4. tauto.
  - destruct (pf_tleader _ _ _ F) as [Z0|(_ & p & Hp & Hl & Ha)]; [left; exact Z0|right]. rewrite Et. eauto.
Qed.

Lemma goal_min_le_origin i b : Prep i b ->
  g_min_voters (goal_of b) <= voters_old (peers (i_region i)) /\ g_min_voters (goal_of b) <= voters_new (peers (i_region i)).
Proof.
  intros P. unfold goal_of; cbn [g_min_voters]. rewrite (pp_origin _ _ P). unfold voters_old at 1 3, voters_new at 1 3.
  rewrite !(countb_pm_of_list _ _ (pp_nd _ _ P)). fold (voters_old (peers (i_region i))) (voters_new (peers (i_region i))). lia.
Qed.

(* what Build returns, per path; the non-joint path ends with the move to the target leader *)
Definition nj_finish (bF : bstate) : bstate :=
  let b2 := set_target_leader_if_not_exist bF in
  if negb (b_tleader b2 =? 0) && negb (b_cur_leader b2 =? b_tleader b2) && is_some (pm_get (b_cur b2) (b_tleader b2))
  then set_kinds (exec_transfer b2 (b_tleader b2)) true (b_kregion b2) else b2.

Lemma build_of_prepared i b ss kl kr : prepared i = Some b -> build i = Built ss kl kr ->
  if b_use_joint b then exists bF, build_joint b = Some bF /\ ss = b_steps bF
  else exists bF, nonjoint_loop (pending b) b = BOk bF /\ ss = b_steps (nj_finish bF).
Proof.
  unfold prepared, build. destruct (new_builder i) as [b0|]; [|discriminate].
  destruct (api_ops b0 (i_ops i)) as [b1|]; [|discriminate]. intros -> H. destruct (b_use_joint b).
  - destruct (build_joint b) as [bF|]; [|discriminate]. inversion H. eauto.
  - change (build_nonjoint b) with (match nonjoint_loop (pending b) b with
                                    | BOk b1 => match b_steps (nj_finish b1) with [] => BErr | _ => BOk (nj_finish b1) end
                                    | r => r end) in H.
    destruct (nonjoint_loop (pending b) b) as [bF| |]; [|discriminate|discriminate].
    exists bF. split; [reflexivity|]. destruct (b_steps (nj_finish bF)) eqn:Es; [discriminate|]. inversion H. congruence.
Qed.

(* on the joint path demotion is allowed, so the four pending maps and the two lists of the enter / leave pair are the
   conditional folds of proof/C08_JointFacts.v *)
Lemma prep_joint_maps i b : Prep i b -> b_use_joint b = true ->
  let ps0 := peers (i_region i) in let T := b_target b in
  let add := cfold (f_add (pm_of_list ps0) true (i_alloc i)) T [] in
  let rem := cfold (f_rem T true) (pm_of_list ps0) [] in
  b_add b = add /\ b_remove b = rem
  /\ joint_P b = pairs_of (cfold f_voter_add add (cfold (f_pro T) (pm_of_list ps0) []))
  /\ joint_D b = pairs_of (cfold f_voter_rem rem (cfold (f_dem T true) (pm_of_list ps0) [])).
Proof.
  intros P Huj. pose proof (pp_joint _ _ P Huj) as Ha. unfold joint_P, joint_D.
  rewrite (pp_add _ _ P), (pp_rem _ _ P), (pp_pro _ _ P), (pp_dem _ _ P), (pp_origin _ _ P), Ha. repeat split.
Qed.

Lemma joint_params_of i b : Prep i b -> b_use_joint b = true ->
  JointParams (peers (i_region i)) (b_target b) (b_add b) (joint_P b) (joint_D b) (b_remove b).
Proof.
  intros P Huj. destruct (prep_joint_maps i b P Huj) as (-> & -> & -> & ->).
  destruct P. apply joint_params; assumption.
Qed.

Lemma joint_build_script i b ss kl kr :
  Prep i b -> b_use_joint b = true -> prepared i = Some b -> build i = Built ss kl kr ->
  let ol := leader (i_region i) in let tl := joint_tl b in
  tl <> 0 /\ Tvoter b tl = true /\
  exists m, ss = joint_plan (b_light b) (b_add b) (joint_P b) (joint_D b) (b_remove b) m ol tl /\
    match m with
    | TBefore => ol <> tl /\ Ovoter b tl = true
    | TStay => ol = tl
    | TAfter => ol <> tl /\ Ovoter b tl = false /\ Tvoter b ol = true
    | TInside => ol <> tl /\ Ovoter b tl = false /\ Tvoter b ol = false
    end.
Proof.
  intros P Huj Hprep Hbuild ol tl. pose proof (build_of_prepared _ _ _ _ _ Hprep Hbuild) as B. rewrite Huj in B.
  destruct B as (bF & Ebj & ->). pose proof (build_joint_tl _ _ Ebj) as Htl0. fold tl in Htl0.
  assert (Htl : Tvoter b tl = true).
  { unfold Tvoter, tl. destruct (joint_tl_source b) as [(Hn & ->)|(Hz & [C|(p & Hp & Ha)])]; [|contradiction|].
    - destruct (pp_tleader _ _ P) as [C|(p & Hp & Hl & _)]; [contradiction|]. rewrite Hp, Hl. reflexivity.
    - rewrite Hp. destruct (allow_leader_role _ _ _ Ha) as [R|R]; unfold is_learner; rewrite R; reflexivity. }
  assert (Hl0 : b_origin_leader b <> 0).
  { rewrite (pp_oleader _ _ P). destruct (pp_leader _ _ P) as (lp & Hlp & _). apply lk_Some in Hlp as [Hin <-]. apply (pp_nz _ _ P lp Hin). }
  destruct (build_joint_steps b bF (pp_steps _ _ P) (pp_curl _ _ P) Hl0 Htl Ebj) as (_ & m & Hs & Hm).
  rewrite (pp_oleader _ _ P) in Hs, Hm. split; [exact Htl0|]. split; [exact Htl|]. exists m. split; assumption.
Qed.

Theorem builder_joint_plan_ok_general_pf i b ss kl kr :
  nodup_stores (peers (i_region i)) = true ->
  is_in_joint (i_region i) = false ->
  (exists lp, get_store_peer (i_region i) (leader (i_region i)) = Some lp /\ prole lp = Voter) ->
  prepared i = Some b -> b_use_joint b = true -> build i = Built ss kl kr ->
  plan_ok (goal_of b) (i_region i) ss = true.
Proof.
  intros Hnd Hnj Hlead Hprep Huj Hbuild.
  pose proof (prepared_prep i b Hnd Hnj Hlead Hprep) as P.
  destruct (joint_build_script i b ss kl kr P Huj Hprep Hbuild) as (_ & Htl & m & -> & Hmode).
  destruct (prep_joint_maps i b P Huj) as (-> & -> & -> & ->).
  pose proof (pp_nd _ _ P) as Hnd0. pose proof (pp_origin _ _ P) as Eo. pose proof (pp_nj _ _ P) as Hnj0.
  pose proof (pp_leader _ _ P) as Hl0. pose proof (goal_min_le_origin i b P) as Hmin.
  assert (Hov : forall st, Ovoter b st = ovoter (peers (i_region i)) st).
  { intros st. unfold Ovoter, ovoter. rewrite Eo, (pm_of_list_get _ _ Hnd0). reflexivity. }
  rewrite !Hov in Hmode.
  unfold plan_ok. destruct (i_region i) as [ps0 l0 cv rg]. cbn [peers leader] in *.
  rewrite (joint_plan_ok ps0 (b_target b) (i_alloc i) Hnd0 Hnj0 (pp_Ts _ _ P) (pp_Tnj _ _ P) (goal_of b) l0 rg cv); auto.
  - apply Hmin.
  - apply Hmin.
  - unfold goal_of; cbn [g_min_voters]. lia.
  - unfold goal_of; cbn [g_leader]. destruct (joint_tl_source b) as [(_ & ->)|(-> & _)]; auto.
Qed.
