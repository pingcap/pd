(* C01/C02 proofs, the window layer: for every member, memory + guard < lastSavedTime <= stored window W; for the owner
   lastSavedTime = W whenever it has saved in this term and no save is uncertain.  A save is only reached from a state
   where that equality holds, hence W never decreases. *)
From Coq Require Import ZArith List Bool Lia.
From PDV Require Import lib.Base gen.Gen_C01 model.C01_Tso proof.C01_Step proof.C01_Ctl.
Import ListNotations.
Local Open Scope Z_scope.

(* side conditions on the constants the translator regenerates and on the configuration *)
Lemma guard_pos : 0 < guard. Proof. reflexivity. Qed.
Lemma guard_ge_ms : ns_per_ms <= guard. Proof. unfold guard, ns_per_ms, UpdateTimestampGuard; lia. Qed.
Definition Cfg (s : state) : Prop := guard < interval s.

Lemma sync_next_ge l0 now : l0 + guard <= sync_next (Some l0) now.
Proof. cbn. pose proof guard_pos. destruct (now - l0 <? guard) eqn:B; [|apply Z.ltb_ge in B]; lia. Qed.

(* the member has saved in this term: its SyncTimestamp has saved, or something is there that can only exist after that
   (a memory, a call of UpdateTimestamp / resetUserTimestamp in flight) *)
Definition synced (x : mem) : bool :=
  match phys x with Some _ => true | None => false end || negb (idle_upd (upd x)) || negb (idle_ur (ur x))
  || match syn x with SPendSet _ => true | _ => false end.

Record Win (s : state) : Prop := {
  w_d1  : forall m, owner s = Some m -> synced (mems s m) = true -> unsure (mems s m) = false ->
            exists w, W s = Some w /\ last_saved (mems s m) = Some w;
  w_d1b : forall m sv, last_saved (mems s m) = Some sv -> exists w, W s = Some w /\ sv <= w;
  w_d2  : forall m p, phys (mems s m) = Some p -> exists sv, last_saved (mems s m) = Some sv /\ p + guard < sv;
  w_d3s : forall m n, syn (mems s m) = SPendSet n -> exists sv, last_saved (mems s m) = Some sv /\ n + guard < sv;
  w_d3u : forall m n, upd (mems s m) = UPendSet n -> exists sv, last_saved (mems s m) = Some sv /\ n + guard < sv;
  w_d3r : forall m p l, ur (mems s m) = RSaved p l -> exists sv, last_saved (mems s m) = Some sv /\ p + guard < sv;
  w_d4  : forall m last, owner s = Some m -> syn (mems s m) = SLoaded last -> W s = last;
  w_du  : forall m n, upd (mems s m) = UDecided n -> need_save (mems s m) n = true;
  w_dr  : forall m p l, ur (mems s m) = RDeciding p l -> need_save (mems s m) p = true;
  w_mx  : forall m n p l, upd (mems s m) = UDecided n -> ur (mems s m) = RDeciding p l -> False;
  w_su  : forall m n, upd (mems s m) = UDecided n -> unsure (mems s m) = false;
  w_sr  : forall m p l, ur (mems s m) = RDeciding p l -> unsure (mems s m) = false;
  w_ls  : forall m, idle_upd (upd (mems s m)) = false \/ idle_ur (ur (mems s m)) = false ->
            exists sv, last_saved (mems s m) = Some sv
}.

Lemma win_init iv gap : Win (init iv gap).
Proof. constructor; cbn; intros; try discriminate. destruct H; discriminate. Qed.

Definition opt_le (a b : option Z) : Prop :=
  match a, b with None, _ => True | Some x, Some y => x <= y | Some _, None => False end.

Lemma opt_le_refl a : opt_le a a. Proof. destruct a; cbn; lia. Qed.
Lemma opt_le_trans a b c : opt_le a b -> opt_le b c -> opt_le a c.
Proof. destruct a, b, c; cbn; try tauto; lia. Qed.

Lemma synced_with_valid x v : synced (with_valid x v) = synced x. Proof. reflexivity. Qed.
Lemma synced_with_ctl x c : synced (with_ctl x c) = synced x. Proof. reflexivity. Qed.

Arguments synced : simpl never.

(* lastSavedTime exceeds t by more than the guard *)
Definition saved_above (x : mem) (t : Z) : Prop := exists sv, last_saved x = Some sv /\ t + guard < sv.
(* t is the physical time in memory, or one a call in flight is about to set it to *)
Definition top (x : mem) (t : Z) : Prop :=
  phys x = Some t \/ syn x = SPendSet t \/ upd x = UPendSet t \/ exists l, ur x = RSaved t l.
(* a call holds saveMu and has decided to save for the target n *)
Definition deciding (x : mem) (n : Z) : Prop := upd x = UDecided n \/ exists l, ur x = RDeciding n l.

(* what Win says of one member's record x against the stored window w.  These clauses stay true when w grows
   (win_mem_raise): a save by the owner does not disturb the others.  Conjunctions, so that records differing in
   fields these do not inspect have convertible statements *)
Definition win_mem (w : option Z) (x : mem) : Prop :=
  opt_le (last_saved x) w /\
  (forall t, top x t -> saved_above x t) /\
  (forall n, deciding x n -> need_save x n = true /\ unsure x = false) /\
  (forall n p l, upd x = UDecided n -> ur x = RDeciding p l -> False) /\
  (idle_upd (upd x) = false \/ idle_ur (ur x) = false -> exists sv, last_saved x = Some sv).
(* ... and of the owner's record in addition *)
Definition win_own (w : option Z) (x : mem) : Prop :=
  (synced x = true -> unsure x = false -> exists wv, w = Some wv /\ last_saved x = Some wv) /\
  (forall last, syn x = SLoaded last -> w = last).

Lemma opt_le_some a w : opt_le a w <-> forall sv, a = Some sv -> exists wv, w = Some wv /\ sv <= wv.
Proof.
  destruct a as [sv|], w as [wv|]; cbn; split; try discriminate; try tauto.
  - intros H sv' E. inv E. eauto.
  - intros H. destruct (H _ eq_refl) as (wv' & E & L). inv E. exact L.
  - intros H. destruct (H _ eq_refl) as (wv' & E & _). discriminate E.
Qed.

Lemma win_at s m : Win s -> win_mem (W s) (mems s m) /\ (owner s = Some m -> win_own (W s) (mems s m)).
Proof.
  intros [D1 D1b D2 D3s D3u D3r D4 Du Dr Mx Su Sr Ls]. split; [split; [|split; [|split; [|split]]]|].
  - apply opt_le_some. apply D1b.
  - intros t [H|[H|[H|(l & H)]]]; [eapply D2|eapply D3s|eapply D3u|eapply D3r]; exact H.
  - intros n [H|(l & H)]; [split; [eapply Du|eapply Su]|split; [eapply Dr|eapply Sr]]; exact H.
  - apply Mx.
  - apply Ls.
  - intros Ho. split; [apply D1, Ho|intros last; apply D4, Ho].
Qed.

Lemma win_mem_raise w w' x : win_mem w x -> opt_le w w' -> win_mem w' x.
Proof. intros (A & R) H. split; [eapply opt_le_trans; eassumption|exact R]. Qed.

Lemma win_intro s :
  (forall m, win_mem (W s) (mems s m) /\ (owner s = Some m -> win_own (W s) (mems s m))) -> Win s.
Proof.
  intros G. constructor; intros m; destruct (G m) as [(Le & Tp & Dc & Mx & Ls) O].
  - intros E. apply (O E).
  - apply opt_le_some, Le.
  - intros p H. apply Tp. left. exact H.
  - intros n H. apply Tp. right. left. exact H.
  - intros n H. apply Tp. right. right. left. exact H.
  - intros p l H. apply Tp. right. right. right. exists l. exact H.
  - intros last E. apply (O E).
  - intros n H. apply Dc. left. exact H.
  - intros p l H. apply (Dc p). right. exists l. exact H.
  - exact Mx.
  - intros n H. apply (Dc n). left. exact H.
  - intros p l H. apply (Dc p). right. exists l. exact H.
  - exact Ls.
Qed.

Lemma win_recs s rs ck : Win s -> Win (State (W s) (owner s) (mems s) rs ck (interval s) (gap_ms s)).
Proof. intros I. apply win_intro. intros m. exact (win_at s m I). Qed.

(* member m's record and, through m's own LeaderTxn only, the window are rewritten *)
Lemma win_local s m w x' :
  Win s -> (w = W s \/ owner s = Some m) -> opt_le (W s) w ->
  win_mem w x' -> (owner s = Some m -> win_own w x') -> Win (local_state s m w x').
Proof.
  intros I Hw Hle Hm Ho. apply win_intro. intros m'. cbn. unfold upd_f.
  destruct (Nat.eqb_spec m' m) as [->|Hne]; [split; assumption|].
  destruct (win_at s m' I) as [Im Io]. split; [eapply win_mem_raise; eassumption|].
  intros E. destruct Hw as [->|E']; [exact (Io E)|congruence].
Qed.

Lemma saved_above_mono x y t : saved_above x t -> opt_le (last_saved x) (last_saved y) -> saved_above y t.
Proof.
  intros (sv & E & H). rewrite E. destruct (last_saved y) as [sv'|] eqn:Ey; cbn; [|tauto].
  intros L. exists sv'. split; [exact Ey|lia].
Qed.

(* nobody is between its decision and its save *)
Definition quiet (x : mem) : Prop := forall n, ~ deciding x n.

Lemma quiet_save_busy x : save_busy x = false -> quiet x.
Proof.
  unfold save_busy. intros H n [E|(l & E)]; rewrite E in H; destruct (syn x); try discriminate; destruct (upd x); discriminate.
Qed.

Lemma win_mem_sub w x x' :
  win_mem w x -> last_saved x' = last_saved x -> unsure x' = unsure x -> upd x' = upd x -> ur x' = ur x ->
  (forall t, top x' t -> top x t) -> win_mem w x'.
Proof.
  intros (Le & Tp & Dc & Mx & Ls) E1 E2 E3 E4 Ht. unfold win_mem, saved_above, deciding, need_save. rewrite E1, E2, E3, E4.
  split; [exact Le|]. split; [intros t H; exact (Tp t (Ht t H))|]. split; [exact Dc|]. split; [exact Mx|exact Ls].
Qed.

(* the call of UpdateTimestamp moves to u (or that of resetUserTimestamp, below); the record is otherwise x *)
Lemma win_mem_upd w x u :
  win_mem w x ->
  (forall n, u = UDecided n -> need_save x n = true /\ unsure x = false /\ quiet x) ->
  (forall n, u = UPendSet n -> saved_above x n) ->
  (idle_upd u = false -> exists sv, last_saved x = Some sv) -> win_mem w (with_upd x u).
Proof.
  intros (Le & Tp & Dc & Mx & Ls) Hd Hp Hl. split; [exact Le|]. split; [|split; [|split]].
  - intros t [H|[H|[H|H]]];
      [exact (Tp t (or_introl H))|exact (Tp t (or_intror (or_introl H)))|exact (Hp t H)|exact (Tp t (or_intror (or_intror (or_intror H))))].
  - intros n [H|H]; [destruct (Hd _ H) as (A & B & _); split; assumption|exact (Dc n (or_intror H))].
  - intros n p l H E. destruct (Hd _ H) as (_ & _ & Q). exact (Q p (or_intror (ex_intro _ l E))).
  - intros [H|H]; [exact (Hl H)|exact (Ls (or_intror H))].
Qed.

Lemma win_mem_ur w x u :
  win_mem w x ->
  (forall n l, u = RDeciding n l -> need_save x n = true /\ unsure x = false /\ quiet x) ->
  (forall n l, u = RSaved n l -> saved_above x n) ->
  (idle_ur u = false -> exists sv, last_saved x = Some sv) -> win_mem w (with_ur x u).
Proof.
  intros (Le & Tp & Dc & Mx & Ls) Hd Hp Hl. split; [exact Le|]. split; [|split; [|split]].
  - intros t [H|[H|[H|(l & H)]]];
      [exact (Tp t (or_introl H))|exact (Tp t (or_intror (or_introl H)))|exact (Tp t (or_intror (or_intror (or_introl H))))|exact (Hp t l H)].
  - intros n [H|(l & H)]; [exact (Dc n (or_introl H))|destruct (Hd _ _ H) as (A & B & _); split; assumption].
  - intros n p l E H. destruct (Hd _ _ H) as (_ & _ & Q). exact (Q n (or_introl E)).
  - intros [H|H]; [exact (Ls (or_introl H))|exact (Hl H)].
Qed.

Lemma win_mem_syn w x sy :
  win_mem w x -> (forall n, sy = SPendSet n -> saved_above x n) -> win_mem w (with_syn x sy).
Proof.
  intros (Le & Tp & Dc & Mx & Ls) Hp. split; [exact Le|]. split; [|split; [exact Dc|split; [exact Mx|exact Ls]]].
  intros t [H|[H|H]]; [exact (Tp t (or_introl H))|exact (Hp t H)|exact (Tp t (or_intror (or_intror H)))].
Qed.

Lemma win_mem_saved w w' x t :
  win_mem w x -> quiet x -> opt_le (last_saved x) (Some t) -> opt_le (Some t) w' -> win_mem w' (with_saved x t).
Proof.
  intros (Le & Tp & Dc & Mx & Ls) Q H1 H2. split; [exact H2|]. split; [|split; [|split]].
  - intros t0 H. apply (saved_above_mono x); [exact (Tp t0 H)|exact H1].
  - intros n H. destruct (Q n H).
  - exact Mx.
  - intros _. exists t. reflexivity.
Qed.

Lemma win_mem_unsure w x b : win_mem w x -> quiet x -> win_mem w (with_unsure x b).
Proof.
  intros (Le & Tp & Dc & Mx & Ls) Q. split; [exact Le|]. split; [exact Tp|]. split; [|split; [exact Mx|exact Ls]].
  intros n H. destruct (Q n H).
Qed.

(* refreshLastSavedTime: lastSavedTime moves up, not beyond the stored window; the uncertainty is gone *)
Lemma refreshed_saved_bounds x w :
  opt_le (last_saved x) w -> opt_le (last_saved x) (refreshed_saved x w) /\ opt_le (refreshed_saved x w) w.
Proof. unfold refreshed_saved. destruct (unsure x), w, (last_saved x); cbn; lia. Qed.

Lemma win_mem_refreshed w x : win_mem w x -> quiet x -> win_mem w (refreshed x w).
Proof.
  intros (Le & Tp & Dc & Mx & Ls) Q. destruct (refreshed_saved_bounds x w Le) as [B1 B2].
  split; [exact B2|]. split; [|split; [|split; [exact Mx|]]].
  - intros t H. apply (saved_above_mono x); [exact (Tp t H)|exact B1].
  - intros n H. destruct (Q n H).
  - intros H. destruct (Ls H) as (sv & E). cbn. rewrite E in B1. destruct (refreshed_saved x w); [eauto|destruct B1].
Qed.

Lemma win_own_keep w x x' :
  win_own w x -> last_saved x' = last_saved x -> syn x' = syn x -> unsure x' = unsure x ->
  (synced x' = true -> synced x = true) -> win_own w x'.
Proof.
  intros (A & B) E1 E2 E3 H. split; [|rewrite E2; exact B].
  intros S U. rewrite E1. rewrite E3 in U. exact (A (H S) U).
Qed.

Lemma win_own_refreshed w x :
  opt_le (last_saved x) w -> win_own w x -> synced x = true -> (exists sv, last_saved x = Some sv) ->
  exists wv, w = Some wv /\ refreshed_saved x w = Some wv.
Proof.
  intros Le (A & _) S (sv & E). unfold refreshed_saved. destruct (unsure x) eqn:U.
  - rewrite E in *. destruct w as [wv|]; cbn in Le; [|destruct Le]. exists wv. split; [reflexivity|]. f_equal. lia.
  - exact (A S eq_refl).
Qed.

Lemma need_save_false x n : need_save x n = false -> saved_above x n.
Proof.
  unfold need_save, saved_above. destruct (last_saved x) as [sv|]; [|discriminate].
  intros H. apply Z.leb_gt in H. exists sv. split; [reflexivity|lia].
Qed.

Lemma synced_of_phys x p : phys x = Some p -> synced x = true.
Proof. unfold synced. intros ->. reflexivity. Qed.
Lemma synced_of_upd x : idle_upd (upd x) = false -> synced x = true.
Proof. unfold synced. intros ->. cbn. rewrite orb_true_r. reflexivity. Qed.
Lemma synced_of_ur x : idle_ur (ur x) = false -> synced x = true.
Proof. unfold synced. intros ->. cbn. rewrite !orb_true_r. reflexivity. Qed.
Lemma synced_of_pendset x n : syn x = SPendSet n -> synced x = true.
Proof. unfold synced. intros ->. rewrite !orb_true_r. reflexivity. Qed.

Lemma set_physical_unsure x n f : unsure (set_physical x n f) = unsure x.
Proof. unfold set_physical. destruct (phys x); [destruct (0 <? _)|destruct f]; reflexivity. Qed.

Lemma set_physical_top x n f t : phys (set_physical x n f) = Some t -> t = n \/ phys x = Some t.
Proof.
  unfold set_physical. destruct (phys x) eqn:E; [destruct (0 <? _)|destruct f]; cbn; rewrite ?E; intros H; inv H; auto.
Qed.

(* a call past its read is not inside Initialize *)
Lemma not_loading s m last :
  Ctl s -> idle_upd (upd (mems s m)) = false \/ idle_ur (ur (mems s m)) = false -> syn (mems s m) <> SLoaded last.
Proof.
  intros C H E. pose proof (not_in_campaign _ _ C H) as N.
  rewrite (c_syn _ C m) in N by (rewrite E; reflexivity). discriminate N.
Qed.

(* the two ways a save is reached, and why it moves the window up *)
Lemma deciding_raises s m n :
  Cfg s -> Win s -> owner s = Some m -> deciding (mems s m) n ->
  exists w0, W s = Some w0 /\ last_saved (mems s m) = Some w0 /\ w0 < n + interval s.
Proof.
  intros G I Ho D. destruct (win_at s m I) as [(_ & _ & Dc & _) Io]. destruct (Dc _ D) as [Ns Un].
  destruct (Io Ho) as [Eq _].
  assert (Sy : synced (mems s m) = true) by (destruct D as [E|(l & E)]; [apply synced_of_upd|apply synced_of_ur]; rewrite E; reflexivity).
  destruct (Eq Sy Un) as (w0 & Ew & El). exists w0. split; [exact Ew|]. split; [exact El|].
  unfold need_save in Ns. rewrite El in Ns. apply Z.leb_le in Ns. unfold Cfg in G. lia.
Qed.

Lemma loaded_raises s m last now :
  Cfg s -> Win s -> owner s = Some m -> syn (mems s m) = SLoaded last ->
  opt_le (W s) (Some (sync_next last now + interval s)).
Proof.
  intros G I Ho E. destruct (win_at s m I) as [_ Io]. destruct (Io Ho) as [_ Ld]. rewrite (Ld _ E).
  destruct last as [l0|]; [|exact Logic.I]. pose proof (sync_next_ge l0 now). pose proof guard_pos. unfold Cfg in G. unfold opt_le. lia.
Qed.

Lemma win_mtr s m l w x' :
  Ctl s -> Cfg s -> Win s -> mtr s m l w x' ->
  (w = W s \/ owner s = Some m) /\ opt_le (W s) w /\ win_mem w x' /\ (owner s = Some m -> win_own w x').
Proof.
  intros C G I T. destruct (win_at s m I) as [M O]. pose proof M as (Le & Tp & Dc & Mx & Ls).
  assert (unchanged_window : forall x0, win_mem (W s) x0 -> (owner s = Some m -> win_own (W s) x0) ->
            (W s = W s \/ owner s = Some m) /\ opt_le (W s) (W s) /\ win_mem (W s) x0 /\ (owner s = Some m -> win_own (W s) x0))
    by (intros x0 A B; split; [left; reflexivity|split; [apply opt_le_refl|split; assumption]]).
  destruct T.
  - apply unchanged_window; [exact M|exact O].
  - apply unchanged_window; [exact M|exact O].
  - (* Initialize loads the window it will build on *)
    apply unchanged_window.
    + apply (win_mem_syn (W s) (mems s m) (SLoaded (W s)) M). discriminate.
    + intros Ho. destruct (O Ho) as (A & _). split; [|intros last E; inv E; reflexivity].
      intros S U. apply A; [|exact U]. unfold synced in *. cbn in S. rewrite Hsyn. exact S.
  - (* Initialize saves: the member is in CIniting, its memory is empty and no other call of it is in flight *)
    destruct (initing s m C) as (_ & Hn & Hu & Hr); [rewrite Hsyn; reflexivity|].
    assert (Q : quiet (mems s m)) by (intros n [E|(l & E)]; congruence).
    assert (F : win_mem (W s) (with_ctl (with_syn (after_failed_save (mems s m) o) SIdle) CFailed)).
    { apply (win_mem_syn (W s) (after_failed_save (mems s m) o) SIdle); [apply win_mem_unsure; assumption|discriminate]. }
    assert (FO : forall w0, win_own w0 (with_ctl (with_syn (after_failed_save (mems s m) o) SIdle) CFailed)).
    { intros w0. split; [|discriminate]. intros S. unfold synced in S. cbn in S. rewrite Hn, Hu, Hr in S. discriminate S. }
    inversion Hput as [o'|Ho|Ho]; subst.
    + split; [left; reflexivity|]. split; [apply opt_le_refl|]. split; [exact F|intros _; apply FO].
    + pose proof (loaded_raises s m last now G I Ho Hsyn) as R. fold next t in R.
      split; [right; exact Ho|]. split; [exact R|]. split.
      * apply win_mem_syn.
        -- apply (win_mem_saved (W s)); [exact M|exact Q|eapply opt_le_trans; eassumption|apply opt_le_refl].
        -- intros n E. inv E. exists t. split; [reflexivity|]. unfold Cfg in G. subst t. lia.
      * intros _. split; [|discriminate]. intros _ _. exists t. split; reflexivity.
    + pose proof (loaded_raises s m last now G I Ho Hsyn) as R. fold next t in R.
      split; [right; exact Ho|]. split; [exact R|]. split; [eapply win_mem_raise; eassumption|intros _; apply FO].
  - (* Initialize sets the memory *)
    destruct (initing s m C) as (_ & Hn & _); [rewrite Hsyn; reflexivity|].
    unfold set_physical. rewrite Hn. apply unchanged_window.
    + apply (win_mem_sub _ (mems s m)); try reflexivity; [exact M|].
      intros t [E|[E|E]]; [inv E; right; left; exact Hsyn|discriminate E|right; right; exact E].
    + intros Ho. destruct (O Ho) as (A & _). split; [|discriminate].
      intros _ U. exact (A (synced_of_pendset _ _ Hsyn) U).
  - destruct (Tp p (or_introl Hphys)) as (sv & Es & _).
    apply unchanged_window.
    + apply win_mem_upd; [exact M|discriminate|discriminate|intros _; eauto].
    + intros Ho. apply (win_own_keep _ (mems s m)); [exact (O Ho)|reflexivity..|intros _; exact (synced_of_phys _ _ Hphys)].
  - (* the decision, after the read-back of the window *)
    assert (Hi : idle_upd (upd (mems s m)) = false) by (rewrite Hupd; reflexivity).
    pose proof (quiet_save_busy _ Hbusy) as Q. pose proof (win_mem_refreshed _ _ M Q) as My. fold y in My.
    assert (Ey : exists sv, last_saved y = Some sv) by (destruct My as (_ & _ & _ & _ & L); apply L; left; exact Hi).
    apply unchanged_window.
    + destruct (need_save y next) eqn:N.
      * apply win_mem_upd; [exact My| |discriminate|intros _; exact Ey]. intros n E. inv E. split; [exact N|split; [reflexivity|exact Q]].
      * apply win_mem_upd; [exact My|discriminate| |intros _; exact Ey]. intros n E. inv E. apply need_save_false, N.
    + intros Ho. split; [|exact (proj2 (O Ho))]. intros _ _.
      exact (win_own_refreshed _ _ Le (O Ho) (synced_of_upd _ Hi) (Ls (or_introl Hi))).
  - (* the save of UpdateTimestamp: drop the decider, record the save (or the uncertainty), announce the pending set *)
    assert (Hi : idle_upd (upd (mems s m)) = false) by (rewrite Hupd; reflexivity).
    assert (D : deciding (mems s m) next) by (left; exact Hupd). destruct (Dc _ D) as [_ Un].
    assert (Q1 : quiet (with_upd (mems s m) UIdle)) by (intros n [E|(l & E)]; [discriminate E|exact (Mx _ _ _ Hupd E)]).
    assert (M1 : win_mem (W s) (with_upd (mems s m) UIdle)) by (apply win_mem_upd; [exact M|discriminate..]).
    pose proof (win_mem_unsure _ _ (match o with Ok => unsure (mems s m) | _ => true end) M1 Q1) as F.
    assert (Nl : forall w0 last, syn (mems s m) = SLoaded last -> w0 = last)
      by (intros w0 last E; destruct (not_loading s m last C (or_introl Hi) E)).
    inversion Hput as [o'|Ho|Ho]; subst.
    + split; [left; reflexivity|]. split; [apply opt_le_refl|]. split; [exact F|].
      intros Ho. split; [|apply Nl]. intros _ _. exact (proj1 (O Ho) (synced_of_upd _ Hi) Un).
    + destruct (deciding_raises s m next G I Ho D) as (w0 & Ew & El & Lt). fold t in Lt.
      assert (R : opt_le (W s) (Some t)) by (rewrite Ew; cbn; lia).
      split; [right; exact Ho|]. split; [exact R|]. split.
      * assert (M2 : win_mem (Some t) (with_saved (with_upd (mems s m) UIdle) t)).
        { apply (win_mem_saved (W s)); [exact M1|exact Q1|cbn; rewrite El; cbn; lia|apply opt_le_refl]. }
        apply (win_mem_upd _ _ (UPendSet next)) in M2; [exact M2|discriminate| |intros _; exists t; reflexivity].
        intros n E. inv E. exists t. split; [reflexivity|]. unfold Cfg in G. subst t. lia.
      * intros _. split; [|apply Nl]. intros _ _. exists t. split; reflexivity.
    + destruct (deciding_raises s m next G I Ho D) as (w0 & Ew & El & Lt). fold t in Lt.
      assert (R : opt_le (W s) (Some t)) by (rewrite Ew; cbn; lia).
      split; [right; exact Ho|]. split; [exact R|]. split; [exact (win_mem_raise _ _ _ F R)|].
      intros _. split; [|apply Nl]. intros _ U. discriminate U.
  - (* setTSOPhysical: the memory moves to a time the save has covered *)
    assert (Hi : idle_upd (upd (mems s m)) = false) by (rewrite Hupd; reflexivity).
    destruct (set_physical_fields (mems s m) next false) as (_ & F2 & F3 & F4 & _ & F6).
    pose proof (set_physical_unsure (mems s m) next false) as F7.
    apply unchanged_window.
    + apply win_mem_upd; [|discriminate..].
      apply (win_mem_sub _ (mems s m)); [exact M|exact F6|exact F7|exact F3|exact F4|].
      intros t [E|[E|[E|E]]].
      * apply set_physical_top in E as [->|E]; [right; right; left; exact Hupd|left; exact E].
      * right; left. rewrite <- F2. exact E.
      * right; right; left. rewrite <- F3. exact E.
      * right; right; right. rewrite <- F4. exact E.
    + intros Ho. apply (win_own_keep _ (mems s m)); [exact (O Ho)|exact F6|exact F2|exact F7|intros _; exact (synced_of_upd _ Hi)].
  - destruct (Tp p (or_introl Hphys)) as (sv & Es & _).
    apply unchanged_window.
    + apply win_mem_ur; [exact M|discriminate|discriminate|intros _; eauto].
    + intros Ho. apply (win_own_keep _ (mems s m)); [exact (O Ho)|reflexivity..|intros _; exact (synced_of_phys _ _ Hphys)].
  - assert (Hi : idle_ur (ur (mems s m)) = false) by (rewrite Hur; reflexivity).
    pose proof (quiet_save_busy _ Hbusy) as Q. pose proof (win_mem_refreshed _ _ M Q) as My. fold y in My.
    assert (Ey : exists sv, last_saved y = Some sv) by (destruct My as (_ & _ & _ & _ & L); apply L; right; exact Hi).
    apply unchanged_window.
    + destruct (need_save y p) eqn:N.
      * apply win_mem_ur; [exact My| |discriminate|intros _; exact Ey]. intros n l0 E. inv E. split; [exact N|split; [reflexivity|exact Q]].
      * apply win_mem_ur; [exact My|discriminate| |intros _; exact Ey]. intros n l0 E. inv E. apply need_save_false, N.
    + intros Ho. split; [|exact (proj2 (O Ho))]. intros _ _.
      exact (win_own_refreshed _ _ Le (O Ho) (synced_of_ur _ Hi) (Ls (or_intror Hi))).
  - assert (Hi : idle_ur (ur (mems s m)) = false) by (rewrite Hur; reflexivity).
    assert (D : deciding (mems s m) p) by (right; exists l; exact Hur). destruct (Dc _ D) as [_ Un].
    assert (Q1 : quiet (with_ur (mems s m) RIdle)) by (intros n [E|(l0 & E)]; [exact (Mx _ _ _ E Hur)|discriminate E]).
    assert (M1 : win_mem (W s) (with_ur (mems s m) RIdle)) by (apply win_mem_ur; [exact M|discriminate..]).
    pose proof (win_mem_unsure _ _ (match o with Ok => unsure (mems s m) | _ => true end) M1 Q1) as F.
    assert (Nl : forall w0 last, syn (mems s m) = SLoaded last -> w0 = last)
      by (intros w0 last E; destruct (not_loading s m last C (or_intror Hi) E)).
    inversion Hput as [o'|Ho|Ho]; subst.
    + split; [left; reflexivity|]. split; [apply opt_le_refl|]. split; [exact F|].
      intros Ho. split; [|apply Nl]. intros _ _. exact (proj1 (O Ho) (synced_of_ur _ Hi) Un).
    + destruct (deciding_raises s m p G I Ho D) as (w0 & Ew & El & Lt). fold t in Lt.
      assert (R : opt_le (W s) (Some t)) by (rewrite Ew; cbn; lia).
      split; [right; exact Ho|]. split; [exact R|]. split.
      * assert (M2 : win_mem (Some t) (with_saved (with_ur (mems s m) RIdle) t)).
        { apply (win_mem_saved (W s)); [exact M1|exact Q1|cbn; rewrite El; cbn; lia|apply opt_le_refl]. }
        apply (win_mem_ur _ _ (RSaved p l)) in M2; [exact M2|discriminate| |intros _; exists t; reflexivity].
        intros n l0 E. inv E. exists t. split; [reflexivity|]. unfold Cfg in G. subst t. lia.
      * intros _. split; [|apply Nl]. intros _ _. exists t. split; reflexivity.
    + destruct (deciding_raises s m p G I Ho D) as (w0 & Ew & El & Lt). fold t in Lt.
      assert (R : opt_le (W s) (Some t)) by (rewrite Ew; cbn; lia).
      split; [right; exact Ho|]. split; [exact R|]. split; [exact (win_mem_raise _ _ _ F R)|].
      intros _. split; [|apply Nl]. intros _ U. discriminate U.
  - (* the reset writes the memory: a time its save has covered *)
    assert (Hi : idle_ur (ur (mems s m)) = false) by (rewrite Hur; reflexivity).
    apply unchanged_window.
    + apply (win_mem_ur _ (Mem (Some p) l (last_saved (mems s m)) (valid (mems s m)) (ctl (mems s m)) (syn (mems s m))
                                (upd (mems s m)) (ur (mems s m)) (unsure (mems s m))) RIdle); [|discriminate..].
      apply (win_mem_sub _ (mems s m)); try reflexivity; [exact M|].
      intros t [E|E]; [inv E; right; right; right; exists l; exact Hur|right; exact E].
    + intros Ho. apply (win_own_keep _ (mems s m)); [exact (O Ho)|reflexivity..|intros _; exact (synced_of_ur _ Hi)].
  - apply unchanged_window.
    + apply (win_mem_sub _ (mems s m)); try reflexivity; [exact M|]. intros t [E|E]; [discriminate E|right; exact E].
    + intros Ho. apply (win_own_keep _ (mems s m)); [exact (O Ho)|reflexivity..|].
      intros S. unfold synced in *. cbn in S. destruct (phys (mems s m)); [reflexivity|exact S].
  - apply unchanged_window.
    + apply (win_mem_sub _ (mems s m)); try reflexivity; [exact M|]. intros t [E|E]; [discriminate E|right; exact E].
    + intros Ho. apply (win_own_keep _ (mems s m)); [exact (O Ho)|reflexivity..|].
      intros S. unfold synced in *. cbn in S. destruct (phys (mems s m)); [reflexivity|exact S].
  - assert (Hi : idle_upd (upd (mems s m)) = false) by (rewrite Hupd; reflexivity).
    apply unchanged_window.
    + apply win_mem_upd; [exact M|discriminate..].
    + intros Ho. apply (win_own_keep _ (mems s m)); [exact (O Ho)|reflexivity..|intros _; exact (synced_of_upd _ Hi)].
  - assert (Hi : idle_ur (ur (mems s m)) = false) by (rewrite Hur; reflexivity).
    apply unchanged_window.
    + apply win_mem_ur; [exact M|discriminate..].
    + intros Ho. apply (win_own_keep _ (mems s m)); [exact (O Ho)|reflexivity..|intros _; exact (synced_of_ur _ Hi)].
Qed.

Lemma win_step0 s l s' :
  Ctl s -> Cfg s -> Win s -> step0 s l = Some s' -> Win s'.
Proof.
  intros C G I H. apply step0_tr in H.
  destruct H as [l | l m w x' T | m Ho Hb | m Ho Hv | m count p Hp Hl Hc | m i r Hn Hm Hpd].
  - exact I.
  - destruct (win_mtr _ _ _ _ _ C G I T) as (A & B & M & O). apply win_local; assumption.
  - (* the elected member has nothing in flight and an empty memory: the owner's clauses say nothing *)
    destruct (not_busy s m C Hb) as (_ & His & Hiu & Hir & _ & Hn).
    apply win_intro. intros m'. cbn. unfold upd_f. destruct (Nat.eqb_spec m' m) as [->|Hne].
    + split; [exact (proj1 (win_at s m I))|]. intros _. split.
      * intros S. unfold synced in S. cbn in S. rewrite Hn, Hiu, Hir in S. destruct (syn (mems s m)); discriminate.
      * intros last E. cbn in E. rewrite E in His. discriminate His.
    + split; [exact (proj1 (win_at s m' I))|]. intros E. congruence.
  - apply win_intro. intros m'. split; [exact (proj1 (win_at s m' I))|discriminate].
  - subst x l1. destruct (win_at s m I) as [M O].
    apply (win_recs (local_state s m (W s) _)). apply win_local; [exact I|left; reflexivity|apply opt_le_refl| |].
    + apply (win_mem_sub _ (mems s m)); try reflexivity; [exact M|].
      intros t [E|E]; [left; rewrite Hp; exact E|right; exact E].
    + intros Ho. apply (win_own_keep _ (mems s m)); [exact (O Ho)|reflexivity..|intros _; exact (synced_of_phys _ _ Hp)].
  - exact (win_recs s _ _ I).
Qed.

(* the stored window never decreases, whatever the storage outcomes *)
Lemma wmono_step0 s l s' :
  Ctl s -> Cfg s -> Win s -> step0 s l = Some s' -> opt_le (W s) (W s').
Proof.
  intros C G I H. apply step0_tr in H. destruct H as [| l m w x' T | | | |]; try apply opt_le_refl.
  exact (proj1 (proj2 (win_mtr _ _ _ _ _ C G I T))).
Qed.
