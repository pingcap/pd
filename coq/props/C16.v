(* C16 — Followers converge to the leader's region view through region sync.
   Statements, each derived in a few lines from proof/C16_BufferProof.v, proof/C16_SyncProof.v, proof/C16_Skel.v.

   Quantification.  Buffer: every capacity `cap` (newHistoryBuffer turns it into size = max(cap+1, 2)),
   every operation list over Record (with the outcome of the storage write it may trigger), RecordsFrom,
   ResetWithIndex, GetNextIndex, firstIndex and Restart (a new buffer over the same storage, with the
   outcome of its Load) — wrap-around, overflow and exact fill are histories of that shape.
   Sync: every leader region set (any size: 0, 1, one batch, several batches, not a multiple of the
   batch size), with or without leaders.
   Assumptions (checks/C16.json): the next index stays below 2^64; nobody else writes "historyIndex"; within one
   stream gRPC delivers whole messages in order.  Sections 1 and 2 take an unbroken stream and a follower whose
   SaveRegion succeeds; section 3 quantifies over streams cut between any two messages and over failing saves. *)
From Coq Require Import String.
From PDV Require Import lib.Base gen.Gen_C16 model.C16_Syncer proof.C16_BufferProof proof.C16_SyncProof proof.C16_Skel.
Local Open Scope Z_scope.
Local Open Scope list_scope.

(* ------------------------------------------------------------------------------------------ *)
(* 1. the change log                                                                          *)
(* ------------------------------------------------------------------------------------------ *)
(* The ring buffer is observationally the log specification `arun_op`: base index + everything recorded
   since the last reset/restart; every operation returns the same answer. *)
Theorem C16_ring_refines_log :
  forall (A : Type) cap (ops : list (bop A)),
    run brun_op (binit cap) ops = run arun_op (ainit cap) ops.
Proof. intros A cap ops. exact (proj1 (sim_run ops _ _ (rel_init cap))). Qed.

(* Inside the window [first, next) — the last min(capacity, |log|) indexes — RecordsFrom returns exactly the
   records from that index to the newest, in order; outside it returns nothing. *)
Theorem C16_records_from_exact :
  forall (A : Type) cap (ops : list (bop A)) i,
    let s := run_state brun_op (binit cap) ops in
    let a := run_state arun_op (ainit cap) ops in
    next_index (buf s) = a_next a /\ first_index (buf s) = a_first a /\
    (a_first a <= i < a_next a ->
       records_from (buf s) i = Some (map Some (skipn (Z.to_nat (i - a_base a)) (a_log a)))) /\
    (~ (a_first a <= i < a_next a) -> records_from (buf s) i = Some []).
Proof. exact (@records_from_exact_pf). Qed.

Theorem C16_window_is_last_cap_records :
  forall (A : Type) (a : aspec A), 0 <= a_cap a ->
    a_next a - a_first a = Z.min (a_cap a) (Z.of_nat (length (a_log a))).
Proof. intros A a H. unfold a_first, a_next. lia. Qed.

(* The next index survives a restart without going back by more than the flush interval of 100 records: for every
   fault-free history, ResetWithIndex included (it persists the index it sets, /repo 3a92c2a; the Example
   C16_reset_then_restart_keeps_index below is the history [OReset 1000000] that depends on it). *)
Theorem C16_restart_index_lag :
  forall (A : Type) cap (ops : list (bop A)) cap',
    faultfree ops = true ->
    let s := run_state brun_op (binit cap) ops in
    next_index (buf (restart s cap' true)) >= next_index (buf s) - 100.
Proof.
  intros A cap ops cap' Hf s. destruct (faultfree_ctl ops Hf) as [Hc F].
  destruct (restart_lag_exact cap ops cap' Hc) as (Hl & _ & E). fold s in E. rewrite F in E.
  unfold flush_every in *. rewrite flush_count_is_100 in *. lia.
Qed.

(* and with failing storage writes: exactly 100 more per flush whose write failed since the last successful persist
   (resets persist and restarts load; the write a Record may trigger is arbitrary) *)
Theorem C16_restart_index_lag_with_failed_flushes :
  forall (A : Type) cap (ops : list (bop A)) cap',
    ctl_ok ops = true ->
    let s := run_state brun_op (binit cap) ops in
    let g := failed_flushes (ainit cap) 0 ops in
    0 <= g /\ next_index (buf (restart s cap' true)) > next_index (buf s) - 100 * (1 + g).
Proof.
  intros A cap ops cap' Hc s g. destruct (restart_lag_exact cap ops cap' Hc) as (Hf & Hg & E). fold s g in Hg, E.
  unfold flush_every in *. rewrite flush_count_is_100 in *. split; [exact Hg|lia].
Qed.

Example C16_reset_then_restart_keeps_index :
  run brun_op (binit 10) [ORecord 1 true; OReset 1000000 true; ORecord 2 true; ONext; ORestart 10 true]
  = [BUnit; BUnit; BUnit; BIdx 1000001; BIdx 1000000].
Proof. vm_compute. reflexivity. Qed.

(* ------------------------------------------------------------------------------------------ *)
(* 2. the sync stream                                                                         *)
(* ------------------------------------------------------------------------------------------ *)
(* Full synchronisation: a follower with an empty cache that applies the messages the leader sends for its region
   set holds, for every region sent, the leader's range, peers, leader and flow statistics — however many regions
   and batches.  (All three accumulators of the batching loop are truncated after a send, `leaders` since /repo
   4d83d3b; the Example C16_sync_nonvacuous below is a set of 101 regions, two batches.) *)
Theorem C16_follower_equals_leader_for_sent :
  forall cap kv regions,
    region_set regions -> leaders_valid regions ->
    let f := fold_left apply_msg (full_sync_impl regions) (finit cap kv) in
    forall r, In r regions -> find_id (f_cache f) (m_id (meta r)) = Some r.
Proof. exact follower_equals_leader_for_sent_pf. Qed.

(* the same for the loop with any batch size and any truncation list that contains all three accumulators *)
Theorem C16_follower_equals_leader_if_all_truncated :
  forall trunc batch cap kv regions,
    all_truncated trunc -> region_set regions -> leaders_valid regions ->
    let f := fold_left apply_msg (full_sync trunc batch regions) (finit cap kv) in
    forall r, In r regions -> find_id (f_cache f) (m_id (meta r)) = Some r.
Proof. exact follower_equals_leader_if_all_truncated_pf. Qed.

(* the code as it is resets all of them (regenerated from syncHistoryRegion on every run) *)
Theorem C16_code_truncates : Gen_C16.full_sync_truncated = ["Regions"; "RegionStats"; "RegionLeaders"]%string.
Proof. exact full_sync_truncated_ok. Qed.

(* Incremental synchronisation: the follower applies exactly the leader's change sequence, so a follower
   whose cache is the result of the first part of the sequence ends with the result of the whole. *)
Theorem C16_incremental_sync_converges :
  forall c0 pre suf start f, leaders_valid suf ->
    f_cache f = fold_left check_and_put pre c0 ->
    f_cache (apply_msg f (incr_msg start suf)) = fold_left check_and_put (pre ++ suf) c0.
Proof. intros c0 pre suf start f Hv Hf. rewrite incremental_sync_replays_pf, Hf, fold_left_app by exact Hv. reflexivity. Qed.

(* which answer the leader gives: inside the window the one incremental message with the suffix of the
   log; index 0 below the window the full synchronisation *)
Theorem C16_sync_history_incremental :
  forall cap ops regions start,
    let s := run_state brun_op (binit cap) ops in
    let a := run_state (@arun_op rinfo) (ainit cap) ops in
    a_first a <= start < a_next a ->
    sync_history (buf s) regions start =
    (KIncr, [incr_msg start (skipn (Z.to_nat (start - a_base a)) (a_log a))]).
Proof. exact sync_history_incremental_pf. Qed.

Theorem C16_sync_history_full :
  forall cap ops regions,
    let s := run_state brun_op (binit cap) ops in
    let a := run_state (@arun_op rinfo) (ainit cap) ops in
    0 < a_first a ->
    sync_history (buf s) regions 0 = (KFull, full_sync_impl regions).
Proof. exact sync_history_full_pf. Qed.

(* after a message the follower's next index is the message's start index + the regions it carried *)
Theorem C16_follower_index_after_msg :
  forall f m, next_index (buf (f_hist (apply_msg f m))) = g_start m + Z.of_nat (length (g_regions m)).
Proof.
  intros f m.
  rewrite apply_msg_ok_nil, follower_index_after_msg_ok_pf. f_equal. f_equal.
  unfold decode. rewrite <- (decode_from_length m (g_regions m) 0). generalize (decode_from m 0 (g_regions m)) as rs.
  induction rs as [|r rs IH]; cbn [with_oks filter snd length]; [reflexivity|]. rewrite IH. reflexivity.
Qed.

(* the broadcast path: RunServer's batches (first + up to 100 pending notifications each) decode to the
   notified regions, so the follower replays exactly the notified change sequence *)
Theorem C16_broadcast_replays :
  forall next pending f, leaders_valid pending ->
    f_cache (fold_left apply_msg (run_server_batches (S (length pending)) next pending) f) =
    fold_left check_and_put pending (f_cache f).
Proof.
  intros next pending f Hv. rewrite cache_apply_msgs, run_server_decodes, map_norm_valid by (exact Hv || lia). reflexivity.
Qed.

(* full synchronisation into a follower that already holds older versions of the leader's regions (same id, same
   range, epochs not larger — what LoadRegionsOnce puts there from its own storage): the same conclusion *)
Theorem C16_full_sync_over_stale_cache :
  forall cap kv regions old,
    region_set regions -> leaders_valid regions -> older_versions old regions -> region_set old ->
    let f0 := finit cap kv in
    let f := fold_left apply_msg (full_sync_impl regions) (FS old (f_saved f0) (f_hist f0)) in
    forall r, In r regions -> find_id (f_cache f) (m_id (meta r)) = Some r.
Proof.
  intros cap kv regions old Hs Hv Ho _. exact (full_sync_over_stale_cache_pf _ _ cap kv regions old code_all_truncated Hs Hv Ho).
Qed.

(* ------------------------------------------------------------------------------------------ *)
(* 3. stream faults                                                                           *)
(* ------------------------------------------------------------------------------------------ *)
(* Any number of sessions, each cut after any number of delivered messages (the stream broke, the leader restarted,
   the follower reconnected with whatever index it had reached), any of the follower's own SaveRegion calls failing:
   the follower's cache is the replay, in order, of exactly the regions that were delivered. *)
Theorem C16_sessions_replay :
  forall ss f, f_cache (fold_left run_session ss f) = fold_left check_and_put (concat (map delivered ss)) (f_cache f).
Proof. apply (cache_fold run_session delivered). intros f s. apply cache_run_msgs_ok. Qed.

(* A full synchronisation cut after any number of batches: the follower holds exactly a prefix of the leader's region
   list, every region of it with the leader's range, peers, leader and statistics. *)
Theorem C16_cut_full_sync :
  forall cap kv regions k fails,
    region_set regions -> leaders_valid regions ->
    let f := run_session (finit cap kv) (Sess (full_sync_impl regions) k fails) in
    exists j, f_cache f = rev (firstn j regions) /\
              forall r, In r (firstn j regions) -> find_id (f_cache f) (m_id (meta r)) = Some r.
Proof. exact cut_full_sync_pf. Qed.

(* Convergence after reconnection: wherever the first attempt was cut, a later full synchronisation that completes
   leaves the follower with every region of the leader. *)
Theorem C16_reconnect_full_sync_converges :
  forall cap kv regions k fails fails2,
    region_set regions -> leaders_valid regions ->
    let f1 := run_session (finit cap kv) (Sess (full_sync_impl regions) k fails) in
    let ms := full_sync_impl regions in
    let f2 := run_session f1 (Sess ms (length ms) fails2) in
    forall r, In r regions -> find_id (f_cache f2) (m_id (meta r)) = Some r.
Proof. exact reconnect_full_sync_converges_pf. Qed.

(* the follower's index after a message with failing saves: start index + the saves that succeeded (so the next
   message finds a mismatch and resets it) *)
Theorem C16_follower_index_with_failed_saves :
  forall f m oks,
    next_index (buf (f_hist (apply_msg_ok f m oks))) =
    g_start m + Z.of_nat (length (filter snd (with_oks (decode m) oks))).
Proof. exact follower_index_after_msg_ok_pf. Qed.

(* non-vacuity: a capacity-3 buffer that wraps twice, is read at both window edges, reset and restarted *)
Example C16_buffer_nonvacuous :
  run brun_op (binit 3)
      [ORecord 10 true; ORecord 11 true; ORecord 12 true; ORecord 13 true; ORecord 14 true;
       OFirst; ONext; OFrom 1; OFrom 2; OFrom 4; OFrom 5; OReset 7 true; ORecord 15 true; OFrom 7; ORestart 3 true]
  = [BUnit; BUnit; BUnit; BUnit; BUnit; BIdx 2; BIdx 5; BRecs []; BRecs [Some 12; Some 13; Some 14];
     BRecs [Some 14]; BRecs []; BUnit; BUnit; BRecs [Some 15]; BIdx 7].
Proof. vm_compute. reflexivity. Qed.

(* non-vacuity: the hypotheses of the sync theorems are satisfiable by a set of more than one batch *)
Example C16_sync_nonvacuous :
  region_set witness_regions /\ leaders_valid witness_regions /\ length witness_regions = 101%nat /\
  length (full_sync_impl witness_regions) = 2%nat /\
  (* the former S7 witness: region 101 of the second batch arrives with its own leader *)
  (let f := fold_left apply_msg (full_sync_impl witness_regions) (finit 10000 None) in
   option_map leader (find_id (f_cache f) 101) = Some (Some (Peer 1101 1 false))).
Proof.
  split; [exact witness_region_set|]. split; [exact witness_leaders_valid|]. split; [reflexivity|].
  split; [vm_compute; reflexivity|exact witness_aligned].
Qed.

Print Assumptions C16_ring_refines_log.
Print Assumptions C16_records_from_exact.
Print Assumptions C16_window_is_last_cap_records.
Print Assumptions C16_restart_index_lag.
Print Assumptions C16_restart_index_lag_with_failed_flushes.
Print Assumptions C16_sessions_replay.
Print Assumptions C16_cut_full_sync.
Print Assumptions C16_reconnect_full_sync_converges.
Print Assumptions C16_follower_index_with_failed_saves.
Print Assumptions C16_follower_equals_leader_for_sent.
Print Assumptions C16_follower_equals_leader_if_all_truncated.
Print Assumptions C16_code_truncates.
Print Assumptions C16_incremental_sync_converges.
Print Assumptions C16_sync_history_incremental.
Print Assumptions C16_sync_history_full.
Print Assumptions C16_follower_index_after_msg.
Print Assumptions C16_broadcast_replays.
Print Assumptions C16_full_sync_over_stale_cache.
