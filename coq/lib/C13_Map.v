(* Sorted association lists as finite maps: lookup after insert / delete / filter / value map,
   extensionality, and the effect of applying a list of writes.  Generic in the key comparison
   (a "good" comparison of lib/C12_Order.v whose Eq is equality).  No axioms. *)
From Coq Require Import List Bool Sorting.Sorted.
From PDV Require Import lib.C07_List lib.C12_Order.
Import ListNotations.

Section AMapDefs.
  Context {K V : Type} (cmp : K -> K -> comparison).
  Fixpoint aget (k : K) (m : list (K * V)) : option V :=
    match m with
    | [] => None
    | (k', v) :: r => match cmp k k' with Eq => Some v | _ => aget k r end
    end.
  Fixpoint aset (k : K) (v : V) (m : list (K * V)) : list (K * V) :=
    match m with
    | [] => [(k, v)]
    | (k', v') :: r => match cmp k k' with
                       | Lt => (k, v) :: m
                       | Eq => (k, v) :: r
                       | Gt => (k', v') :: aset k v r
                       end
    end.
  Fixpoint adel (k : K) (m : list (K * V)) : list (K * V) :=
    match m with
    | [] => []
    | (k', v') :: r => match cmp k k' with Eq => r | _ => (k', v') :: adel k r end
    end.
End AMapDefs.

Lemma filter_twice {A} (f : A -> bool) l : filter f (filter f l) = filter f l.
Proof. apply filter_true_id. intros x Hx. apply filter_In in Hx as [_ Hx]. exact Hx. Qed.

Section AMap.
  Context {K : Type} (cmp : K -> K -> comparison) (G : good cmp).
  Hypothesis cmp_eq : forall a b, cmp a b = Eq -> a = b.

  Definition klt (a b : K) : Prop := cmp a b = Lt.
  Definition asorted {V} (m : list (K * V)) : Prop := StronglySorted (fun a b => klt (fst a) (fst b)) m.
  Definition keqb (a b : K) : bool := match cmp a b with Eq => true | _ => false end.

  Lemma keqb_eq a b : keqb a b = true <-> a = b.
  Proof.
    unfold keqb. split.
    - destruct (cmp a b) eqn:E; try discriminate. intros _. apply cmp_eq; exact E.
    - intros ->. rewrite (g_refl cmp G). reflexivity.
  Qed.
  Lemma klt_irrefl a : ~ klt a a.
  Proof. unfold klt. rewrite (g_refl cmp G). discriminate. Qed.

  Lemma keqb_sym a b : keqb a b = keqb b a.
  Proof.
    destruct (keqb a b) eqn:E1; destruct (keqb b a) eqn:E2; try reflexivity.
    - apply keqb_eq in E1. subst. rewrite (proj2 (keqb_eq b b) eq_refl) in E2. discriminate.
    - apply keqb_eq in E2. subst. rewrite (proj2 (keqb_eq a a) eq_refl) in E1. discriminate.
  Qed.

  Section V.
    Context {V : Type}.
    Implicit Types m : list (K * V).

    Lemma aget_lt_all k m : (forall x, In x m -> klt k (fst x)) -> aget cmp k m = None.
    Proof.
      induction m as [|[k' v'] r IH]; intros H; cbn; [reflexivity|].
      pose proof (H (k', v') (or_introl eq_refl)) as E. cbn in E. unfold klt in E. rewrite E.
      apply IH. intros x Hx. apply H. right; exact Hx.
    Qed.

    Lemma aget_gt_all k m : (forall x, In x m -> klt (fst x) k) -> aget cmp k m = None.
    Proof.
      induction m as [|[k' v'] r IH]; intros H; cbn; [reflexivity|].
      pose proof (H (k', v') (or_introl eq_refl)) as E. cbn in E. unfold klt in E.
      rewrite (g_anti cmp G k' k), E. cbn. apply IH. intros x Hx. apply H. right; exact Hx.
    Qed.

    Lemma aset_gt_all k v m : (forall x, In x m -> klt (fst x) k) -> aset cmp k v m = m ++ [(k, v)].
    Proof.
      induction m as [|[k' v'] r IH]; intros H; cbn; [reflexivity|].
      pose proof (H (k', v') (or_introl eq_refl)) as E. cbn in E. unfold klt in E.
      rewrite (g_anti cmp G k' k), E. cbn. f_equal. apply IH. intros x Hx. apply H. right; exact Hx.
    Qed.

    Lemma aget_In k v m : aget cmp k m = Some v -> In (k, v) m.
    Proof.
      induction m as [|[k' v'] r IH]; cbn; [discriminate|].
      destruct (cmp k k') eqn:E; [|right; auto|right; auto].
      intros H. inversion H; subst. apply cmp_eq in E. subst. left; reflexivity.
    Qed.

    Lemma In_aget k v m : asorted m -> In (k, v) m -> aget cmp k m = Some v.
    Proof.
      induction 1 as [|[k' v'] r S IH F]; intros Hin; [destruct Hin|].
      rewrite Forall_forall in F. cbn. destruct Hin as [E|Hin].
      - inversion E; subst. rewrite (g_refl cmp G). reflexivity.
      - pose proof (F _ Hin) as L. cbn in L. unfold klt in L.
        rewrite (g_anti cmp G k' k), L. cbn. apply IH; exact Hin.
    Qed.

    Lemma aset_In k v m x : In x (aset cmp k v m) -> x = (k, v) \/ In x m.
    Proof.
      induction m as [|[k' v'] r IH]; cbn; [intros [H|[]]; left; symmetry; exact H|].
      destruct (cmp k k'); cbn.
      - intros [H|H]; [left; symmetry; exact H|right; right; exact H].
      - intros [H|H]; [left; symmetry; exact H|right; exact H].
      - intros [H|H]; [right; left; exact H|]. destruct (IH H) as [E|E]; [left; exact E|right; right; exact E].
    Qed.

    Lemma aset_sorted k v m : asorted m -> asorted (aset cmp k v m).
    Proof.
      induction 1 as [|[k' v'] r S IH F]; cbn; [repeat constructor|].
      rewrite Forall_forall in F.
      destruct (cmp k k') eqn:E.
      - apply cmp_eq in E. subst k'. constructor; [exact S|]. rewrite Forall_forall. exact F.
      - constructor; [constructor; [exact S|rewrite Forall_forall; exact F]|].
        rewrite Forall_forall. intros x [<-|Hx]; [exact E|]. cbn. unfold klt.
        eapply (g_trans cmp G); [exact E|apply (F x Hx)].
      - constructor; [exact IH|]. rewrite Forall_forall. intros x Hx. apply aset_In in Hx as [->|Hx]; [|apply F; exact Hx].
        cbn. apply (g_gt_lt cmp G). exact E.
    Qed.

    Lemma aget_aset k v m k' : asorted m -> aget cmp k' (aset cmp k v m) = if keqb k' k then Some v else aget cmp k' m.
    Proof.
      induction 1 as [|[k0 v0] r S IH F]; cbn.
      - unfold keqb. destruct (cmp k' k); reflexivity.
      - rewrite Forall_forall in F. destruct (cmp k k0) eqn:E; cbn.
        + apply cmp_eq in E. subst k0. unfold keqb. destruct (cmp k' k); reflexivity.
        + unfold keqb. destruct (cmp k' k); reflexivity.
        + rewrite IH. unfold keqb. destruct (cmp k' k) eqn:E1; try reflexivity.
          apply cmp_eq in E1. subst k'. rewrite E. reflexivity.
    Qed.

    Lemma adel_sub k m x : In x (adel cmp k m) -> In x m.
    Proof.
      induction m as [|[k' v'] r IH]; cbn; [tauto|].
      destruct (cmp k k'); cbn; [auto| |]; (intros [H|H]; [left; exact H|right; apply IH; exact H]).
    Qed.

    Lemma adel_sorted k m : asorted m -> asorted (adel cmp k m).
    Proof.
      induction 1 as [|[k' v'] r S IH F]; cbn; [constructor|].
      destruct (cmp k k'); [exact S| |]; (constructor; [exact IH|]; rewrite Forall_forall in *; intros x Hx; apply F; eapply adel_sub; exact Hx).
    Qed.

    Lemma aget_adel k m k' : asorted m -> aget cmp k' (adel cmp k m) = if keqb k' k then None else aget cmp k' m.
    Proof.
      induction 1 as [|[k0 v0] r S IH F]; cbn.
      - destruct (keqb k' k); reflexivity.
      - rewrite Forall_forall in F. destruct (cmp k k0) eqn:E; cbn.
        + apply cmp_eq in E. subst k0. unfold keqb. destruct (cmp k' k) eqn:E1; try reflexivity.
          apply cmp_eq in E1. subst k'. apply aget_lt_all. exact F.
        + rewrite IH. unfold keqb. destruct (cmp k' k) eqn:E1; try reflexivity.
          apply cmp_eq in E1. subst k'. rewrite E. reflexivity.
        + rewrite IH. unfold keqb. destruct (cmp k' k) eqn:E1; try reflexivity.
          apply cmp_eq in E1. subst k'. rewrite E. reflexivity.
    Qed.

    Lemma asorted_ext m1 : forall m2, asorted m1 -> asorted m2 -> (forall k, aget cmp k m1 = aget cmp k m2) -> m1 = m2.
    Proof.
      induction m1 as [|[k1 v1] r1 IH]; intros m2 S1 S2 H.
      - destruct m2 as [|[k2 v2] r2]; [reflexivity|]. specialize (H k2). cbn in H. rewrite (g_refl cmp G) in H. discriminate.
      - destruct m2 as [|[k2 v2] r2]; [specialize (H k1); cbn in H; rewrite (g_refl cmp G) in H; discriminate|].
        inversion S1 as [|? ? S1' F1]; inversion S2 as [|? ? S2' F2]; subst. rewrite Forall_forall in F1, F2.
        assert (Ek : k1 = k2).
        { pose proof (H k1) as H1. pose proof (H k2) as H2. cbn in H1, H2. rewrite (g_refl cmp G) in H1, H2.
          destruct (cmp k1 k2) eqn:E; [apply cmp_eq; exact E| |].
          - (* k1 < k2: k1 is not in m2 *)
            rewrite (aget_lt_all k1 r2) in H1; [discriminate|].
            intros x Hx. unfold klt. eapply (g_trans cmp G); [exact E|apply (F2 x Hx)].
          - apply (g_gt_lt cmp G) in E. rewrite E in H2.
            rewrite (aget_lt_all k2 r1) in H2; [discriminate|].
            intros x Hx. unfold klt. eapply (g_trans cmp G); [exact E|apply (F1 x Hx)]. }
        subst k2. pose proof (H k1) as H1. cbn in H1. rewrite (g_refl cmp G) in H1. inversion H1; subst v2.
        f_equal. apply IH; [exact S1'|exact S2'|]. intros k. specialize (H k). cbn in H.
        destruct (cmp k k1) eqn:E; [|exact H|exact H].
        apply cmp_eq in E. subst k. rewrite (aget_lt_all k1 r1 F1), (aget_lt_all k1 r2 F2). reflexivity.
    Qed.

    Lemma filter_sorted (p : K * V -> bool) m : asorted m -> asorted (filter p m).
    Proof. apply StronglySorted_filter. Qed.

    Lemma asorted_NoDup_keys m : asorted m -> NoDup (map fst m).
    Proof.
      induction 1 as [|x r S IH F]; cbn; [constructor|]. constructor; [|exact IH].
      rewrite Forall_forall in F. intros Hin. apply in_map_iff in Hin as [y [E Hy]].
      apply (klt_irrefl (fst x)). rewrite <- E at 2. apply F; exact Hy.
    Qed.

    Lemma aget_filter (p : K * V -> bool) m k : asorted m ->
      aget cmp k (filter p m) = match aget cmp k m with Some v => if p (k, v) then Some v else None | None => None end.
    Proof.
      induction 1 as [|[k0 v0] r S IH F]; cbn; [reflexivity|]. rewrite Forall_forall in F.
      destruct (cmp k k0) eqn:E.
      - apply cmp_eq in E. subst k0. destruct (p (k, v0)); cbn; [rewrite (g_refl cmp G); reflexivity|].
        apply aget_lt_all. intros x Hx. apply filter_In in Hx as [Hx _]. apply F; exact Hx.
      - destruct (p (k0, v0)); cbn; [rewrite E|]; exact IH.
      - destruct (p (k0, v0)); cbn; [rewrite E|]; exact IH.
    Qed.
  End V.

  Lemma aget_map_kv {V W} (f : K -> V -> W) (m : list (K * V)) k :
    aget cmp k (map (fun kv => (fst kv, f (fst kv) (snd kv))) m) = option_map (f k) (aget cmp k m).
  Proof.
    induction m as [|[k0 v0] r IH]; cbn; [reflexivity|]. destruct (cmp k k0) eqn:E; [|exact IH|exact IH].
    apply cmp_eq in E. subst k0. reflexivity.
  Qed.
  Lemma map_kv_sorted {V W} (f : K * V -> W) (m : list (K * V)) :
    asorted m -> asorted (map (fun kv => (fst kv, f kv)) m).
  Proof.
    induction 1 as [|x r S IH F]; cbn; [constructor|]. constructor; [exact IH|].
    rewrite Forall_forall in *. intros y Hy. apply in_map_iff in Hy as [z [<- Hz]]. cbn. apply F; exact Hz.
  Qed.
  Lemma aget_map_vals {V W} (f : V -> W) (m : list (K * V)) k :
    aget cmp k (map (fun kv => (fst kv, f (snd kv))) m) = option_map f (aget cmp k m).
  Proof.
    induction m as [|[k0 v0] r IH]; cbn; [reflexivity|]. destruct (cmp k k0); [reflexivity|exact IH|exact IH].
  Qed.
  Lemma map_vals_sorted {V W} (f : V -> W) (m : list (K * V)) :
    asorted m -> asorted (map (fun kv => (fst kv, f (snd kv))) m).
  Proof. exact (map_kv_sorted (fun kv => f (snd kv)) m). Qed.

  Lemma filter_aset {V} (p : K * V -> bool) k v (m : list (K * V)) : asorted m ->
    filter p (aset cmp k v m) = if p (k, v) then aset cmp k v (filter p m) else adel cmp k (filter p m).
  Proof.
    (* both sides are sorted: compare the lookups *)
    intros S. pose proof (filter_sorted p m S) as Sf.
    apply asorted_ext; [apply filter_sorted, aset_sorted; exact S|destruct (p (k, v)); [apply aset_sorted|apply adel_sorted]; exact Sf|].
    intros k'. rewrite aget_filter, aget_aset by (try apply aset_sorted; exact S).
    destruct (p (k, v)) eqn:Ep; [rewrite aget_aset by exact Sf|rewrite aget_adel by exact Sf];
      rewrite aget_filter by exact S; destruct (keqb k' k) eqn:Ek; try reflexivity;
      apply keqb_eq in Ek; subst k'; rewrite Ep; reflexivity.
  Qed.

  (* applying a sorted list of writes (Some v = put, None = delete) *)
  Definition awrite {V} (m : list (K * V)) (e : K * option V) : list (K * V) :=
    match snd e with None => adel cmp (fst e) m | Some v => aset cmp (fst e) v m end.

  Lemma awrite_sorted {V} (m : list (K * V)) e : asorted m -> asorted (awrite m e).
  Proof. unfold awrite. destruct (snd e); [apply aset_sorted|apply adel_sorted]. Qed.

  Lemma fold_awrite_In {V} (L : list (K * option V)) : forall (m : list (K * V)) k v,
    In (k, v) (fold_left awrite L m) -> In (k, v) m \/ In (k, Some v) L.
  Proof.
    induction L as [|[k0 w] L IH]; intros m k v H; cbn [fold_left] in H; [left; exact H|].
    apply IH in H as [H|H]; [|right; right; exact H]. unfold awrite in H. cbn [fst snd] in H. destruct w as [v0|].
    - apply aset_In in H as [H|H]; [inversion H; subst; right; left; reflexivity|left; exact H].
    - left. eapply adel_sub; exact H.
  Qed.

  Lemma aget_awrite {V} (m : list (K * V)) e k : asorted m ->
    aget cmp k (awrite m e) = if keqb k (fst e) then snd e else aget cmp k m.
  Proof.
    intros S. unfold awrite. destruct (snd e).
    - apply aget_aset; exact S.
    - apply aget_adel; exact S.
  Qed.

  Lemma map_awrite {V W} (f : V -> W) (m : list (K * V)) e :
    map (fun kv => (fst kv, f (snd kv))) (awrite m e) =
    awrite (map (fun kv => (fst kv, f (snd kv))) m) (fst e, option_map f (snd e)).
  Proof.
    unfold awrite. destruct e as [k [v|]]; cbn [fst snd option_map];
      induction m as [|[k' v'] r IH]; cbn; try reflexivity; destruct (cmp k k'); cbn; rewrite ?IH; reflexivity.
  Qed.
  Lemma map_fold_awrite {V W} (f : V -> W) (L : list (K * option V)) : forall m : list (K * V),
    map (fun kv => (fst kv, f (snd kv))) (fold_left awrite L m) =
    fold_left awrite (map (fun e => (fst e, option_map f (snd e))) L) (map (fun kv => (fst kv, f (snd kv))) m).
  Proof. induction L as [|e L IH]; intros m; [reflexivity|]. cbn [fold_left map]. rewrite IH, map_awrite. reflexivity. Qed.

  Lemma fold_awrite_sorted {V} (L : list (K * option V)) : forall m : list (K * V), asorted m -> asorted (fold_left awrite L m).
  Proof. induction L as [|e L IH]; intros m S; [exact S|]. cbn. apply IH. apply awrite_sorted; exact S. Qed.

  Lemma aget_fold_awrite {V} (L : list (K * option V)) : forall (m : list (K * V)) k,
    asorted L -> asorted m ->
    aget cmp k (fold_left awrite L m) = match aget cmp k L with Some w => w | None => aget cmp k m end.
  Proof.
    induction L as [|[k0 w0] L IH]; intros m k SL Sm; [reflexivity|].
    inversion SL as [|? ? SL' F]; subst. rewrite Forall_forall in F.
    cbn [fold_left]. rewrite IH by (try exact SL'; apply awrite_sorted; exact Sm).
    rewrite aget_awrite by exact Sm. cbn [fst snd aget].
    unfold keqb. destruct (cmp k k0) eqn:E.
    - apply cmp_eq in E. subst k0. rewrite (aget_lt_all k L F). reflexivity.
    - destruct (aget cmp k L); reflexivity.
    - destruct (aget cmp k L); reflexivity.
  Qed.
  (* putting every entry of a list is the list of writes that puts them *)
  Lemma fold_aset_awrite {V} (L : list (K * V)) : forall m : list (K * V),
    fold_left (fun m kv => aset cmp (fst kv) (snd kv) m) L m =
    fold_left awrite (map (fun kv => (fst kv, Some (snd kv))) L) m.
  Proof. induction L as [|kv L IH]; intros m; [reflexivity|]. cbn [fold_left map]. apply IH. Qed.

  (* a complete list of writes makes up for any difference at the keys it writes *)
  Lemma fold_awrite_absorbs {V} (L : list (K * option V)) (m1 m2 : list (K * V)) :
    asorted L -> asorted m1 -> asorted m2 ->
    (forall k, aget cmp k L = None -> aget cmp k m1 = aget cmp k m2) ->
    fold_left awrite L m1 = fold_left awrite L m2.
  Proof.
    intros SL S1 S2 H. apply asorted_ext; try (apply fold_awrite_sorted; assumption).
    intros k. rewrite !aget_fold_awrite by assumption. destruct (aget cmp k L) eqn:E; [reflexivity|apply H; exact E].
  Qed.
End AMap.
