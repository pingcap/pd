(* C07 — the Gallina B-tree (model/C07_BTree.v, a transcription of pkg/btree) refines the ordered-list
   specification L0 (model/C07_BTreeSpec.v): whole trees, every operation, any degree >= 2, any strict weak order.

   tinv t  = the representation invariant: the root is balanced (all leaves at depth h), every node but the root has
             between degree-1 and 2*degree-1 items, an internal node with k items has k+1 children, `indices[i]` is the
             number of items in children 0..i plus i (binv), the in-order walk is strictly sorted, `length` is its length.
   tabs t  = the abstraction: the in-order walk. *)
From Coq Require Import List ZArith Bool Lia.
From PDV Require Import lib.Base model.C07_BTreeSpec model.C07_BTree proof.C07_BTreeOrder proof.C07_BTreeRefine.
Import ListNotations.

Section Tree.
  Context {A : Type} (ltb : A -> A -> bool).
  Hypothesis lt_irrefl : forall a, ltb a a = false.
  Hypothesis lt_trans : forall a b c, ltb a b = true -> ltb b c = true -> ltb a c = true.
  Hypothesis lt_negtrans : forall a b c, ltb a b = false -> ltb b c = false -> ltb a c = false.

  Definition root_inv (lo hi : nat) (len : Z) (r : node A) : Prop :=
    exists h, binv lo hi h r /\ sorted ltb (flatten r) /\ (length (n_its r) <= hi)%nat /\
              (h <> 0%nat -> n_its r <> []) /\ len = Z.of_nat (length (flatten r)).

  Definition tinv (t : btree A) : Prop :=
    (2 <= bt_degree t)%nat /\
    match bt_root t with
    | None => bt_length t = 0%Z
    | Some r => root_inv (min_items t) (max_items t) (bt_length t) r
    end.

  Definition tabs (t : btree A) : list A := match bt_root t with None => [] | Some r => flatten r end.

  Definition l0_rem (typ : to_remove) (L : list A) : list A * option A :=
    match typ with
    | RemoveItem x => l0_delete ltb x L
    | RemoveMin => l0_delete_min L
    | RemoveMax => l0_delete_max L
    end.

  Lemma tinv_new d : (2 <= d)%nat -> tinv (bt_new d).
  Proof. intros H. split; [exact H|reflexivity]. Qed.

  Lemma degree_facts d : (2 <= d)%nat -> (1 <= d - 1)%nat /\ (d * 2 - 1 = 2 * (d - 1) + 1)%nat.
  Proof. lia. Qed.

  Lemma tinv_length t : tinv t -> bt_length t = Z.of_nat (length (tabs t)).
  Proof.
    intros [_ H]. unfold tabs. destruct (bt_root t) as [r|]; [|exact H]. destruct H as (h & _ & _ & _ & _ & E). exact E.
  Qed.

  Lemma tinv_root d len r h : (2 <= d)%nat -> binv (d - 1) (d * 2 - 1) h r -> sorted ltb (flatten r) ->
    (length (n_its r) <= d * 2 - 1)%nat -> (h <> 0%nat -> n_its r <> []) -> len = Z.of_nat (length (flatten r)) ->
    tinv (BT d len (Some r)).
  Proof. intros D B Hs Hl Hne E. split; [exact D|]. exists h. auto. Qed.

  Theorem replace_or_insert_spec t x : tinv t ->
    exists t' out, replace_or_insert ltb t x = Some (t', out) /\ tinv t' /\ bt_degree t' = bt_degree t /\
                   l0_insert ltb x (tabs t) = (tabs t', out).
  Proof.
    intros [D R]. destruct (degree_facts _ D) as [LO HI].
    unfold replace_or_insert, tabs, min_items, max_items in *. destruct (bt_root t) as [r|] eqn:ER.
    - destruct R as (h & B & Hs & Hlen & Hne & EL).
      assert (STEP : forall h1 r1, binv (bt_degree t - 1) (bt_degree t * 2 - 1) h1 r1 -> flatten r1 = flatten r ->
                 (length (n_its r1) < bt_degree t * 2 - 1)%nat -> (h1 <> 0%nat -> n_its r1 <> []) ->
                 exists t' out,
                   match insert ltb (S (height r1)) r1 x (bt_degree t * 2 - 1) with
                   | Some (r2, out) => Some (BT (bt_degree t) match out with
                                                              | Some _ => bt_length t
                                                              | None => (bt_length t + 1)%Z
                                                              end (Some r2), out)
                   | None => None
                   end = Some (t', out) /\ tinv t' /\ bt_degree t' = bt_degree t /\
                   l0_insert ltb x (flatten r) = (match bt_root t' with Some r' => flatten r' | None => [] end, out)).
      { intros h1 r1 B1 EF Hl1 Hne1. rewrite <- EF in Hs.
        destruct (insert_spec ltb lt_irrefl lt_trans lt_negtrans _ _ LO HI x h1 r1 (S (height r1)) B1 Hs) as (n' & out & E & B' & EI & Hb);
          [rewrite (height_binv _ _ _ _ B1); lia|exact Hl1|].
        rewrite E. eexists. exists out. split; [reflexivity|]. split; [|split].
        - apply (tinv_root _ _ _ h1 D B'); [|lia| |].
          + pose proof (l0_insert_sorted ltb lt_trans lt_negtrans x _ Hs) as H. rewrite EI in H. exact H.
          + intros NZ E0. apply (Hne1 NZ). destruct (n_its r1); [reflexivity|]. rewrite E0 in Hb. cbn in Hb. lia.
          + pose proof (l0_insert_length ltb _ _ LO HI x (flatten r1)) as HL. rewrite EI in HL. cbn [fst snd] in HL.
            rewrite EL, <- EF. destruct out; lia.
        - reflexivity.
        - cbn [bt_root]. rewrite <- EF. exact EI. }
      destruct (Nat.leb_spec (bt_degree t * 2 - 1) (length (n_its r))) as [Full|NotFull].
      + assert (Elen : (length (n_its r) = bt_degree t * 2 - 1)%nat) by lia.
        destruct (node_split_spec _ _ LO HI h r B Elen) as (m & l & r2 & ES & EF & Bl & Br & Ll & Lr).
        rewrite (half_hi _ _ LO HI). rewrite ES.
        assert (EIDX : init_size [l; r2] = idx_of (map fsize [l; r2])).
        { unfold init_size. cbn [map]. rewrite (nlen_binv _ _ _ _ Bl), (nlen_binv _ _ _ _ Br). reflexivity. }
        rewrite EIDX.
        apply (STEP (S h)).
        * apply binv_node; [reflexivity|repeat constructor; assumption|].
          repeat constructor; lia.
        * cbn [flatten]. rewrite EF. reflexivity.
        * cbn [n_its length]. lia.
        * intros _. discriminate.
      + apply (STEP h r B eq_refl); [lia|exact Hne].
    - eexists. exists None. split; [reflexivity|]. split; [|split; reflexivity].
      apply (tinv_root _ _ _ 0%nat D (binv_leaf _ _ _)); [apply sorted_one|cbn; lia|intros H; contradiction|rewrite R; reflexivity].
  Qed.

  Lemma rem_spec_l0 typ L L' out : rem_spec ltb typ L L' out -> l0_rem typ L = (L', out).
  Proof.
    destruct typ as [x| |]; cbn [rem_spec l0_rem].
    - auto.
    - destruct out as [e|]; [|contradiction]. intros ->. reflexivity.
    - destruct out as [e|]; [|contradiction]. intros ->. unfold l0_delete_max. rewrite rev_app_distr. cbn. rewrite rev_involutive. reflexivity.
  Qed.

  Lemma l0_rem_nil typ : l0_rem typ [] = ([], None).
  Proof. destruct typ; reflexivity. Qed.

  Theorem delete_item_spec t typ : tinv t ->
    exists t' out, delete_item ltb t typ = Some (t', out) /\ tinv t' /\ bt_degree t' = bt_degree t /\
                   l0_rem typ (tabs t) = (tabs t', out).
  Proof.
    intros [D R]. destruct (degree_facts _ D) as [LO HI].
    unfold delete_item, tabs, min_items, max_items in *. destruct (bt_root t) as [r|] eqn:ER.
    - destruct R as (h & B & Hs & Hlen & Hne & EL).
      destruct (n_its r) as [|a its0] eqn:EI.
      + exists t, None. split; [reflexivity|]. split; [split; [exact D|]; rewrite ER; exists h; rewrite EI; auto|]. split; [reflexivity|].
        rewrite ER. destruct h as [|h]; [|exfalso; apply Hne; [discriminate|reflexivity]].
        inversion B; subst. cbn [n_its] in EI. subst. cbn [flatten]. apply l0_rem_nil.
      + assert (NE : n_its r <> []) by (rewrite EI; discriminate).
        destruct (remove_spec ltb lt_irrefl lt_trans lt_negtrans _ _ LO HI h typ r (2 * S (height r)) B Hs) as (n' & out & E & B' & RS & LEN);
          [rewrite (height_binv _ _ _ _ B); lia|exact NE|].
        rewrite E.
        rewrite EI in LEN. cbn [length] in LEN, Hlen.
        pose proof (rem_sorted ltb _ _ _ _ RS Hs) as Hs'.
        pose proof (rem_length ltb _ _ LO HI _ _ _ _ RS) as HL.
        pose proof (rem_spec_l0 _ _ _ _ RS) as EQ.
        eexists. exists out. split; [reflexivity|].
        assert (ELEN : (match out with Some _ => bt_length t - 1 | None => bt_length t end = Z.of_nat (length (flatten n')))%Z).
        { rewrite EL. destruct out; lia. }
        destruct n' as [its' ch' idx']. cbn [n_its n_ch].
        destruct its' as [|b its'].
        * destruct ch' as [|c0 rest].
          -- split; [|split; [reflexivity|exact EQ]]. apply (tinv_root _ _ _ h D B' Hs'); [cbn; lia| |exact ELEN].
             intros NZ. inversion B'; subst; [contradiction|discriminate].
          -- inversion B' as [|h0 ? ? L F1 F2]; subst. cbn [length] in L. destruct rest; [|discriminate].
             inversion F1; subst. inversion F2; subst.
             assert (EFL : flatten (Node [] [c0] (idx_of (map fsize [c0]))) = flatten c0) by reflexivity.
             rewrite EFL in *.
             split; [|split; [reflexivity|exact EQ]]. apply (tinv_root _ _ _ h0 D); [assumption|exact Hs'|lia| |exact ELEN].
             intros _ E0. rewrite E0 in *. cbn in *. lia.
        * split; [|split; [reflexivity|exact EQ]].
          apply (tinv_root _ _ _ h D B' Hs'); [cbn [n_its] in LEN |- *; lia|discriminate|exact ELEN].
    - exists t, None. split; [reflexivity|]. split; [split; [exact D|rewrite ER; exact R]|]. split; [reflexivity|].
      rewrite ER. apply l0_rem_nil.
  Qed.

  Section Queries.
    Variable t : btree A.
    Hypothesis T : tinv t.

    Lemma bt_q_root r : bt_root t = Some r ->
      exists h, binv (min_items t) (max_items t) h r /\ sorted ltb (flatten r) /\ (h < S (height r))%nat /\ (1 <= min_items t)%nat.
    Proof.
      intros ER. destruct T as [D R]. rewrite ER in R. destruct R as (h & B & Hs & _). exists h. split; [exact B|]. split; [exact Hs|].
      rewrite (height_binv _ _ _ _ B). unfold min_items. lia.
    Qed.

    Lemma bt_q_get x : match bt_root t with Some r => get ltb (S (height r)) r x | None => None end = l0_get ltb x (tabs t).
    Proof.
      unfold tabs. destruct (bt_root t) as [r|] eqn:ER; [|reflexivity]. destruct (bt_q_root r ER) as (h & B & Hs & Hf & _).
      apply (get_spec ltb lt_irrefl lt_trans lt_negtrans _ _ x h r _ B Hs Hf).
    Qed.

    Lemma bt_q_get_with_index x :
      match bt_root t with Some r => get_with_index ltb (S (height r)) r x | None => (None, 0%Z) end =
      (l0_get ltb x (tabs t), Z.of_nat (l0_rank ltb x (tabs t))).
    Proof.
      unfold tabs. destruct (bt_root t) as [r|] eqn:ER; [|reflexivity]. destruct (bt_q_root r ER) as (h & B & Hs & Hf & _).
      apply (get_with_index_spec ltb lt_irrefl lt_trans lt_negtrans _ _ x h r _ B Hs Hf).
    Qed.

    Lemma bt_q_get_at k : match bt_root t with Some r => get_at (S (height r)) r k | None => None end = l0_get_at k (tabs t).
    Proof.
      unfold tabs, l0_get_at. destruct (bt_root t) as [r|] eqn:ER.
      - destruct (bt_q_root r ER) as (h & B & Hs & Hf & _). destruct (Z.ltb_spec k 0) as [Neg|Pos].
        + cbn [get_at]. replace (k <? 0)%Z with true by (symmetry; apply Z.ltb_lt; exact Neg). rewrite orb_true_r. reflexivity.
        + apply (get_at_spec _ _ h r _ k B Hf Pos).
      - destruct (k <? 0)%Z; [reflexivity|]. destruct (Z.to_nat k); reflexivity.
    Qed.

    Lemma bt_q_min : match bt_root t with Some r => node_min (S (height r)) r | None => None end = hd_error (tabs t).
    Proof.
      unfold tabs. destruct (bt_root t) as [r|] eqn:ER; [|reflexivity]. destruct (bt_q_root r ER) as (h & B & Hs & Hf & LO).
      apply (node_min_spec _ _ LO h r _ B Hf).
    Qed.

    Lemma bt_q_max : match bt_root t with Some r => node_max (S (height r)) r | None => None end = hd_error (rev (tabs t)).
    Proof.
      unfold tabs. destruct (bt_root t) as [r|] eqn:ER; [|reflexivity]. destruct (bt_q_root r ER) as (h & B & Hs & Hf & LO).
      rewrite (node_max_spec _ _ LO h r _ B Hf). unfold last_opt. destruct (rev (flatten r)); reflexivity.
    Qed.

    Lemma bt_q_ascend x : match bt_root t with Some r => ascend_from ltb (S (height r)) r (Some x) | None => [] end = l0_ascend_ge ltb x (tabs t).
    Proof.
      unfold tabs. destruct (bt_root t) as [r|] eqn:ER; [|reflexivity]. destruct (bt_q_root r ER) as (h & B & Hs & Hf & LO).
      apply (ascend_spec ltb lt_irrefl lt_trans lt_negtrans _ _ LO x h r _ B Hs Hf).
    Qed.

    Lemma bt_q_descend x :
      match bt_root t with Some r => fst (descend_from ltb (S (height r)) r x false) | None => [] end = l0_descend_le ltb x (tabs t).
    Proof.
      unfold tabs. destruct (bt_root t) as [r|] eqn:ER; [|reflexivity]. destruct (bt_q_root r ER) as (h & B & Hs & Hf & LO).
      apply (descend_le_spec ltb lt_irrefl lt_trans lt_negtrans _ _ LO x h r _ B Hs Hf).
    Qed.
  End Queries.
End Tree.

(* pkg/btree on Int items: the operation lists the driver runs (bt2_step / bt2_run of model/C07_BTree.v) against
   the L0 runs (bt_step / bt_run of model/C07_BTreeSpec.v) *)
Local Open Scope Z_scope.

Lemma zlt_irrefl a : Z.ltb a a = false.
Proof. apply Z.ltb_irrefl. Qed.
Lemma zlt_trans a b c : Z.ltb a b = true -> Z.ltb b c = true -> Z.ltb a c = true.
Proof. rewrite !Z.ltb_lt. lia. Qed.
Lemma zlt_negtrans a b c : Z.ltb a b = false -> Z.ltb b c = false -> Z.ltb a c = false.
Proof. rewrite !Z.ltb_ge. lia. Qed.

Lemma seq_nth_map {X} (d : X) (l : list X) : forall pre,
  map (fun k => match nth_error (pre ++ l) k with Some x => x | None => d end) (seq (length pre) (length l)) = l.
Proof.
  induction l as [|a l IH]; intros pre; [reflexivity|]. cbn [length seq map].
  rewrite nth_error_app2 by lia. rewrite Nat.sub_diag. cbn [nth_error]. f_equal.
  specialize (IH (pre ++ [a])). rewrite <- app_assoc in IH. cbn [app] in IH. rewrite app_length in IH. cbn [length] in IH.
  rewrite Nat.add_1_r in IH. exact IH.
Qed.

Lemma step_answer (t t' : zt) (b : bobs) : tinv Z.ltb t' -> bt_degree t' = bt_degree t ->
  exists t'' b', Some (t', b) = Some (t'', b') /\ (tabs t', b) = (tabs t'', b') /\ tinv Z.ltb t'' /\ bt_degree t'' = bt_degree t.
Proof. intros T D. exists t', b. auto. Qed.

Theorem bt2_step_refines (t : zt) (o : bop) : tinv Z.ltb t ->
  exists t' b, bt2_step t o = Some (t', b) /\ bt_step (tabs t) o = (tabs t', b) /\ tinv Z.ltb t' /\ bt_degree t' = bt_degree t.
Proof.
  intros T.
  pose proof (replace_or_insert_spec Z.ltb zlt_irrefl zlt_trans zlt_negtrans t) as INS.
  pose proof (delete_item_spec Z.ltb zlt_irrefl zlt_trans zlt_negtrans t) as DEL.
  destruct o as [x|x| | |x|x|k|x lim|x lim| | | |]; cbn [bt2_step bt_step]; unfold with_root; cbv beta.
  - destruct (INS x T) as (t' & out & E & T' & ED & EL). rewrite E, EL. exact (step_answer t t' _ T' ED).
  - destruct (DEL (RemoveItem x) T) as (t' & out & E & T' & ED & EL). cbn [l0_rem] in EL. rewrite E, EL. exact (step_answer t t' _ T' ED).
  - destruct (DEL RemoveMin T) as (t' & out & E & T' & ED & EL). cbn [l0_rem] in EL. rewrite E, EL. exact (step_answer t t' _ T' ED).
  - destruct (DEL RemoveMax T) as (t' & out & E & T' & ED & EL). cbn [l0_rem] in EL. rewrite E, EL. exact (step_answer t t' _ T' ED).
  - rewrite (bt_q_get Z.ltb zlt_irrefl zlt_trans zlt_negtrans t T x). exact (step_answer t t _ T eq_refl).
  - rewrite (bt_q_get_with_index Z.ltb zlt_irrefl zlt_trans zlt_negtrans t T x). unfold l0_get_with_index. exact (step_answer t t _ T eq_refl).
  - rewrite (bt_q_get_at Z.ltb t T k). exact (step_answer t t _ T eq_refl).
  - rewrite (bt_q_ascend Z.ltb zlt_irrefl zlt_trans zlt_negtrans t T x). exact (step_answer t t _ T eq_refl).
  - rewrite (bt_q_descend Z.ltb zlt_irrefl zlt_trans zlt_negtrans t T x). exact (step_answer t t _ T eq_refl).
  - rewrite (tinv_length Z.ltb t T). exact (step_answer t t _ T eq_refl).
  - rewrite (bt_q_min Z.ltb t T). exact (step_answer t t _ T eq_refl).
  - rewrite (bt_q_max Z.ltb t T). exact (step_answer t t _ T eq_refl).
  - exists t. eexists. split; [reflexivity|]. split; [|split; [exact T|reflexivity]]. f_equal.
    rewrite (tinv_length Z.ltb t T), Nat2Z.id.
    assert (E1 : map (fun k : nat => match match bt_root t with
                                           | Some r => get_at (S (height r)) r (Z.of_nat k)
                                           | None => None end with Some x => x | None => -999999 end) (seq 0 (length (tabs t))) = tabs t).
    { etransitivity; [|exact (seq_nth_map (-999999) (tabs t) [])]. cbn [app length]. apply map_ext. intros k.
      rewrite (bt_q_get_at Z.ltb t T (Z.of_nat k)). unfold l0_get_at.
      replace (Z.of_nat k <? 0) with false by (symmetry; apply Z.ltb_ge; lia). rewrite Nat2Z.id. reflexivity. }
    rewrite E1. f_equal. apply map_ext. intros x.
    rewrite (bt_q_get_with_index Z.ltb zlt_irrefl zlt_trans zlt_negtrans t T x). reflexivity.
Qed.

(* what a run reports about the tree after each operation: the root satisfies the representation invariant *)
Definition shape_ok (d : nat) (r : option (bobs * option (node Z))) : Prop :=
  match r with
  | Some (_, Some root) => exists len, root_inv Z.ltb (d - 1) (d * 2 - 1) len root
  | Some (_, None) => True
  | None => False          (* the transcription never reaches a point where the Go code would panic *)
  end.

Theorem bt2_run_refines ops : forall (t : zt), tinv Z.ltb t ->
  map (option_map fst) (bt2_run t ops) = map Some (bt_run (tabs t) ops) /\
  Forall (shape_ok (bt_degree t)) (bt2_run t ops).
Proof.
  induction ops as [|o ops IH]; intros t T; [split; [reflexivity|constructor]|].
  destruct (bt2_step_refines t o T) as (t' & b & E & EL & T' & ED).
  cbn [bt2_run bt_run]. rewrite E, EL. destruct (IH t' T') as [IH1 IH2]. rewrite ED in IH2. split.
  - cbn [map option_map fst]. f_equal. exact IH1.
  - constructor; [|exact IH2]. unfold shape_ok. destruct T' as [_ R]. destruct (bt_root t') as [r|]; [|exact I].
    exists (bt_length t'). unfold min_items, max_items in R. rewrite ED in R. exact R.
Qed.
