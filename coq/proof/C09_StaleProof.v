(* C09 — the stale test of Dispatch(heartbeat).
   foreign_change_cancels: if the current step's precondition fails, or conf_ver advanced by more than
   the passed steps account for, the heartbeat removes the operator from the running set.
   Core lemma: with the proviso "the current (unfinished) step itself counts nothing in ConfVerChanged";
   the proviso is then discharged by proof/C09_CountProof.v for every step kind (it fails for a pending leave
   step if ChangePeerV2Leave.ConfVerChanged looks the demoted peer up by peer id: defect S2), except a RemovePeer whose
   store holds a peer with another id - a witness shows that exception is needed. *)
From PDV Require Import lib.Base model.C08_Steps model.C09_OpCtl proof.C09_StatusProof proof.C09_CtlProof
     proof.C09_LeftProof proof.C09_Skel proof.C09_CountProof proof.C09_OwnGeneral.
Local Open Scope list_scope.
Local Open Scope Z_scope.

Lemma firstn_length_app {A} (l l' : list A) : firstn (length l) (l ++ l') = l.
Proof. induction l; cbn; congruence. Qed.

Lemma op_cvc_split o r done s rest :
  o_steps o = done ++ s :: rest -> o_cur o = length done ->
  op_conf_ver_changed o r = cvc_sum r (done ++ [s]).
Proof.
  intros Hst Hcur. unfold op_conf_ver_changed, cvc_sum. rewrite Hst, Hcur.
  replace (Nat.eqb (length done) (length (done ++ s :: rest))) with false
    by (symmetry; apply Nat.eqb_neq; rewrite app_length; cbn [length]; lia).
  replace (S (length done)) with (length (done ++ [s])) by (rewrite app_length; cbn [length]; lia).
  change (s :: rest) with ([s] ++ rest). rewrite app_assoc, firstn_length_app. reflexivity.
Qed.

Lemma fold_cvc_le r ss : forall a b, a <= b ->
  fold_left (fun acc s => acc + conf_ver_changed r s) ss a <= fold_left (fun acc s => acc + nominal s) ss b.
Proof.
  induction ss as [|s rest IH]; intros a b H; cbn [fold_left]; [exact H|].
  apply IH. pose proof (cvc_le_nominal r s). lia.
Qed.

Lemma op_cvc_bound o r s :
  nth_error (o_steps o) (o_cur o) = Some s ->
  op_conf_ver_changed o r <= accounted (o_steps o) (o_cur o) + conf_ver_changed r s.
Proof.
  intros Hn. destruct (nth_error_split _ _ Hn) as (done & rest & Hst & Hcur). symmetry in Hcur.
  rewrite (op_cvc_split o r done s rest Hst Hcur), cvc_sum_snoc. unfold accounted, cvc_sum.
  rewrite Hst, Hcur, firstn_length_app. pose proof (fold_cvc_le r done 0 0 (Z.le_refl 0)). lia.
Qed.

(* RemoveOperator of the operator that runs on its region removes and ends it, and it stays ended through the promotion *)
Lemma remove_promote_ends c id o :
  get_op c id = Some o -> alist_get (running c) (o_rid o) = Some id ->
  snd (remove_promote c id) = true /\ ended (fst (remove_promote c id)) id.
Proof.
  intros Ho Hrun. unfold remove_promote, remove_operator. rewrite Ho.
  rewrite remove_locked_hit by (rewrite (get_op_id _ _ _ Ho); exact Hrun). cbn [fst snd]. split; [reflexivity|].
  apply (ended_fwd _ _ _ (fr_fwd _ _ (st_frame (step_promote _)))).
  destruct (get_op_cancel (set_running c (alist_del (running c) (o_rid o))) id o Ho) as (o' & Ho').
  apply (bury_gone _ _ _ Ho').
Qed.

Lemma check_stale_fires c o s r :
  is_some (check_safety r s) = true
  \/ Gen_C09.stale_cmp_gt ((conf_ver r - o_cv o) mod two64) (op_conf_ver_changed o r) = true ->
  snd (remove_promote c (o_id o)) = true -> check_stale c o s r = remove_promote c (o_id o).
Proof.
  intros Hc Hs. rewrite check_stale_eq. destruct (is_some (check_safety r s)).
  - destruct (remove_promote c (o_id o)) as [c' b]. cbn [snd] in Hs. subst b. reflexivity.
  - destruct Hc as [Hc|Hc]; [discriminate|]. rewrite Hc. reflexivity.
Qed.

(* whenever the current (unfinished) step counts nothing while its precondition holds, a heartbeat in which the step's
   precondition fails, or conf_ver is ahead of what the passed steps account for, ends the operator (a waiting
   operator may be promoted in its place) *)
Lemma foreign_change_ends c rid id o r :
  alist_get (running c) rid = Some id -> get_op c id = Some o -> o_rid o = rid ->
  alist_get (truth c) rid = Some r ->
  0 <= conf_ver r - o_cv o < two64 ->
  o_st (fst (op_check o r)) = STARTED ->
  forall s, snd (op_check o r) = Some s ->
  (check_safety r s = None -> conf_ver_changed r s = 0) ->
  (is_some (check_safety r s) = true \/ accounted (o_steps o) (o_cur (fst (op_check o r))) < conf_ver r - o_cv o) ->
  ended (fst (ctl_step c (EHeartbeat rid))) id.
Proof.
  intros Hrun Ho Hrid Htruth Hrange Hst s Hs Hzero Hcause.
  cbn [ctl_step]. rewrite Htruth. cbn [fst].
  set (c1 := upd c (truth c) (alist_set (cache c) rid r) (ops c) (running c) (waiting c) (wcount c) (records c) (inbox c)).
  unfold dispatch. replace (alist_get (running c1) rid) with (Some id) by (symmetry; exact Hrun).
  replace (get_op c1 id) with (Some o) by (symmetry; exact Ho).
  pose proof (rel_op_check o r) as R. destruct (op_check o r) as [oc st] eqn:Ec. cbn [fst snd] in *. subst st. rewrite Hst.
  set (c2 := set_op c1 oc).
  assert (Hid : o_id oc = id) by (rewrite (rel_id _ _ R); apply (get_op_id _ _ _ Ho)).
  assert (Hrun2 : alist_get (running c2) (o_rid oc) = Some id) by (rewrite (rel_rid _ _ R), Hrid; exact Hrun).
  destruct (remove_promote_ends c2 id oc (get_op_update c1 id o oc Ho R) Hrun2) as [Hrem Hend].
  rewrite check_stale_fires, Hid; [| |rewrite Hid; exact Hrem].
  - destruct (remove_promote c2 id) as [c' b]. cbn [fst snd] in *. subst b. exact Hend.
  - destruct (is_some (check_safety r s)) eqn:Hu; [left; reflexivity|right].
    destruct Hcause as [Hcause|Hcount]; [discriminate|].
    rewrite stale_cmp_ok. apply Z.ltb_lt. rewrite (proj1 (rel_epoch _ _ R)), Z.mod_small by exact Hrange.
    pose proof (op_cvc_bound oc r s (op_check_cursor _ _ _ _ Ec)) as B. rewrite (rel_steps _ _ R) in B.
    rewrite Hzero in B by (destruct (check_safety r s); [discriminate Hu|reflexivity]). lia.
Qed.

(* RemovePeer{store 2, id 12} is current and unapplied while store 2 holds peer 99: RemovePeer.ConfVerChanged
   counts the removal as done, so conf_ver being one ahead of the operator's passed steps goes unnoticed.
   (Turning peer 12 into peer 99 on the same store takes two configuration changes, so with one peer id per
   peer this state is not reached by a single unnoticed change.) *)
Definition rm_region : region := Region [Peer 1 101 Voter; Peer 2 99 Learner] 1 7 1.
Definition rm_step : step := RemovePeer 2 12.
Definition rm_ctl : ctl :=
  Ctl [(1, rm_region)] [(1, rm_region)] [Opr 1 1 6 1 [rm_step] 0 STARTED 1 false 1 false false] [(1, 1)] [] [] [] [] 5 [].

Lemma rm_not_cancelled :
  let c' := fst (ctl_step rm_ctl (EHeartbeat 1)) in
  alist_get (running c') 1 = Some 1 /\
  (exists o', get_op c' 1 = Some o' /\ o_st o' = STARTED) /\
  check_safety rm_region rm_step = None /\
  accounted [rm_step] 0 < conf_ver rm_region - 6 /\
  remove_names_other_peer rm_region rm_step = true.
Proof. vm_compute. repeat split; try reflexivity. eexists. split; reflexivity. Qed.

Definition wrap64 (z : Z) : Z := z mod two64.

(* (why dropping either one alone changes nothing observable: the other still cancels a non-ended operator) *)
Lemma put_op_idem l a : put_op (put_op l a) a = put_op l a.
Proof.
  unfold put_op. rewrite map_map. apply map_ext. intros x.
  destruct (o_id x =? o_id a) eqn:E; [rewrite Z.eqb_refl; reflexivity|rewrite E; reflexivity].
Qed.

Lemma cancel_before_bury_redundant c id : bury (cancel c id) id = bury c id.
Proof.
  unfold cancel. destruct (get_op c id) as [o|] eqn:Ho; [|reflexivity].
  set (oc := fst (op_to o CANCELED)).
  (* both bury oc: cancelled is ended, and an ended operator is its own cancellation *)
  assert (E1 : (if op_is_end oc then oc else fst (op_to oc CANCELED)) = oc).
  { unfold op_is_end, oc. rewrite op_to_end_cancel. reflexivity. }
  assert (E2 : (if op_is_end o then o else oc) = oc).
  { unfold op_is_end. destruct (is_end_status (o_st o)) eqn:E; [|reflexivity].
    unfold oc, op_to. rewrite (end_status_absorbing _ CANCELED E). reflexivity. }
  assert (I : set_op (set_op c oc) oc = set_op c oc) by (unfold set_op, set_ops, upd; cbn [ops]; rewrite put_op_idem; reflexivity).
  unfold bury. rewrite (get_op_update c id o oc Ho (rel_op_to o CANCELED)), Ho. fold oc. rewrite E1, E2, I. reflexivity.
Qed.
