(* C07 — facts about lists that both halves of the development use: a list cut at a position, filters,
   lists without duplicates under a key, strongly sorted lists. *)
From Coq Require Import List Arith Lia Bool Permutation Sorting.Sorted.
Import ListNotations.

Lemma split_at {X} (l : list X) i : (i <= length l)%nat -> exists l1 l2, l = l1 ++ l2 /\ length l1 = i.
Proof. intros H. exists (firstn i l), (skipn i l). split; [symmetry; apply firstn_skipn|apply firstn_length_le, H]. Qed.

Lemma exists_last_or_nil {X} (l : list X) : l = [] \/ exists l' a, l = l' ++ [a].
Proof. destruct l as [|x l]; [left; reflexivity|right]. destruct (@exists_last _ (x :: l)) as (l' & a & E); [discriminate|eauto]. Qed.

Lemma app_cons_snoc {X} (l1 : list X) x l2 : l1 ++ x :: l2 = (l1 ++ [x]) ++ l2.
Proof. rewrite <- app_assoc. reflexivity. Qed.

Lemma length_snoc {X} (l : list X) x : length (l ++ [x]) = S (length l).
Proof. rewrite app_length. cbn. lia. Qed.

Lemma firstn_app_l {X} (l1 l2 : list X) : firstn (length l1) (l1 ++ l2) = l1.
Proof. rewrite firstn_app, Nat.sub_diag, firstn_O, app_nil_r. apply firstn_all. Qed.

Lemma skipn_app_l {X} (l1 l2 : list X) : skipn (length l1) (l1 ++ l2) = l2.
Proof. rewrite skipn_app, Nat.sub_diag, skipn_all. reflexivity. Qed.

Lemma skipn_app_S {X} (l1 : list X) x l2 : skipn (S (length l1)) (l1 ++ x :: l2) = l2.
Proof. rewrite app_cons_snoc, <- length_snoc with (x := x). apply skipn_app_l. Qed.

Lemma nth_error_mid {X} (l1 : list X) x l2 : nth_error (l1 ++ x :: l2) (length l1) = Some x.
Proof. rewrite nth_error_app2 by lia. rewrite Nat.sub_diag. reflexivity. Qed.

Lemma nth_error_mid_S {X} (l1 : list X) x y l2 : nth_error (l1 ++ x :: y :: l2) (S (length l1)) = Some y.
Proof. rewrite app_cons_snoc, <- length_snoc with (x := x). apply nth_error_mid. Qed.

Lemma nth_error_at {X} (l1 : list X) x l2 n : length l1 = n -> nth_error (l1 ++ x :: l2) n = Some x.
Proof. intros <-. apply nth_error_mid. Qed.

Lemma nth_error_at_S {X} (l1 : list X) x y l2 n : length l1 = n -> nth_error (l1 ++ x :: y :: l2) (S n) = Some y.
Proof. intros <-. apply nth_error_mid_S. Qed.

Lemma Forall_nth_error {X} (P : X -> Prop) l i x : Forall P l -> nth_error l i = Some x -> P x.
Proof. intros F H. rewrite Forall_forall in F. apply F. eapply nth_error_In; eauto. Qed.

Lemma Forall_mid {X} (P : X -> Prop) l1 x l2 : Forall P (l1 ++ x :: l2) <-> Forall P l1 /\ P x /\ Forall P l2.
Proof. rewrite Forall_app, Forall_cons_iff. reflexivity. Qed.

Lemma Forall_mid2 {X} (P : X -> Prop) l1 x y l2 :
  Forall P (l1 ++ x :: y :: l2) <-> Forall P l1 /\ P x /\ P y /\ Forall P l2.
Proof. rewrite Forall_app, !Forall_cons_iff. reflexivity. Qed.

Lemma filter_filter {A} (p q : A -> bool) l : filter p (filter q l) = filter (fun x => q x && p x) l.
Proof.
  induction l as [|a l IH]; cbn; [reflexivity|]. destruct (q a); cbn; [destruct (p a)|]; rewrite IH; reflexivity.
Qed.

Lemma filter_true_id {A} (p : A -> bool) l : (forall x, In x l -> p x = true) -> filter p l = l.
Proof.
  induction l as [|a l IH]; intros H; cbn; [reflexivity|].
  rewrite (H a (or_introl eq_refl)). f_equal. apply IH. intros x Hx; apply H; right; exact Hx.
Qed.

Lemma filter_false_nil {A} (p : A -> bool) l : (forall x, In x l -> p x = false) -> filter p l = [].
Proof.
  induction l as [|a l IH]; intros H; cbn; [reflexivity|].
  rewrite (H a (or_introl eq_refl)). apply IH. intros x Hx; apply H; right; exact Hx.
Qed.

Lemma filter_rev {A} (q : A -> bool) l : filter q (rev l) = rev (filter q l).
Proof.
  induction l as [|a l IH]; cbn; [reflexivity|]. rewrite filter_app, IH. cbn. destruct (q a); cbn; [reflexivity|apply app_nil_r].
Qed.

Lemma Permutation_filter {A} (p : A -> bool) l1 l2 : Permutation l1 l2 -> Permutation (filter p l1) (filter p l2).
Proof.
  induction 1; cbn; try reflexivity.
  - destruct (p x); [constructor|]; assumption.
  - destruct (p x), (p y); try reflexivity; try (constructor; reflexivity); try apply perm_swap.
  - etransitivity; eauto.
Qed.

Lemma map_filter_comm {A} (g : A -> A) (q q' : A -> bool) l :
  (forall y, In y l -> q' (g y) = q y) -> map g (filter q l) = filter q' (map g l).
Proof.
  induction l as [|a l IH]; intros H; cbn; [reflexivity|].
  rewrite (H a (or_introl eq_refl)). destruct (q a); cbn; rewrite IH; auto; intros y Hy; apply H; right; exact Hy.
Qed.

Lemma filter_length_le {A} (p q : A -> bool) l : (forall y, In y l -> p y = true -> q y = true) ->
  (length (filter p l) <= length (filter q l))%nat.
Proof.
  induction l as [|a l IH]; intros H; cbn; [lia|].
  assert (IH' := IH (fun y Hy => H y (or_intror Hy))).
  destruct (p a) eqn:Pa; [rewrite (H a (or_introl eq_refl) Pa); cbn; lia|]. destruct (q a); cbn; lia.
Qed.

Lemma filter_length_lt {A} (p q : A -> bool) l x : (forall y, In y l -> p y = true -> q y = true) ->
  In x l -> p x = false -> q x = true -> (length (filter p l) < length (filter q l))%nat.
Proof.
  induction l as [|a l IH]; intros H Hx Px Qx; [destruct Hx|]. cbn.
  assert (H' : forall y, In y l -> p y = true -> q y = true) by (intros y Hy; apply H; right; exact Hy).
  destruct Hx as [->|Hx].
  - rewrite Px, Qx. cbn. pose proof (filter_length_le p q l H'). lia.
  - specialize (IH H' Hx Px Qx). destruct (p a) eqn:Pa; [rewrite (H a (or_introl eq_refl) Pa); cbn; lia|]. destruct (q a); cbn; lia.
Qed.

Lemma find_as_filter {A} (q : A -> bool) l : List.find q l = hd_error (filter q l).
Proof. induction l as [|a l IH]; cbn; [reflexivity|]. destruct (q a); [reflexivity|exact IH]. Qed.

Lemma find_unique {A} (p : A -> bool) (L : list A) x :
  In x L -> p x = true -> (forall y, In y L -> p y = true -> y = x) -> List.find p L = Some x.
Proof.
  induction L as [|a L IH]; intros Hx Px U; [destruct Hx|]. cbn.
  destruct (p a) eqn:Pa; [f_equal; apply U; [left; reflexivity|exact Pa]|].
  destruct Hx as [->|Hx]; [congruence|]. apply IH; auto. intros y Hy; apply U; right; exact Hy.
Qed.

Lemma find_none_intro {A} (p : A -> bool) (L : list A) : (forall y, In y L -> p y = false) -> List.find p L = None.
Proof.
  induction L as [|a L IH]; intros H; cbn; [reflexivity|]. rewrite (H a (or_introl eq_refl)).
  apply IH. intros y Hy; apply H; right; exact Hy.
Qed.

Lemma find_ext_in {A} (p q : A -> bool) (L : list A) : (forall y, In y L -> p y = q y) -> List.find p L = List.find q L.
Proof.
  induction L as [|a L IH]; intros H; cbn; [reflexivity|]. rewrite (H a (or_introl eq_refl)), IH; [reflexivity|].
  intros y Hy; apply H; right; exact Hy.
Qed.

Lemma existsb_perm {A} (f : A -> bool) l1 l2 : Permutation l1 l2 -> existsb f l1 = existsb f l2.
Proof.
  induction 1; cbn; try congruence.
  - destruct (f x), (f y); reflexivity.
Qed.

Lemma existsb_filter {A} (f g : A -> bool) l : existsb f (filter g l) = existsb (fun x => g x && f x) l.
Proof. induction l as [|a l IH]; cbn; [reflexivity|]. destruct (g a); cbn; rewrite IH; reflexivity. Qed.

(* y is among the selected elements of T, when only y itself can pass for y *)
Lemma existsb_filter_self {A} (e : A -> A -> bool) (p : A -> bool) T y :
  (forall o, In o T -> e o y = true -> o = y) -> e y y = true -> In y T ->
  existsb (fun o => e o y) (filter p T) = p y.
Proof.
  intros U Ry Hy. destruct (p y) eqn:P.
  - apply existsb_exists. exists y. split; [apply filter_In; auto|exact Ry].
  - destruct (existsb _ _) eqn:X; [|reflexivity]. apply existsb_exists in X as (o & Ho & Eo).
    apply filter_In in Ho as [Ho Po]. rewrite (U o Ho Eo) in Po. congruence.
Qed.

Lemma existsb_ext_in {A} (f g : A -> bool) l : (forall x, In x l -> f x = g x) -> existsb f l = existsb g l.
Proof.
  induction l as [|a l IH]; intros H; cbn; [reflexivity|].
  rewrite (H a (or_introl eq_refl)), IH; [reflexivity|]. intros x Hx; apply H; right; exact Hx.
Qed.

Lemma NoDup_map_filter {A B} (f : A -> B) (p : A -> bool) l : NoDup (map f l) -> NoDup (map f (filter p l)).
Proof.
  induction l as [|a l IH]; cbn; intros N; [constructor|]. inversion N as [|? ? N1 N2]; subst.
  destruct (p a); cbn; [constructor|]; auto.
  intros Hin. apply in_map_iff in Hin as (y & E & Hy). apply filter_In in Hy as [Hy _]. apply N1. rewrite <- E. apply in_map, Hy.
Qed.

Lemma NoDup_map_eq {A B} (f : A -> B) l x y : NoDup (map f l) -> In x l -> In y l -> f x = f y -> x = y.
Proof.
  induction l as [|a l IH]; intros N Hx Hy E; [destruct Hx|].
  cbn in N. inversion N as [|? ? N1 N2]; subst.
  destruct Hx as [<-|Hx], Hy as [<-|Hy]; auto.
  - exfalso. apply N1. rewrite E. apply in_map, Hy.
  - exfalso. apply N1. rewrite <- E. apply in_map, Hx.
Qed.

Lemma StronglySorted_filter {A} (R : A -> A -> Prop) (p : A -> bool) l : StronglySorted R l -> StronglySorted R (filter p l).
Proof.
  induction 1 as [|a l S IH F]; cbn; [constructor|]. destruct (p a); [|exact IH]. constructor; [exact IH|].
  rewrite Forall_forall in *. intros y Hy. apply filter_In in Hy as [Hy _]. auto.
Qed.

Lemma ss_pairs {A} (R : A -> A -> Prop) T x y :
  StronglySorted R T -> In x T -> In y T -> x = y \/ R x y \/ R y x.
Proof.
  induction 1 as [|a T S IH F]; intros Hx Hy; [destruct Hx|].
  rewrite Forall_forall in F. destruct Hx as [<-|Hx], Hy as [<-|Hy]; auto.
Qed.

Lemma rev_cons_last {A} (l : list A) y rest : rev l = y :: rest -> l = rev rest ++ [y].
Proof. intros H. rewrite <- (rev_involutive l), H. reflexivity. Qed.
