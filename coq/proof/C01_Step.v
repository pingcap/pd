(* C01/C02 proofs: the transitions of model/C01_Tso.v as a relation, guards as hypotheses; the layers of the invariant
   (C01_Ctl, C01_Win, C01_Rec, Gfit in C01_Main) argue by cases on `tr` instead of unfolding step0.
   `tr` over-approximates step0: it keeps the guards the layers use and drops the rest - which time LUpdRead picks,
   `save_busy = false` at LSyncLoad and at the two aborts, the gap test of LURBegin - and `t_same` stands for every
   label that changes nothing.  Statements about one label of step0 itself (C01_EnvTie.v: the model ACCEPTS the
   environment labels; C02_failed_save_keeps_memory) unfold step0 where they stand.
   The `Arguments ... : simpl never` below are global: files that import this one compute with `cbn [names]`. *)
From Coq Require Import ZArith List Bool Lia.
From PDV Require Import lib.Base gen.Gen_C01 model.C01_Tso.
Import ListNotations.
Local Open Scope Z_scope.

Arguments Z.shiftr : simpl never.
Arguments Z.land : simpl never.
Arguments Z.ones : simpl never.
Arguments Z.div : simpl never.
Arguments Z.mul : simpl never.
Arguments save_txn : simpl never.
Arguments set_physical : simpl never.
Arguments need_save : simpl never.
Arguments busy : simpl never.
Arguments has_pending : simpl never.
Arguments save_busy : simpl never.
Arguments locked : simpl never.

Ltac inj :=
  repeat match goal with
  | H : Some _ = Some _ |- _ => inv H
  | H : (_, _) = (_, _) |- _ => inv H
  | H : None = Some _ |- _ => discriminate H
  | H : Some _ = None |- _ => discriminate H
  | H : true = false |- _ => discriminate H
  | H : false = true |- _ => discriminate H
  end.

(* member m's record replaced by x, the stored window by w: what 17 of the 21 labels do *)
Definition local_state (s : state) (m : nat) (w : option Z) (x : mem) : state :=
  State w (owner s) (upd_f (mems s) m x) (recs s) (clock s) (interval s) (gap_ms s).

(* SyncTimestamp's choice of the next physical time *)
Definition sync_next (last : option Z) (now : Z) : Z :=
  match last with Some l0 => if now - l0 <? guard then l0 + guard else now | None => now end.

(* the stored window after m's LeaderTxn put of t, and whether m saw it succeed.  put_not: an error before the put was
   applied, a lost leader comparison, or any outcome for a member that does not own the record; put_lost: applied although
   the client saw an error - the case the saveUncertain mark exists for *)
Inductive put (s : state) (m : nat) (t : Z) : outcome -> option Z -> bool -> Prop :=
| put_not o : put s m t o (W s) false
| put_ok : owner s = Some m -> put s m t Ok (Some t) true
| put_lost : owner s = Some m -> put s m t ErrApplied (Some t) false.

Lemma save_step s m o t (A B : mem) s' :
  (let '(s1, acked) := save_txn s m o t in
   if acked then Some (set_mem s1 m A) else Some (set_mem s1 m B)) = Some s' ->
  exists w a, put s m t o w a /\ s' = local_state s m w (if a then A else B).
Proof.
  unfold save_txn, is_owner. destruct (owner s) as [o0|] eqn:E.
  - destruct (Nat.eqb_spec o0 m) as [->|Hne].
    + destruct o; intros H; inv H; eexists; eexists;
        (split; [constructor; exact E|unfold local_state, set_mem, set_W; cbn; rewrite ?E; reflexivity]).
    + destruct o; intros H; inv H; exists (W s), false; (split; [constructor|reflexivity]).
  - destruct o; intros H; inv H; exists (W s), false; (split; [constructor|reflexivity]).
Qed.

Definition respond_status (s : state) (m : nat) (r : rec) : status :=
  if max_logical <=? gL r then Dropped else if valid (mems s m) then Granted (clock s) else Dropped.

Section Local.
Variables (s : state) (m : nat).
Notation x := (mems s m).

(* the labels that touch member m's record only: label, stored window afterwards, record afterwards *)
Inductive mtr : label -> option Z -> mem -> Prop :=
| m_valid_off : mtr (LValidOff m) (W s) (with_valid x false)
| m_valid_on (Hon : is_owner s m || negb (busy s m) = true) : mtr (LValidOn m) (W s) (with_valid x true)
| m_sync_load (Hctl : ctl x = CElected) (Hsyn : syn x = SIdle) :
    mtr (LSyncLoad m) (W s) (with_ctl (with_syn x (SLoaded (W s))) CIniting)
| m_sync_save last now o w a (Hsyn : syn x = SLoaded last) :
    let next := sync_next last now in let t := next + interval s in
    forall (Hput : put s m t o w a),
    mtr (LSyncSave m now o) w (if a then with_syn (with_saved x t) (SPendSet next)
                               else with_ctl (with_syn (after_failed_save x o) SIdle) CFailed)
| m_sync_set next (Hsyn : syn x = SPendSet next) (Hlock : locked x = false) :
    mtr (LSyncSet m) (W s) (with_ctl (with_syn (set_physical x next true) SIdle) CServing)
| m_upd_read now p next (Hupd : upd x = UIdle) (Hval : valid x = true) (Hlock : locked x = false) (Hphys : phys x = Some p) :
    mtr (LUpdRead m now) (W s) (with_upd x (URead next))
| m_upd_decide next (Hupd : upd x = URead next) (Hbusy : save_busy x = false) :
    let y := refreshed x (W s) in
    mtr (LUpdDecide m) (W s) (with_upd y (if need_save y next then UDecided next else UPendSet next))
| m_upd_save next o w a (Hupd : upd x = UDecided next) :
    let t := next + interval s in forall (Hput : put s m t o w a),
    mtr (LUpdSave m o) w (if a then with_upd (with_saved x t) (UPendSet next) else with_upd (after_failed_save x o) UIdle)
| m_upd_set next (Hupd : upd x = UPendSet next) (Hlock : locked x = false) :
    mtr (LUpdSet m) (W s) (with_upd (set_physical x next false) UIdle)
| m_ur_begin ts p (Hur : ur x = RIdle) (Hval : valid x = true) (Hphys : phys x = Some p) :
    let np := Z.shiftr ts 18 in let nl := Z.land ts (Z.ones 18) in
    forall (Hge : 0 <= np - ms p) (Hgt : np - ms p = 0 -> 0 < nl - logical x),
    mtr (LURBegin m ts) (W s) (with_ur x (RChecked (np * ns_per_ms) nl))
| m_ur_decide p l (Hur : ur x = RChecked p l) (Hbusy : save_busy x = false) :
    let y := refreshed x (W s) in
    mtr (LURDecide m) (W s) (with_ur y (if need_save y p then RDeciding p l else RSaved p l))
| m_ur_save p l o w a (Hur : ur x = RDeciding p l) :
    let t := p + interval s in forall (Hput : put s m t o w a),
    mtr (LURSave m o) w (if a then with_ur (with_saved x t) (RSaved p l) else with_ur (after_failed_save x o) RIdle)
| m_ur_end p l (Hur : ur x = RSaved p l) :
    mtr (LUREnd m) (W s) (Mem (Some p) l (last_saved x) (valid x) (ctl x) (syn x) (upd x) RIdle (unsure x))
| m_reset (Hlock : locked x = false) :
    mtr (LReset m) (W s) (Mem None 0 (last_saved x) (valid x) (ctl x) (syn x) (upd x) (ur x) (unsure x))
| m_term_end (Hlock : locked x = false) (Hctl : ctl x <> CIniting) :
    mtr (LTermEnd m) (W s) (Mem None 0 (last_saved x) (valid x) CIdle (syn x) (upd x) (ur x) (unsure x))
| m_upd_abort next (Hupd : upd x = URead next) (Huns : unsure x = true) : mtr (LUpdAbort m) (W s) (with_upd x UIdle)
| m_ur_abort p l (Hur : ur x = RChecked p l) (Huns : unsure x = true) : mtr (LURAbort m) (W s) (with_ur x RIdle).
End Local.

Inductive tr (s : state) : label -> state -> Prop :=
| t_same l : tr s l s
| t_local l m w x' : mtr s m l w x' -> tr s l (local_state s m w x')
| t_elect m : owner s = None -> busy s m = false ->
    tr s (LElect m) (State (W s) (Some m) (upd_f (mems s) m (with_ctl (with_valid (mems s m) true) CElected))
                           (recs s) (clock s) (interval s) (gap_ms s))
| t_gone m : owner s = Some m -> valid (mems s m) = false ->
    tr s LOwnerGone (State (W s) None (mems s) (recs s) (clock s) (interval s) (gap_ms s))
| t_gen m count p : phys (mems s m) = Some p -> locked (mems s m) = false -> 0 < count ->
    let x := mems s m in let l1 := logical x + count in
    tr s (LGen m count)
       (State (W s) (owner s)
              (upd_f (mems s) m (Mem (Some p) l1 (last_saved x) (valid x) (ctl x) (syn x) (upd x) (ur x) (unsure x)))
              (Rec m (ms p) l1 count (clock s) (is_owner s m) Pending :: recs s) (clock s) (interval s) (gap_ms s))
| t_respond m i r : nth_error (recs s) i = Some r -> gm r = m -> is_pending r = true ->
    tr s (LRespond m i)
       (State (W s) (owner s) (mems s) (set_nth (recs s) i (respond_status s m r)) (clock s) (interval s) (gap_ms s)).

Lemma step0_tr s l s' : step0 s l = Some s' -> tr s l s'.
Proof.
  intros H. destruct l; cbn in H.
  - destruct (owner s) eqn:Eo; [discriminate|]. destruct (busy s m) eqn:Eb; inj. apply t_elect; assumption.
  - inj. apply (t_local _ _ m), m_valid_off.
  - destruct (is_owner s m || negb (busy s m)) eqn:E; inj. apply (t_local _ _ m), m_valid_on, E.
  - destruct (owner s) as [m|] eqn:Eo; [|discriminate]. destruct (valid (mems s m)) eqn:Ev; inj. eapply t_gone; eassumption.
  - destruct (ctl (mems s m)) eqn:Ec; try discriminate. destruct (syn (mems s m)) eqn:Es; try discriminate.
    destruct (save_busy (mems s m)); inj. apply (t_local _ _ m), m_sync_load; assumption.
  - destruct (syn (mems s m)) as [|last|] eqn:Es; try discriminate.
    apply save_step in H as (w & a & Hp & ->). apply (t_local _ _ m). eapply m_sync_save; eassumption.
  - destruct (syn (mems s m)) as [| |next] eqn:Es; try discriminate. destruct (locked (mems s m)) eqn:El; inj.
    apply (t_local _ _ m), m_sync_set; assumption.
  - destruct (upd (mems s m)) eqn:Eu; try discriminate.
    destruct (valid (mems s m)) eqn:Ev; [|discriminate]. destruct (locked (mems s m)) eqn:El; [discriminate|]. cbn in H.
    destruct (phys (mems s m)) as [p|] eqn:Ep; [|inj; apply t_same].
    destruct (guard <? now - p); [inj; apply (t_local _ _ m); eapply m_upd_read; eassumption|].
    destruct (_ <? logical (mems s m)); inj; [apply (t_local _ _ m); eapply m_upd_read; eassumption|apply t_same].
  - destruct (upd (mems s m)) as [|next| |] eqn:Eu; try discriminate. destruct (save_busy (mems s m)) eqn:Eb; [discriminate|].
    pose proof (m_upd_decide s m next Eu Eb) as T. cbv zeta in T.
    destruct (need_save (refreshed (mems s m) (W s)) next); inj; apply (t_local _ _ m), T.
  - destruct (upd (mems s m)) as [| |next|] eqn:Eu; try discriminate.
    apply save_step in H as (w & a & Hp & ->). apply (t_local _ _ m). eapply m_upd_save; eassumption.
  - destruct (upd (mems s m)) as [| | |next] eqn:Eu; try discriminate. destruct (locked (mems s m)) eqn:El; inj.
    apply (t_local _ _ m), m_upd_set; assumption.
  - destruct (ur (mems s m)) eqn:Er; try discriminate.
    destruct (valid (mems s m)) eqn:Ev; [|inj; apply t_same].
    destruct (phys (mems s m)) as [p|] eqn:Ep; [|inj; apply t_same].
    destruct (Z.shiftr ts 18 - ms p <? 0) eqn:E1; [inj; apply t_same|].
    destruct ((Z.shiftr ts 18 - ms p =? 0) && (Z.land ts (Z.ones 18) - logical (mems s m) <=? 0)) eqn:E2; [inj; apply t_same|].
    destruct (gap_ms s <=? _); inj; [apply t_same|].
    apply (t_local _ _ m). eapply m_ur_begin; try eassumption.
    + apply Z.ltb_ge in E1. exact E1.
    + intros E0. apply andb_false_iff in E2 as [E2|E2]; [apply Z.eqb_neq in E2; contradiction|apply Z.leb_gt in E2; exact E2].
  - destruct (ur (mems s m)) as [|p l0| |] eqn:Er; try discriminate. destruct (save_busy (mems s m)) eqn:Eb; [discriminate|].
    pose proof (m_ur_decide s m p l0 Er Eb) as T. cbv zeta in T.
    destruct (need_save (refreshed (mems s m) (W s)) p); inj; apply (t_local _ _ m), T.
  - destruct (ur (mems s m)) as [| |p l0|] eqn:Er; try discriminate.
    apply save_step in H as (w & a & Hp & ->). apply (t_local _ _ m). eapply m_ur_save; eassumption.
  - destruct (ur (mems s m)) as [| | |p l0] eqn:Er; try discriminate. inj. apply (t_local _ _ m), m_ur_end, Er.
  - destruct (phys (mems s m)) as [p|] eqn:Ep; [|discriminate].
    destruct (locked (mems s m)) eqn:El; [discriminate|]. cbn in H. destruct (0 <? count) eqn:Ec; inj.
    apply Z.ltb_lt in Ec. apply t_gen; assumption.
  - destruct (nth_error (recs s) i) as [r|] eqn:En; [|discriminate].
    destruct (Nat.eqb_spec (gm r) m); [|discriminate]. cbn in H. destruct (is_pending r) eqn:Ep; inj.
    eapply t_respond; eassumption || reflexivity.
  - destruct (locked (mems s m)) eqn:El; inj. apply (t_local _ _ m), m_reset, El.
  - destruct (locked (mems s m)) eqn:El; [discriminate|].
    destruct (ctl (mems s m)) eqn:Ec; inj; apply (t_local _ _ m), m_term_end; congruence.
  - destruct (upd (mems s m)) as [|next| |] eqn:Eu; try discriminate. destruct (save_busy (mems s m)); [discriminate|].
    destruct (unsure (mems s m)) eqn:Un; inj. apply (t_local _ _ m). eapply m_upd_abort; eassumption.
  - destruct (ur (mems s m)) as [|p l0| |] eqn:Er; try discriminate. destruct (save_busy (mems s m)); [discriminate|].
    destruct (unsure (mems s m)) eqn:Un; inj. apply (t_local _ _ m). eapply m_ur_abort; eassumption.
Qed.

Lemma tr_interval s l s' : tr s l s' -> interval s' = interval s.
Proof. destruct 1; reflexivity. Qed.
