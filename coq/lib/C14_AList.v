(* Association lists keyed by Z, kept sorted by key so that they print in the canonical order
   the harness uses (maps are printed sorted by key). Used by the models of C14, C18, C19.
   Only total computable definitions and their rewriting lemmas; no axioms. *)
From Coq Require Import List ZArith Lia Bool.
Import ListNotations.
Local Open Scope Z_scope.

Section AList.
  Context {V : Type}.
  Definition amap := list (Z * V).

  Fixpoint aget (m : amap) (k : Z) : option V :=
    match m with
    | [] => None
    | (k', v) :: r => if k' =? k then Some v else aget r k
    end.

  (* insert or replace, keeping ascending key order *)
  Fixpoint aset (m : amap) (k : Z) (v : V) : amap :=
    match m with
    | [] => [(k, v)]
    | (k', v') :: r =>
        if k =? k' then (k, v) :: r
        else if k <? k' then (k, v) :: (k', v') :: r
        else (k', v') :: aset r k v
    end.

  Fixpoint adel (m : amap) (k : Z) : amap :=
    match m with
    | [] => []
    | (k', v') :: r => if k' =? k then adel r k else (k', v') :: adel r k
    end.

  Lemma aget_aset m k v k' : aget (aset m k v) k' = if k =? k' then Some v else aget m k'.
  Proof.
    induction m as [|[a b] r IH]; cbn [aset aget].
    - reflexivity.
    - destruct (k =? a) eqn:E1.
      + apply Z.eqb_eq in E1; subst a. cbn [aget]. destruct (k =? k'); reflexivity.
      + destruct (k <? a) eqn:E2; cbn [aget].
        * destruct (k =? k'); reflexivity.
        * rewrite IH. destruct (a =? k') eqn:E3; [|reflexivity].
          apply Z.eqb_eq in E3; subst a. rewrite E1. reflexivity.
  Qed.

  Lemma aget_aset_eq m k v : aget (aset m k v) k = Some v.
  Proof. rewrite aget_aset, Z.eqb_refl; reflexivity. Qed.

  Lemma aget_aset_ne m k v k' : k <> k' -> aget (aset m k v) k' = aget m k'.
  Proof. intros H; rewrite aget_aset. destruct (Z.eqb_spec k k'); [contradiction|reflexivity]. Qed.

  Lemma aget_adel m k k' : aget (adel m k) k' = if k =? k' then None else aget m k'.
  Proof.
    induction m as [|[a b] r IH]; cbn [adel aget].
    - destruct (k =? k'); reflexivity.
    - destruct (a =? k) eqn:E1.
      + apply Z.eqb_eq in E1; subst a. rewrite IH. destruct (k =? k'); reflexivity.
      + cbn [aget]. rewrite IH. destruct (a =? k') eqn:E2; [|reflexivity].
        apply Z.eqb_eq in E2; subst a. rewrite Z.eqb_sym, E1. reflexivity.
  Qed.

  Lemma aget_adel_eq m k : aget (adel m k) k = None.
  Proof. rewrite aget_adel, Z.eqb_refl; reflexivity. Qed.

  Lemma aget_adel_ne m k k' : k <> k' -> aget (adel m k) k' = aget m k'.
  Proof. intros H; rewrite aget_adel. destruct (Z.eqb_spec k k'); [contradiction|reflexivity]. Qed.

  Lemma aget_In m k v : aget m k = Some v -> In (k, v) m.
  Proof.
    induction m as [|[a b] r IH]; cbn [aget]; [discriminate|].
    destruct (Z.eqb_spec a k); [intros H; inversion H; subst; left; reflexivity | intros H; right; auto].
  Qed.

  Lemma In_aget m k v : In (k, v) m -> exists v', aget m k = Some v'.
  Proof.
    induction m as [|[a b] r IH]; cbn [aget]; [contradiction|].
    intros [H|H]; [inversion H; subst; rewrite Z.eqb_refl; eauto|].
    destruct (a =? k); eauto.
  Qed.

  Definition akeys (m : amap) : list Z := map fst m.
End AList.
Arguments amap V : clear implicits.

Lemma aget_map_entries {A B} (g : Z -> A -> B) (l : list (Z * A)) id :
  aget (map (fun e : Z * A => (fst e, g (fst e) (snd e))) l) id = option_map (g id) (aget l id).
Proof.
  induction l as [|[k v] r IH]; [reflexivity|]. cbn. destruct (Z.eqb_spec k id) as [->|]; [reflexivity|exact IH].
Qed.
