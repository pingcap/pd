(* C09 — the closed loop controller + stores on an operator's own steps, for ANY plan: if the C08 checker accepts
   the plan, every heartbeat along its execution keeps the operator (heartbeats_fine) and the stores' leader is
   known whenever a command has to be sent, the history own_history runs to SUCCESS with every command accepted.
   The controller state of that history has one shape: one region, one operator, at most one command under way.
   Second half: the plans of the builder meet the three hypotheses, so every builder plan runs to SUCCESS.
   closed_loop_runs and closed_loop_builder are the general statements; props/C09.v carries their instance for
   <= 3 stores (C09_own_steps_never_stale_bounded). *)
From PDV Require Import lib.Base model.C08_Steps model.C08_Builder model.C09_OpCtl proof.C08_ListFacts proof.C08_PlanProof
     proof.C08_PrepareFacts proof.C08_SimPhases proof.C08_JointScript proof.C08_JointMain proof.C08_NjApply proof.C08_NjMain proof.C09_CountProof
     proof.C09_StaleProof proof.C09_OwnGeneral proof.C09_OwnProof proof.C09_BuilderMono proof.C09_NjMono.
Local Open Scope list_scope.
Local Open Scope Z_scope.

(* hbstream.SendMsg sends nothing for a region without leader (store 0 stands for "none"): the leader is known at every step
   that needs a command.  The C08 checker does not ask for this: on {peers on stores 1 and 0, leader 1} the plan
   [TransferLeader 1 0; AddLearner 3 33] is accepted, monotone, its heartbeats are fine - and it stalls after the transfer. *)
Fixpoint leader_named (r : region) (ss : list step) : bool :=
  match ss with
  | [] => true
  | s :: rest =>
      match exec_step r s with
      | RSkip => leader_named r rest
      | RDone _ r' => negb (leader r =? 0) && leader_named r' rest
      | _ => true
      end
  end.

(* PD hears the region as the stores have it *)
Definition cached (c : ctl) (rid : Z) (r : region) : ctl :=
  upd c (truth c) (alist_set (cache c) rid r) (ops c) (running c) (waiting c) (wcount c) (records c) (inbox c).

Lemma heartbeat_eq c rid r : alist_get (truth c) rid = Some r ->
  ctl_step c (EHeartbeat rid) =
  (dispatch (cached c rid r) rid r true,
   snapshot (dispatch (cached c rid r) rid r true) (-1) (sent_since c (dispatch (cached c rid r) rid r true)) (Some r) DNone).
Proof. intros H. unfold ctl_step. rewrite H. reflexivity. Qed.

(* what plan_runs_ok asks of the observations *)
Definition deliver_fine (d : dres) : bool := match d with DStale | DRejected => false | _ => true end.
Definition status_fine (l : list (Z * status)) : bool :=
  match l with [(_, CANCELED)] | [(_, TIMEOUT)] | [(_, EXPIRED)] | [(_, REPLACED)] => false | _ => true end.
Definition ends_well (os : list obs) : bool :=
  match last os (Obs 0 [] [] [] [] None DNone) with Obs _ _ _ [(1, SUCCESS)] _ _ _ => true | _ => false end.

Definition Good (os : list obs) : Prop :=
  forallb (fun o => deliver_fine (b_deliver o)) os = true /\ forallb (fun o => status_fine (b_status o)) os = true
  /\ ends_well os = true.

Lemma Good_runs r0 ss : Good (run ctl_step (init 5) (own_history r0 ss)) -> plan_runs_ok r0 ss = true.
Proof. intros (A & B & C). unfold plan_runs_ok. cbv zeta. unfold deliver_fine, status_fine, ends_well in *. rewrite A, B, C. reflexivity. Qed.

(* an event leads to c', shows the statuses sts and the store's verdict d *)
Definition fires (c : ctl) (e : ev) (c' : ctl) (sts : list (Z * status)) (d : dres) : Prop :=
  fst (ctl_step c e) = c' /\ b_status (snd (ctl_step c e)) = sts /\ b_deliver (snd (ctl_step c e)) = d.

Lemma Good_fires c e c' sts d es :
  fires c e c' sts d -> status_fine sts = true -> deliver_fine d = true ->
  Good (run ctl_step c' es) -> Good (run ctl_step c (e :: es)).
Proof.
  unfold fires. cbn [run]. destruct (ctl_step c e) as [c1 ob]. cbn [fst snd]. intros (-> & S & D) Hs Hd (A & B & C).
  unfold Good. cbn [forallb]. rewrite S, D, Hs, Hd, A, B.
  repeat split. unfold ends_well in *. destruct (run ctl_step c' es); [discriminate C|exact C].
Qed.

Definition all_success (os : list obs) : Prop := Forall (fun o => b_status o = [(1, SUCCESS)] /\ b_deliver o = DNone) os.

Lemma Good_success c e c' es :
  fires c e c' [(1, SUCCESS)] DNone -> all_success (run ctl_step c' es) -> Good (run ctl_step c (e :: es)).
Proof.
  unfold fires. cbn [run]. destruct (ctl_step c e) as [c1 ob]. cbn [fst snd]. intros (-> & S & D) H. revert ob S D.
  induction H as [|o os [So Do] _ IH]; intros ob S D.
  - unfold Good, ends_well. cbn. rewrite S, D. destruct ob; cbn in S; subst. auto.
  - destruct (IH o So Do) as (A & B & C). unfold Good. cbn [forallb]. rewrite S, D. cbn [forallb] in A, B. rewrite A, B. auto.
Qed.

Lemma success_run c c1 c2 es :
  fires c (EDeliver 1) c1 [(1, SUCCESS)] DNone -> fires c1 (EHeartbeat 1) c2 [(1, SUCCESS)] DNone ->
  all_success (run ctl_step c2 es) -> all_success (run ctl_step c (EDeliver 1 :: EHeartbeat 1 :: es)).
Proof.
  unfold fires. cbn [run]. destruct (ctl_step c (EDeliver 1)) as [x o1]. cbn [fst snd]. intros (-> & S1 & D1).
  destruct (ctl_step c1 (EHeartbeat 1)) as [y o2]. cbn [fst snd]. intros (-> & S2 & D2) H. repeat constructor; auto.
Qed.

Lemma apply_cmd_frame r c r' : apply_cmd r c = Some r' ->
  conf_ver r <= conf_ver r' /\ (leader r' = leader r \/ exists p, c = CTransferLeader (Some p) /\ leader r' = pstore p).
Proof.
  unfold apply_cmd. intros H.
  destruct c as [[p|]|t [p|]|[|x cs]| |]; try discriminate H.
  - destruct (get_store_peer r (pstore p)) as [q|]; [|discriminate H]. destruct (negb (pid q =? pid p) || is_learner q); [discriminate H|].
    inversion H. cbn. split; [lia|right; exists p; auto].
  - destruct (is_in_joint r); [discriminate H|]. destruct (apply_change false (leader r) (peers r) (t, p)); [|discriminate H].
    inversion H. cbn. split; [lia|left; reflexivity].
  - destruct (negb (is_in_joint r)); [discriminate H|].
    destruct (role_eqb _ Demoting && _); [discriminate H|]. inversion H. unfold count_joint. cbn. split; [lia|left; reflexivity].
  - destruct (is_in_joint r); [discriminate H|]. destruct (apply_changes true (leader r) (peers r) (x :: cs)); [|discriminate H].
    inversion H. cbn [conf_ver set_peers leader]. split; [lia|left; reflexivity].
  - inversion H. cbn. split; [lia|left; reflexivity].
  - inversion H. cbn. split; [lia|left; reflexivity].
Qed.

Section Loop.
  Variables (cv0 ver0 : Z) (ss : list step).

  (* the operator of own_history: only cursor and status move *)
  Definition own_op (k : nat) (st : status) : opr := Opr 1 1 cv0 ver0 ss k st 1 true 1 false false.

  (* the controller states of own_history (r: the region as the stores have it, rc: as PD has cached it, k: the
     cursor): running, with the commands under way; ended and buried *)
  Definition st_running (r rc : region) (k : nat) (inb : list msg) : ctl :=
    Ctl [(1, r)] [(1, rc)] [own_op k STARTED] [(1, 1)] [] [] [] inb 5 [].
  Definition st_done (r rc : region) (k : nat) : ctl :=
    Ctl [(1, r)] [(1, rc)] [own_op k SUCCESS] [] [] [] [(1, (1, SUCCESS))] [] 5 [].

  Definition cmd_msg (r : region) (c : cmd) : msg := Msg 1 (conf_ver r) (rng r) (leader r) (leader_id r) c.

  (* where Operator.Check puts the cursor: past the steps that are finished in r *)
  Definition next (r : region) (k : nat) : nat := (k + finished_prefix r (skipn k ss))%nat.

  (* no step left means SUCCESS *)
  Lemma op_check_started r k :
    op_check (own_op k STARTED) r =
    match nth_error ss (next r k) with
    | Some s => (own_op (next r k) STARTED, Some s)
    | None => (own_op (next r k) SUCCESS, None)
    end.
  Proof.
    unfold op_check. change (op_is_end (own_op k STARTED)) with false. cbn iota.
    change (o_cur (own_op k STARTED)) with k. change (o_steps (own_op k STARTED)) with ss. fold (next r k).
    set (k' := next r k).
    change (with_cur (own_op k STARTED) k') with (own_op k' STARTED).
    unfold check_timeout, check_success. change (o_steps (own_op k' STARTED)) with ss. change (o_cur (own_op k' STARTED)) with k'.
    destruct (length ss <=? k')%nat eqn:E.
    - apply Nat.leb_le, nth_error_None in E. rewrite E. reflexivity.
    - apply Nat.leb_gt, nth_error_Some in E. destruct (nth_error ss k'); [reflexivity|contradiction].
  Qed.

  Lemma dispatch_started r k :
    dispatch (st_running r r k []) 1 r true =
    match nth_error ss (next r k) with
    | Some s => let '(c2, handled) := check_stale (st_running r r (next r k) []) (own_op (next r k) STARTED) s r in
                if handled then c2 else send c2 (send_schedule_command 1 r s)
    | None => st_done r r (next r k)
    end.
  Proof.
    unfold dispatch. change (alist_get (running (st_running r r k [])) 1) with (Some 1). cbn iota beta.
    replace (get_op (st_running r r k []) 1) with (Some (own_op k STARTED)) by reflexivity. cbn iota beta.
    rewrite op_check_started. destruct (nth_error ss (next r k)); reflexivity.
  Qed.

  Lemma sends_cmd c r s cm : cmd_of_step r s = Some cm -> leader r <> 0 ->
    send c (send_schedule_command 1 r s) = send c [cmd_msg r cm].
  Proof. intros Hc Hl. unfold send_schedule_command, stamp. rewrite Hc, (proj2 (Z.eqb_neq _ _) Hl). reflexivity. Qed.

  (* the command stamped with the region as it is reaches the leader with the current epoch *)
  Lemma deliver_accepted r rc k c r' :
    apply_cmd r c = Some r' ->
    fires (st_running r rc k [cmd_msg r c]) (EDeliver 1) (st_running r' rc k []) [(1, STARTED)] DAccepted.
  Proof.
    intros Ha. unfold fires, ctl_step.
    change (first_for 1 (inbox (st_running r rc k [cmd_msg r c]))) with (Some (cmd_msg r c)).
    change (alist_get (truth (st_running r rc k [cmd_msg r c])) 1) with (Some r). cbn iota beta.
    assert (D : deliver r (cmd_msg r c) = (r', DAccepted)).
    { unfold deliver, cmd_msg; cbn [m_target_store m_target_id m_cmd m_cv m_ver]. rewrite !Z.eqb_refl. cbn [andb negb orb].
      rewrite Ha. destruct c; rewrite ?Z.eqb_refl; reflexivity. }
    rewrite D. repeat split.
  Qed.

  Lemma done_run j : forall r rc k, all_success (run ctl_step (st_done r rc k) (own_events j)).
  Proof.
    induction j as [|j IH]; intros r rc k; cbn [own_events]; [constructor|].
    apply (success_run _ (st_done r rc k) (st_done r r k)); [repeat split..|apply IH].
  Qed.

  (* created and not yet added; ended at the moment it was added (every step already finished), not yet dispatched *)
  Definition st_created (r : region) : ctl := Ctl [(1, r)] [(1, r)] [own_op 0 CREATED] [] [] [] [] [] 5 [].
  Definition st_added (r : region) (k : nat) : ctl := Ctl [(1, r)] [(1, r)] [own_op k SUCCESS] [(1, 1)] [] [] [] [] 5 [].

  Lemma add_operator_created r : conf_ver r = cv0 -> rng r = ver0 ->
    add_operator (st_created r) [1] =
    match nth_error ss (next r 0) with
    | Some s => (send (st_running r r (next r 0) []) (send_schedule_command 1 r s), true)
    | None => (st_added r (next r 0), true)
    end.
  Proof.
    intros Hcv Hver. unfold add_operator.
    assert (C : check_add (st_created r) [1] = (st_created r, true)).
    { unfold check_add. cbn [flat_map app]. replace (get_op (st_created r) 1) with (Some (own_op 0 CREATED)) by reflexivity.
      cbn [forallb app]. unfold check_add_one. replace (alist_get (cache (st_created r)) (o_rid (own_op 0 CREATED))) with (Some r) by reflexivity.
      unfold Gen_C09.epoch_mismatch_GetVersion, Gen_C09.epoch_mismatch_GetConfVer. cbn [o_ver o_cv own_op].
      rewrite Hcv, Hver, !Z.eqb_refl. reflexivity. }
    rewrite C. cbn [negb add_all_locked]. unfold add_locked.
    assert (G : get_op (st_created r) 1 = Some (own_op 0 CREATED)) by reflexivity. rewrite !G. cbv beta iota.
    assert (R : alist_get (running (st_created r)) (o_rid (own_op 0 CREATED)) = None) by reflexivity. rewrite R. cbv beta iota.
    rewrite G. cbv beta iota. assert (T : op_to (own_op 0 CREATED) STARTED = (own_op 0 STARTED, true)) by reflexivity. rewrite T. cbn [negb].
    assert (K : alist_get (cache (set_running (set_op (st_created r) (own_op 0 STARTED)) (alist_set (running (st_created r)) (o_rid (own_op 0 CREATED)) 1)))
                          (o_rid (own_op 0 CREATED)) = Some r) by reflexivity. rewrite K.
    rewrite op_check_started. destruct (nth_error ss _); reflexivity.
  Qed.

  Lemma added_run j r k : all_success (run ctl_step (st_added r k) (own_events j)).
  Proof.
    destruct j as [|j]; cbn [own_events]; [constructor|].
    apply (success_run _ (st_added r k) (st_done r r k)); [repeat split..|apply done_run].
  Qed.

  (* the event that looks at the operator first - AddOperator, or a heartbeat: it hands out the first unfinished step, or ends *)
  Definition starts (c0 : ctl) (e0 : ev) (r : region) (k : nat) : Prop :=
    (forall s c, nth_error ss (next r k) = Some s ->
       check_safety r s = None -> cmd_of_step r s = Some c -> leader r <> 0 ->
       0 <= conf_ver r - cv0 -> conf_ver r - cv0 <= op_conf_ver_changed (own_op (next r k) STARTED) r ->
       fires c0 e0 (st_running r r (next r k) [cmd_msg r c]) [(1, STARTED)] DNone)
    /\ (nth_error ss (next r k) = None ->
        exists cE, fires c0 e0 cE [(1, SUCCESS)] DNone /\ forall j, all_success (run ctl_step cE (own_events j))).

  Lemma starts_heartbeat r rc k : starts (st_running r rc k []) (EHeartbeat 1) r k.
  Proof.
    unfold starts, fires. rewrite (heartbeat_eq (st_running r rc k []) 1 r eq_refl).
    change (cached (st_running r rc k []) 1 r) with (st_running r r k []). rewrite dispatch_started. split.
    - intros s c Hn Hs Hc Hl H0 H1. rewrite Hn, (check_stale_keeps _ (own_op (next r k) STARTED) s r Hs H0 H1), (sends_cmd _ r s c Hc Hl). repeat split.
    - intros Hn. rewrite Hn. exists (st_done r r (next r k)). split; [repeat split|intros j; apply done_run].
  Qed.

  Lemma starts_add r : conf_ver r = cv0 -> rng r = ver0 -> starts (st_created r) (EAdd [1]) r 0.
  Proof.
    intros Hcv Hver. unfold starts, fires, ctl_step. rewrite (add_operator_created r Hcv Hver). split.
    - intros s c Hn _ Hc Hl _ _. rewrite Hn, (sends_cmd _ r s c Hc Hl). repeat split.
    - intros Hn. rewrite Hn. exists (st_added r (next r 0)). split; [repeat split|intros j; apply added_run].
  Qed.

  (* the operator stands at or before the first unfinished step of rest *)
  Lemma loop_runs g : forall rest done r k c0 e0 j,
    starts c0 e0 r k -> ss = done ++ rest ->
    (next r k = length done + finished_prefix r rest)%nat ->
    plan_check g r rest = None -> heartbeats_fine cv0 done r rest = true -> leader_named r rest = true ->
    0 <= conf_ver r - cv0 -> (length rest <= j)%nat ->
    Good (run ctl_step c0 (e0 :: own_events j)).
  Proof.
    induction rest as [|s rest IH]; intros done r k c0 e0 j Hst Hss Hk Hpc Hhf Hln Hcv Hj.
    - cbn [finished_prefix] in Hk. rewrite Nat.add_0_r in Hk. destruct Hst as [_ Hnone]. rewrite Hk in Hnone.
      destruct Hnone as (cE & F & T); [rewrite Hss, app_nil_r; apply nth_error_None; lia|].
      eapply Good_success; [exact F|apply T].
    - cbn [heartbeats_fine leader_named] in Hhf, Hln.
      destruct (plan_check_cons g r s rest Hpc) as [(E & Hrest)|(c & r' & E & Hnd' & Hf & Hrest)]; rewrite E in Hhf, Hln.
      + (* already finished: the cursor passes it *)
        apply (IH (done ++ [s]) r k c0 e0 j); auto.
        * rewrite <- app_assoc. exact Hss.
        * cbn [finished_prefix] in Hk. rewrite (exec_step_skip _ _ E) in Hk. rewrite app_length. cbn [length]. lia.
        * cbn [length] in Hj. lia.
      + destruct (exec_step_done _ _ _ _ E) as (Hnf & Hs & Hc & Ha).
        apply andb_true_iff in Hhf as [Hhf Hhf']. apply andb_true_iff in Hhf as [Hle _]. apply Z.leb_le in Hle.
        apply andb_true_iff in Hln as [Hl Hln]. apply negb_true_iff, Z.eqb_neq in Hl.
        cbn [finished_prefix] in Hk. rewrite Hnf, Nat.add_0_r in Hk.
        assert (Hn : nth_error ss (length done) = Some s).
        { rewrite Hss, nth_error_app2, Nat.sub_diag by lia. reflexivity. }
        destruct Hst as [Hsend _]. rewrite Hk in Hsend.
        destruct j as [|j]; [cbn [length] in Hj; lia|]. cbn [own_events].
        eapply Good_fires; [apply (Hsend s c); auto| reflexivity | reflexivity |].
        { rewrite (op_cvc_split (own_op (length done) STARTED) r done s rest Hss eq_refl). exact Hle. }
        eapply Good_fires; [apply (deliver_accepted r r (length done) c r' Ha)| reflexivity | reflexivity |].
        apply (IH (done ++ [s]) r' (length done) _ _ j (starts_heartbeat r' r (length done))); auto.
        * rewrite <- app_assoc. exact Hss.
        * unfold next. rewrite Hss at 1. rewrite skipn_app, skipn_all, Nat.sub_diag. cbn [app skipn finished_prefix]. rewrite Hf.
          rewrite app_length. cbn [length]. lia.
        * pose proof (proj1 (apply_cmd_frame _ _ _ Ha)). lia.
        * cbn [length] in Hj. lia.
  Qed.
End Loop.

(* own_steps_never_stale, the closed loop: any plan, any region *)
Theorem closed_loop_runs g r0 ss :
  plan_check g r0 ss = None -> heartbeats_fine (conf_ver r0) [] r0 ss = true -> leader_named r0 ss = true ->
  plan_runs_ok r0 ss = true.
Proof.
  intros Hpc Hhf Hln. apply Good_runs. unfold own_history. cbn [app].
  eapply Good_fires; [repeat split|reflexivity|reflexivity|].
  eapply Good_fires; [repeat split|reflexivity|reflexivity|].
  apply (loop_runs (conf_ver r0) (rng r0) ss g ss [] r0 0 _ _ (S (length ss)) (starts_add _ _ ss r0 eq_refl eq_refl)); auto. lia.
Qed.

(* builder plans never hand the leader to store 0:
   so, starting from a region with a leader, the leader is known all along (leader_named). Read off the builder
   model: every exec_transfer is guarded by a test that the store is not 0. *)
Definition transfers_named (ss : list step) : bool :=
  forallb (fun s => match s with TransferLeader _ t => negb (t =? 0) | _ => true end) ss.

Lemma exec_leader r s c r' : exec_step r s = RDone c r' -> leader r' = leader r \/ exists f, s = TransferLeader f (leader r').
Proof.
  intros E. destruct (exec_step_done _ _ _ _ E) as (_ & _ & Hc & Ha).
  destruct (proj2 (apply_cmd_frame _ _ _ Ha)) as [H|(p & -> & H)]; [left; exact H|right].
  destruct s; cbn [cmd_of_step] in Hc; try discriminate Hc;
    try (destruct (is_some (get_store_peer r st)); discriminate Hc); try (destruct passive; discriminate Hc).
  inversion Hc as [Hp]. exists from. rewrite H. f_equal. symmetry.
  unfold get_store_peer in Hp. apply find_some in Hp as [_ Hp]. apply Z.eqb_eq in Hp. exact Hp.
Qed.

Lemma leader_named_transfers : forall ss r, leader r <> 0 -> transfers_named ss = true -> leader_named r ss = true.
Proof.
  induction ss as [|s ss IH]; intros r Hl Ht; [reflexivity|]. cbn [leader_named transfers_named forallb] in *.
  apply andb_true_iff in Ht as [Hs Ht].
  destruct (exec_step r s) as [|e| |c|c r'] eqn:E; auto.
  apply andb_true_iff. split; [apply negb_true_iff, Z.eqb_neq; exact Hl|]. apply IH; [|exact Ht].
  destruct (exec_leader _ _ _ _ E) as [H|(f & H)]; [congruence|]. subst s. apply negb_true_iff, Z.eqb_neq in Hs. exact Hs.
Qed.

(* no step emitted so far hands the leader to store 0 *)
Definition Named (b : bstate) : Prop := transfers_named (b_steps b) = true.

Lemma tn_append b b' l : b_steps b' = b_steps b ++ l -> transfers_named l = true -> Named b -> Named b'.
Proof. unfold Named, transfers_named. intros -> Hl H. rewrite forallb_app, H, Hl. reflexivity. Qed.

Lemma tn_transfer b to : to <> 0 -> Named b -> Named (exec_transfer b to).
Proof. intros Ht. apply (tn_append b _ [TransferLeader (b_cur_leader b) to]); [reflexivity|]. cbn. apply Z.eqb_neq in Ht. rewrite Ht. reflexivity. Qed.

Lemma tn_add b p : Named b -> Named (exec_add b p).
Proof. eapply tn_append; [reflexivity|]. destruct (is_learner p), (b_light b); reflexivity. Qed.

Lemma tn_remove b p : Named b -> Named (exec_remove b p).
Proof. eapply tn_append; reflexivity. Qed.
Lemma tn_promote b p : Named b -> Named (exec_promote b p).
Proof. eapply tn_append; reflexivity. Qed.
Lemma tn_demote b p : Named b -> Named (exec_demote b p).
Proof. eapply tn_append; reflexivity. Qed.

(* the joint path: the script, whose one transfer goes to joint_tl b *)
Lemma joint_plan_named light A P D R m ol tl : tl <> 0 -> transfers_named (joint_plan light A P D R m ol tl) = true.
Proof.
  intros Ht. apply Z.eqb_neq in Ht.
  assert (HA : transfers_named (add_steps light A) = true).
  { apply forallb_forall. intros s Hs. apply in_map_iff in Hs as (a & <- & _). unfold add_step. destruct light; reflexivity. }
  assert (HR : transfers_named (remove_steps R) = true).
  { apply forallb_forall. intros s Hs. apply in_map_iff in Hs as (a & <- & _). reflexivity. }
  unfold transfers_named, joint_plan in *.
  destruct m; cbn [app]; rewrite forallb_app, HA; cbn [forallb andb negb]; rewrite ?Ht, ?HR; reflexivity.
Qed.

Lemma tn_maybe_transfer b l : Named b -> Named (maybe_transfer b l).
Proof.
  intros H. unfold maybe_transfer. destruct (l =? 0) eqn:E; cbn [negb andb]; [exact H|].
  destruct (negb (l =? b_cur_leader b)); [|exact H]. apply tn_transfer; [apply Z.eqb_neq; exact E|exact H].
Qed.

Lemma tn_apply_plan b p : Named b -> Named (apply_plan b p).
Proof.
  intros H. rewrite apply_plan_eq.
  assert (H1 : Named (do_add (maybe_transfer b (lba p)) (p_add p))).
  { destruct (p_add p); cbn [do_add]; [apply tn_add|]; apply tn_maybe_transfer, H. }
  assert (H2 : Named (maybe_transfer (do_promote (do_add (maybe_transfer b (lba p)) (p_add p)) (p_promote p)) (lbr p))).
  { apply tn_maybe_transfer. destruct (p_promote p); cbn [do_promote]; [apply tn_promote|]; exact H1. }
  destruct (p_remove p); cbn [do_remove]; [apply tn_remove|]; (destruct (p_demote p); cbn [do_demote]; [apply tn_demote|]; exact H2).
Qed.

Lemma tn_loop : forall fuel b bF, Named b -> nonjoint_loop fuel b = BOk bF -> Named bF.
Proof.
  induction fuel as [|f IH]; intros b bF H E; cbn [nonjoint_loop] in E; destruct (Nat.eqb (pending b) 0);
    try discriminate E; try (inversion E; subst; exact H).
  destruct (plan_is_empty (peer_plan b)); [discriminate|]. apply (IH _ _ (tn_apply_plan b _ H) E).
Qed.

Lemma tn_nj_finish bF : Named bF -> Named (nj_finish bF).
Proof.
  intros H. unfold nj_finish. cbv zeta.
  assert (H2 : Named (set_target_leader_if_not_exist bF)) by (unfold set_target_leader_if_not_exist; destruct (negb _); exact H).
  destruct (b_tleader (set_target_leader_if_not_exist bF) =? 0) eqn:E0; cbn [negb andb]; [exact H2|].
  destruct (negb _ && _); [|exact H2]. apply (tn_transfer _ _ (proj1 (Z.eqb_neq _ _) E0) H2).
Qed.

Theorem builder_transfers_named i b ss kl kr :
  Prep i b -> prepared i = Some b -> build i = Built ss kl kr -> transfers_named ss = true.
Proof.
  intros Pp Hp Hb. destruct (b_use_joint b) eqn:Ej.
  - destruct (joint_build_script i b ss kl kr Pp Ej Hp Hb) as (Ht & _ & m & -> & _). apply joint_plan_named, Ht.
  - pose proof (build_of_prepared _ _ _ _ _ Hp Hb) as B. rewrite Ej in B. destruct B as (bF & E & ->).
    assert (H : Named b) by (unfold Named; rewrite (pp_steps _ _ Pp); reflexivity). apply tn_nj_finish, (tn_loop _ _ _ H E).
Qed.

Theorem closed_loop_builder i b ss kl kr :
  nodup_stores (peers (i_region i)) = true ->
  is_in_joint (i_region i) = false ->
  (exists lp, get_store_peer (i_region i) (leader (i_region i)) = Some lp /\ prole lp = Voter) ->
  region_ids_nonzero (i_region i) = true -> (forall a, In a (b_add b) -> pid a <> 0) ->
  prepared i = Some b ->
  NoDup (map pid (peers (i_region i)) ++ map pid (b_add b)) ->
  build i = Built ss kl kr ->
  plan_runs_ok (i_region i) ss = true.
Proof.
  intros H1 H2 H3 H4 H5 H6 H7 H8.
  assert (Hok : plan_ok (goal_of b) (i_region i) ss = true) by (apply (builder_plan_ok_general_pf i b ss kl kr); auto).
  assert (Hm : monotone_from [] (i_region i) ss = true).
  { destruct (b_use_joint b) eqn:E; [eapply builder_joint_monotone_pf|eapply builder_nonjoint_monotone_pf]; eauto. }
  apply (closed_loop_runs (goal_of b)); [apply plan_ok_check, Hok|apply (heartbeats_fine_accepted (goal_of b)); auto|].
  pose proof (prepared_prep i b H1 H2 H3 H6) as Pp.
  apply leader_named_transfers; [|exact (builder_transfers_named i b ss kl kr Pp H6 H8)].
  (* NewBuilder refuses a region with a peer on store 0, and the leader is on a peer's store *)
  destruct (pp_leader _ _ Pp) as (lp & Hlp & _).
  apply lk_Some in Hlp as [Hin <-]. apply (pp_nz _ _ Pp lp Hin).
Qed.

Lemma build_prepared i ss kl kr : build i = Built ss kl kr -> exists b, prepared i = Some b.
Proof.
  unfold build, prepared. destruct (new_builder i) as [b0|]; [|discriminate]. destruct (api_ops b0 (i_ops i)) as [b1|]; [|discriminate].
  destruct (prepare_build b1 (i_alloc i)) as [b|]; [eauto|discriminate].
Qed.

Lemma region_ids_nonzero_all r : (forall p, In p (peers r) -> pid p <> 0) -> region_ids_nonzero r = true.
Proof. intros H. apply forallb_forall. intros p Hp. apply negb_true_iff, Z.eqb_neq, H, Hp. Qed.
