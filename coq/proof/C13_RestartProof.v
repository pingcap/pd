(* C13 — Initialize repairs the storage (model/C13_Rules.v, `load_rules` / `load_repairs` / `initialize`):
   whatever was written below rules/ (any sorted key -> value map: garbage, rules that adjustRule refuses,
   rules stored under a key that is not their own, several records claiming one key), after a successful
   Initialize the storage holds exactly the rules that are served, each under its own key.
   Invariant of loadRules' scan over the processed prefix of the storage [scan_inv]; effect of the repairs
   (saves, then the deletions that do not hit a key just rewritten) pointwise in the key [repaired_get]. *)
From Coq Require Import Sorting.Sorted.
From PDV Require Import lib.Base lib.C12_Order lib.C13_Map gen.Gen_C13 model.C13_Rules
  proof.C13_RulesProof proof.C13_UpdateProof proof.C13_HistoryProof.
Local Open Scope list_scope.

Definition memk (k : id * id) (l : list (id * id)) : bool := existsb (pair_eqb k) l.
Definition lastsave (k : id * id) (l : list rule) : option rule := find (fun r => pair_eqb (rkey r) k) (rev l).

Lemma find_app {A} (f : A -> bool) l1 l2 :
  find f (l1 ++ l2) = match find f l1 with Some x => Some x | None => find f l2 end.
Proof. induction l1 as [|a l1 IH]; [reflexivity|]. cbn. destruct (f a); [reflexivity|exact IH]. Qed.

Lemma lastsave_snoc k l r : lastsave k (l ++ [r]) = if pair_eqb (rkey r) k then Some r else lastsave k l.
Proof. unfold lastsave. rewrite rev_app_distr. reflexivity. Qed.

Lemma lastsave_cons k r l :
  lastsave k (r :: l) = match lastsave k l with Some x => Some x | None => if pair_eqb (rkey r) k then Some r else None end.
Proof. unfold lastsave. cbn [rev]. rewrite find_app. cbn. destruct (pair_eqb (rkey r) k); reflexivity. Qed.

Lemma lastsave_none k l : lastsave k l = None <-> existsb (fun r => pair_eqb k (rkey r)) l = false.
Proof.
  induction l as [|r l IH]; [split; reflexivity|]. rewrite lastsave_cons. cbn [existsb]. rewrite (pair_eqb_sym k (rkey r)).
  destruct (lastsave k l) eqn:E.
  - split; [discriminate|]. intros H. apply orb_false_iff in H as [_ H]. apply IH in H. discriminate.
  - destruct IH as [IH _]. rewrite (IH eq_refl), orb_false_r. destruct (pair_eqb (rkey r) k); split; congruence.
Qed.

Lemma memk_snoc k l k0 : memk k (l ++ [k0]) = memk k l || pair_eqb k k0.
Proof. unfold memk. rewrite existsb_app. cbn. rewrite orb_false_r. reflexivity. Qed.

Definition put_rules (l : list rule) (m : list ((id * id) * sval)) : list ((id * id) * sval) :=
  fold_left (fun m r => mset pair_cmp (rkey r) (sv r) m) l m.
Definition del_keys (l : list (id * id)) (m : list ((id * id) * sval)) : list ((id * id) * sval) :=
  fold_left (fun m k => mdel pair_cmp k m) l m.

Lemma put_rules_sorted l : forall m, psorted m -> psorted (put_rules l m).
Proof.
  induction l as [|r l IH]; intros m S; [exact S|]. cbn [put_rules fold_left]. apply IH.
  apply (aset_sorted pair_cmp good_pair pair_cmp_eq); exact S.
Qed.
Lemma del_keys_sorted l : forall m, psorted m -> psorted (del_keys l m).
Proof.
  induction l as [|r l IH]; intros m S; [exact S|]. cbn [del_keys fold_left]. apply IH.
  apply (adel_sorted pair_cmp); exact S.
Qed.

Lemma aget_put_rules l : forall m k, psorted m ->
  mget pair_cmp k (put_rules l m) = match lastsave k l with Some r => Some (sv r) | None => mget pair_cmp k m end.
Proof.
  induction l as [|r l IH]; intros m k S; [reflexivity|]. cbn [put_rules fold_left].
  change (fold_left _ l ?x) with (put_rules l x).
  rewrite IH by (apply (aset_sorted pair_cmp good_pair pair_cmp_eq); exact S).
  rewrite lastsave_cons. destruct (lastsave k l); [reflexivity|].
  rewrite (aget_aset pair_cmp pair_cmp_eq) by exact S. rewrite keqb_pair, (pair_eqb_sym k (rkey r)).
  destruct (pair_eqb (rkey r) k); reflexivity.
Qed.

Lemma aget_del_keys l : forall m k, psorted m ->
  mget pair_cmp k (del_keys l m) = if memk k l then None else mget pair_cmp k m.
Proof.
  induction l as [|k0 l IH]; intros m k S; [reflexivity|]. cbn [del_keys fold_left].
  change (fold_left _ l ?x) with (del_keys l x).
  rewrite IH by (apply (adel_sorted pair_cmp); exact S). unfold memk. cbn [existsb]. fold (memk k l).
  destruct (memk k l); [rewrite orb_true_r; reflexivity|]. rewrite orb_false_r.
  rewrite (aget_adel pair_cmp pair_cmp_eq) by exact S. rewrite keqb_pair. reflexivity.
Qed.

Lemma fold_put_storage l : forall s,
  fold_left (fun s (r : rule) => apply_rule_write (rkey r, Some r) s) l s = Storage (put_rules l (s_rules s)) (s_groups s).
Proof.
  induction l as [|r l IH]; intros s; [destruct s; reflexivity|]. cbn [fold_left put_rules]. rewrite IH. reflexivity.
Qed.
Lemma fold_del_storage l : forall s,
  fold_left (fun s (k : id * id) => apply_rule_write (k, None) s) l s = Storage (del_keys l (s_rules s)) (s_groups s).
Proof.
  induction l as [|r l IH]; intros s; [destruct s; reflexivity|]. cbn [fold_left del_keys]. rewrite IH. reflexivity.
Qed.

Lemma memk_filter k (f : id * id -> bool) l : memk k (filter f l) = memk k l && f k.
Proof.
  induction l as [|x l IH]; [reflexivity|]. cbn [filter]. destruct (f x) eqn:Ef.
  - change (memk k (x :: filter f l)) with (pair_eqb k x || memk k (filter f l)).
    change (memk k (x :: l)) with (pair_eqb k x || memk k l). rewrite IH.
    destruct (pair_eqb k x) eqn:E; cbn [orb]; [|reflexivity]. apply pair_eqb_eq in E. subst. rewrite Ef. reflexivity.
  - change (memk k (x :: l)) with (pair_eqb k x || memk k l). rewrite IH.
    destruct (pair_eqb k x) eqn:E; cbn [orb]; [|reflexivity]. apply pair_eqb_eq in E. subst. rewrite Ef, andb_false_r. reflexivity.
Qed.

(* what is known about key k after the records `done` have been scanned *)
Definition key_ok (acc : loadacc) (done : list ((id * id) * sval)) (k : id * id) : Prop :=
  match lastsave k (la_save acc) with
  | Some r => mget pair_cmp k (la_rules acc) = Some r
  | None =>
      if memk k (la_delete acc) then mget pair_cmp k (la_rules acc) = None
      else match mget pair_cmp k done with
           | None => mget pair_cmp k (la_rules acc) = None
           | Some v => exists r, v = SVRule r /\ mget pair_cmp k (la_rules acc) = Some r
           end
  end.

Record scan_inv (acc : loadacc) (done : list ((id * id) * sval)) : Prop := {
  si_sorted : psorted (la_rules acc);
  si_deleted : forall k, memk k (la_delete acc) = true -> mget pair_cmp k done <> None;
  si_key : forall k, key_ok acc done k
}.

Lemma aget_snoc {V} (done : list ((id * id) * V)) k0 (v0 : V) k :
  Forall (fun x => klt pair_cmp (fst x) k0) done ->
  mget pair_cmp k (done ++ [(k0, v0)]) = if pair_eqb k k0 then Some v0 else mget pair_cmp k done.
Proof.
  induction done as [|[k1 v1] rest IH]; intros F.
  - cbn. rewrite <- keqb_pair. unfold keqb. destruct (pair_cmp k k0); reflexivity.
  - inversion F as [|? ? F1 F2]; subst. cbn [app aget fst]. cbn [fst] in F1. rewrite (IH F2).
    destruct (pair_cmp k k1) eqn:E; try reflexivity.
    apply pair_cmp_eq in E. subst k1.
    destruct (pair_eqb k k0) eqn:E2; [|reflexivity]. apply pair_eqb_eq in E2. subst k0.
    unfold klt in F1. rewrite (g_refl _ good_pair) in F1. discriminate.
Qed.

Lemma sorted_prefix_lt {V} (l1 : list ((id * id) * V)) x l2 :
  psorted (l1 ++ x :: l2) -> Forall (fun y => klt pair_cmp (fst y) (fst x)) l1.
Proof.
  induction l1 as [|a l1 IH]; intros S; [constructor|]. cbn in S. inversion S as [|? ? S' F]; subst.
  constructor; [|apply IH; exact S']. rewrite Forall_forall in F. apply (F x). apply in_or_app. right. left. reflexivity.
Qed.

(* a record that is only marked for deletion *)
Lemma scan_delete acc done k0 v0 :
  scan_inv acc done -> Forall (fun x => klt pair_cmp (fst x) k0) done -> mget pair_cmp k0 done = None ->
  scan_inv (LoadAcc (la_rules acc) (la_save acc) (la_delete acc ++ [k0])) (done ++ [(k0, v0)]).
Proof.
  intros [I1 I2 I3] F N. constructor; cbn [la_rules la_save la_delete].
  - exact I1.
  - intros k. rewrite memk_snoc, (aget_snoc done k0 v0 k F). destruct (pair_eqb k k0); [discriminate|].
    rewrite orb_false_r. apply I2.
  - intros k. specialize (I3 k). unfold key_ok in *. cbn [la_rules la_save la_delete].
    destruct (lastsave k (la_save acc)); [exact I3|].
    rewrite memk_snoc, (aget_snoc done k0 v0 k F). destruct (pair_eqb k k0) eqn:E.
    + apply pair_eqb_eq in E. subst k. rewrite orb_true_r.
      destruct (memk k0 (la_delete acc)) eqn:Em; [exact I3|]. rewrite N in I3. exact I3.
    + rewrite orb_false_r. exact I3.
Qed.

Lemma scan_step acc done k0 v0 :
  scan_inv acc done -> Forall (fun x => klt pair_cmp (fst x) k0) done -> mget pair_cmp k0 done = None ->
  scan_inv (lstep acc (k0, v0)) (done ++ [(k0, v0)]).
Proof.
  intros I F N. unfold lstep. cbn [fst snd].
  destruct v0 as [r0|]; [|apply scan_delete; assumption].
  destruct (adjust_rule r0 None) as [r|] eqn:Ea; [|apply scan_delete; assumption].
  destruct (adjust_rule_none r0 r Ea) as [-> _].
  destruct (rget (rkey r0) (la_rules acc)) eqn:Eg; [apply scan_delete; assumption|].
  unfold rget in Eg. destruct I as [I1 I2 I3].
  assert (Hset : forall k, mget pair_cmp k (mset pair_cmp (rkey r0) r0 (la_rules acc)) =
                           if pair_eqb k (rkey r0) then Some r0 else mget pair_cmp k (la_rules acc)).
  { intros k. rewrite (aget_aset pair_cmp pair_cmp_eq) by exact I1. rewrite keqb_pair. reflexivity. }
  assert (Nd : memk k0 (la_delete acc) = false).
  { destruct (memk k0 (la_delete acc)) eqn:E; [|reflexivity]. exfalso. apply (I2 k0 E). exact N. }
  destruct (pair_eqb k0 (rkey r0)) eqn:Ek.
  - (* served under its own key, in place *)
    apply pair_eqb_eq in Ek. subst k0. constructor; cbn [la_rules la_save la_delete].
    + apply (aset_sorted pair_cmp good_pair pair_cmp_eq); exact I1.
    + intros k Hk. rewrite (aget_snoc done (rkey r0) (SVRule r0) k F). destruct (pair_eqb k (rkey r0)); [discriminate|].
      apply I2; exact Hk.
    + intros k. specialize (I3 k). unfold key_ok in *. cbn [la_rules la_save la_delete]. rewrite Hset.
      rewrite (aget_snoc done (rkey r0) (SVRule r0) k F).
      destruct (pair_eqb k (rkey r0)) eqn:E.
      * apply pair_eqb_eq in E. subst k.
        destruct (lastsave (rkey r0) (la_save acc)); [rewrite Eg in I3; discriminate|].
        rewrite Nd. exists r0. split; reflexivity.
      * exact I3.
  - (* served under its own key, the record is moved there *)
    constructor; cbn [la_rules la_save la_delete].
    + apply (aset_sorted pair_cmp good_pair pair_cmp_eq); exact I1.
    + intros k. rewrite memk_snoc, (aget_snoc done k0 (SVRule r0) k F). destruct (pair_eqb k k0); [discriminate|].
      rewrite orb_false_r. apply I2.
    + intros k. specialize (I3 k). unfold key_ok in *. cbn [la_rules la_save la_delete]. rewrite Hset, lastsave_snoc.
      rewrite (pair_eqb_sym (rkey r0) k).
      destruct (pair_eqb k (rkey r0)) eqn:E; [reflexivity|].
      destruct (lastsave k (la_save acc)); [exact I3|].
      rewrite memk_snoc, (aget_snoc done k0 (SVRule r0) k F). destruct (pair_eqb k k0) eqn:E0.
      * apply pair_eqb_eq in E0. subst k. rewrite orb_true_r. rewrite Nd, N in I3. exact I3.
      * rewrite orb_false_r. exact I3.
Qed.

Lemma scan_all todo : forall done acc,
  psorted (done ++ todo) -> scan_inv acc done -> scan_inv (fold_left lstep todo acc) (done ++ todo).
Proof.
  induction todo as [|[k0 v0] todo IH]; intros done acc S I; [rewrite app_nil_r; exact I|].
  cbn [fold_left]. replace (done ++ (k0, v0) :: todo) with ((done ++ [(k0, v0)]) ++ todo) by (rewrite <- app_assoc; reflexivity).
  pose proof (sorted_prefix_lt done (k0, v0) todo S) as F. cbn [fst] in F.
  apply IH; [rewrite <- app_assoc; exact S|]. apply scan_step; [exact I|exact F|].
  destruct (mget pair_cmp k0 done) eqn:E; [|reflexivity]. apply (aget_In pair_cmp pair_cmp_eq) in E.
  rewrite Forall_forall in F. specialize (F _ E). cbn in F. unfold klt in F. rewrite (g_refl _ good_pair) in F. discriminate.
Qed.

Lemma load_rules_inv s : psorted (s_rules s) -> scan_inv (load_rules s) (s_rules s).
Proof.
  intros S. rewrite load_rules_fold. apply (scan_all (s_rules s) [] (LoadAcc [] [] [])); [exact S|].
  constructor; cbn; [constructor|discriminate|]. intros k. unfold key_ok. cbn. reflexivity.
Qed.

Definition strip_sval (v : sval) : sval := match v with SVRule r => SVRule (strip r) | SVGarbage => SVGarbage end.

Lemma strip_sv r : strip_sval (sv r) = sv r.
Proof. unfold sv, strip_sval, strip. rewrite set_group_twice. reflexivity. Qed.

Lemma repaired_get s k : ssorted s ->
  option_map strip_sval (mget pair_cmp k (s_rules (snd (load_repairs s)))) =
  option_map sv (mget pair_cmp k (la_rules (load_rules s))).
Proof.
  intros [S1 S2]. pose proof (load_rules_inv s S1) as [I1 I2 I3]. specialize (I3 k).
  unfold load_repairs. cbn [snd]. rewrite fold_put_storage, fold_del_storage. cbn [s_rules].
  rewrite aget_del_keys by (apply put_rules_sorted; exact S1). rewrite aget_put_rules by exact S1.
  rewrite memk_filter. unfold key_ok in I3.
  destruct (lastsave k (la_save (load_rules s))) as [r|] eqn:El.
  - assert (Ex : existsb (fun r => pair_eqb k (rkey r)) (la_save (load_rules s)) = true).
    { destruct (existsb _ (la_save (load_rules s))) eqn:E; [reflexivity|]. apply lastsave_none in E. congruence. }
    rewrite Ex, andb_false_r, I3. cbn [option_map]. rewrite strip_sv. reflexivity.
  - apply lastsave_none in El. rewrite El, andb_true_r.
    destruct (memk k (la_delete (load_rules s))); [rewrite I3; reflexivity|].
    destruct (mget pair_cmp k (s_rules s)) as [v|]; [|rewrite I3; reflexivity].
    destruct I3 as [r [-> I3]]. rewrite I3. reflexivity.
Qed.

Lemma repaired_rules s : ssorted s ->
  map_vals strip_sval (s_rules (snd (load_repairs s))) = map_vals sv (la_rules (load_rules s)).
Proof.
  intros S. pose proof (load_repairs_sorted s S) as [S2 _]. pose proof (load_rules_inv s (proj1 S)) as [I1 _ _].
  apply (asorted_ext pair_cmp good_pair pair_cmp_eq).
  - apply (map_vals_sorted pair_cmp). exact S2.
  - apply (map_vals_sorted pair_cmp). exact I1.
  - intros k. unfold map_vals. rewrite !(aget_map_vals pair_cmp). apply repaired_get. exact S.
Qed.

Theorem initialize_repairs s mr m s' : ssorted s -> initialize s mr = (inl m, s') ->
  map_vals strip_sval (s_rules s') = map_vals sv (c_rules (m_conf m)).
Proof.
  intros S H. pose proof (repaired_rules s S) as R. unfold initialize in H.
  destruct (load_repairs s) as [acc s2] eqn:El. cbn [snd] in R.
  assert (Ea : acc = load_rules s) by (unfold load_repairs in El; inversion El; reflexivity). rewrite <- Ea in R.
  destruct (la_rules acc) as [|x rs] eqn:Er.
  - (* nothing valid was stored: the default rule is created and saved *)
    rewrite config_adjust_unfold in H. cbn zeta in H. cbn [c_rules c_groups] in H.
    destruct (build_rule_list _) as [e|rl]; inversion H; subst m s'. clear H. cbn [m_conf c_rules].
    unfold map_vals in *. cbn [map fst snd] in *. rewrite sv_set_group.
    destruct s2 as [sr sg]. cbn [s_rules] in R. destruct sr as [|y ys]; [|discriminate].
    cbn. unfold strip_sval, strip, sv. rewrite set_group_twice. reflexivity.
  - rewrite config_adjust_unfold in H. cbn zeta in H. cbn [c_rules c_groups] in H.
    destruct (build_rule_list _) as [e|rl]; inversion H; subst m s'. clear H. cbn [m_conf c_rules].
    rewrite R. symmetry. set (gs := fold_left add_default rs _).
    exact (map_vals_sv_regroup (fun kr => gget (r_gid (snd kr)) gs) (x :: rs)).
Qed.

(* records written by PD carry no group pointer (apply_rule_write strips it); when that holds of every stored
   rule the equality is literal *)
Definition groupless (m : list ((id * id) * sval)) : Prop := forall k v, In (k, v) m -> strip_sval v = v.

Lemma groupless_map_vals m : groupless m -> map_vals strip_sval m = m.
Proof.
  induction m as [|[k v] m IH]; intros G; [reflexivity|]. cbn. rewrite (G k v (or_introl eq_refl)).
  f_equal. apply IH. intros k' v' Hin. apply (G k' v'). right. exact Hin.
Qed.
