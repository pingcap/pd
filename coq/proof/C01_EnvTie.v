(* C01 <- C03: the timestamp model accepts every label of the leadership environment (model/C03_Env.v) that the
   election model produces (proof/C03_EnvRefine.v), at the same projected state.  The only side condition is the
   bounded-pause hypothesis E4 at an election (nothing of that member is in flight and its leader loop is outside a
   term), which is a hypothesis about the timestamp side, not about leadership.  With this, C01/C02's theorems -
   proved for every label sequence the timestamp model accepts - cover every leadership behaviour of the election
   model: E2 is discharged by C03, not assumed. *)
From Coq Require Import Bool Arith.
From PDV Require Import lib.Base model.C01_Tso model.C03_Env.

Definition proj (s : state) : env := Env (owner s) (fun m => valid (mems s m)).

Definition lab (l : elabel) : label :=
  match l with
  | EElect m => LElect m | EValidOff m => LValidOff m | EValidOn m => LValidOn m | EOwnerGone => LOwnerGone
  end.

Lemma valid_upd_f s m x j :
  valid (upd_f (mems s) m x j) = if Nat.eqb j m then valid x else valid (mems s j).
Proof. unfold upd_f. destruct (Nat.eqb j m); reflexivity. Qed.

Theorem env_label_accepted s l e' :
  estep (proj s) l = Some e' ->
  (forall m, l = EElect m -> busy s m = false) ->
  exists s', step0 s (lab l) = Some s' /\ env_eq (proj s') e'.
Proof.
  intros H E4. destruct l as [m|m|m|]; cbn [lab step0]; cbn [estep proj eowner evalid] in H.
  - destruct (owner s) eqn:O; [discriminate|]. rewrite (E4 m eq_refl).
    inversion H; subst e'. eexists. split; [reflexivity|]. split; [reflexivity|].
    intros j. cbn [proj evalid mems]. rewrite valid_upd_f. unfold eupd. destruct (Nat.eqb j m); reflexivity.
  - inversion H; subst e'. eexists. split; [reflexivity|]. split; [reflexivity|].
    intros j. cbn [proj evalid set_mem mems]. rewrite valid_upd_f. unfold eupd. destruct (Nat.eqb j m); reflexivity.
  - destruct (owner s) as [o|] eqn:O; [|discriminate].
    destruct (Nat.eqb o m) eqn:Eo; [|discriminate].
    inversion H; subst e'.
    assert (Hown : is_owner s m = true) by (unfold is_owner; rewrite O; exact Eo).
    rewrite Hown. cbn [orb]. eexists. split; [reflexivity|]. split; [cbn; exact O|].
    intros j. cbn [proj evalid set_mem mems]. rewrite valid_upd_f. unfold eupd. destruct (Nat.eqb j m); reflexivity.
  - destruct (owner s) as [o|] eqn:O; [|discriminate].
    destruct (valid (mems s o)) eqn:V; [discriminate|].
    inversion H; subst e'. eexists. split; [reflexivity|]. split; [reflexivity|]. intros j. reflexivity.
Qed.

Lemma upd_f_times s m x' j :
  phys x' = phys (mems s m) -> logical x' = logical (mems s m) -> last_saved x' = last_saved (mems s m) ->
  phys (upd_f (mems s) m x' j) = phys (mems s j) /\ logical (upd_f (mems s) m x' j) = logical (mems s j) /\
  last_saved (upd_f (mems s) m x' j) = last_saved (mems s j).
Proof. intros. unfold upd_f. destruct (Nat.eqb_spec j m) as [->|]; auto. Qed.

(* an environment label changes nothing but the record's owner, the validity flags and the ghost control state of
   the elected member: the stored window, the memories' timestamps and the granted ranges are untouched *)
Theorem env_label_keeps_timestamps s l s' :
  step0 s (lab l) = Some s' ->
  W s' = W s /\ recs s' = recs s /\
  forall j, phys (mems s' j) = phys (mems s j) /\ logical (mems s' j) = logical (mems s j) /\
            last_saved (mems s' j) = last_saved (mems s j).
Proof.
  intros H. destruct l as [m|m|m|]; cbn [lab step0] in H.
  - destruct (owner s); [discriminate|]. destruct (busy s m); [discriminate|]. inv H.
    split; [reflexivity|]. split; [reflexivity|]. intros j. apply upd_f_times; reflexivity.
  - inv H. split; [reflexivity|]. split; [reflexivity|]. intros j. apply upd_f_times; reflexivity.
  - destruct (is_owner s m || negb (busy s m)); [|discriminate]. inv H.
    split; [reflexivity|]. split; [reflexivity|]. intros j. apply upd_f_times; reflexivity.
  - destruct (owner s) as [o|]; [|discriminate]. destruct (valid (mems s o)); [discriminate|]. inv H. cbn. auto.
Qed.
