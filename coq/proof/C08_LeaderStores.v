(* C08 — the builder's own rule for leader targets, in general: outside the forced-leader variant every TransferLeader
   step of a builder plan goes to a store the cluster knows and that accepts leaders (or to the requested leader where
   the leader already was) - any region, any number of stores, any call sequence, both build paths. *)
From Coq Require Import String Sorting.Sorted.
From PDV Require Import lib.Base gen.Gen_C08 model.C08_Steps model.C08_Builder
     proof.C08_ListFacts proof.C08_PmapFacts proof.C08_SimPhases proof.C08_JointScript proof.C08_PrepareFacts
     proof.C08_JointBuild proof.C08_JointFacts proof.C08_JointMain proof.C08_StepSpec proof.C08_NjSteps proof.C08_NjPlans proof.C08_NjApply proof.C08_Skel proof.C08_NjMain.
Local Open Scope list_scope.
Local Open Scope Z_scope.

Definition tl_ok (cl : cluster) (ol asked : Z) (s : step) : bool :=
  match s with
  | TransferLeader _ t => store_takes_leader cl t || ((t =? asked) && (t =? ol))
  | _ => true
  end.

Lemma leader_stores_ok_eq cl ol asked force ss :
  leader_stores_ok cl ol asked force ss = force || forallb (tl_ok cl ol asked) ss.
Proof. reflexivity. Qed.

(* allowLeader without the limit exemption: the store leads, or it is known and accepts leaders *)
Lemma allow_store b p : allow_leader b p false = true ->
  pstore p = b_cur_leader b \/ store_takes_leader (b_cluster b) (pstore p) = true.
Proof.
  unfold allow_leader, store_takes_leader. destruct (in_names (role_name (prole p)) no_leader_roles); [discriminate|].
  destruct (pstore p =? b_cur_leader b) eqn:E; [left; apply Z.eqb_eq; exact E|].
  intros H. right. destruct (get_store (b_cluster b) (pstore p)); [exact H|discriminate].
Qed.

Lemma allowed_store b l : Allowed b l -> l = b_cur_leader b \/ store_takes_leader (b_cluster b) l = true.
Proof.
  intros [Hin Ha]. unfold pm_get in Ha. fold (lk (b_cur b) l) in Ha. destruct (lk (b_cur b) l) as [q|] eqn:Eq.
  - cbn [allow_leader_o] in Ha. pose proof (lk_Some _ _ _ Eq) as [_ Hs]. rewrite <- Hs. apply allow_store. exact Ha.
  - apply lk_None in Eq. contradiction.
Qed.

Lemma after_store b o la st : allow_leader_after b o la = true -> ostore o = st -> o <> None ->
  st = la \/ store_takes_leader (b_cluster b) st = true.
Proof.
  unfold allow_leader_after. destruct o as [q|]; [|intros _ _ C; contradiction]. cbn [allow_leader_o ostore]. intros H <- _.
  apply (allow_store (with_leader b la) q H).
Qed.

Record LOK (cl : cluster) (ol asked : Z) (b : bstate) : Prop := {
  l_steps : forallb (tl_ok cl ol asked) (b_steps b) = true;
  l_cluster : b_cluster b = cl;
  l_force : b_force b = false
}.

Lemma tl_ok_app cl ol asked l1 l2 :
  forallb (tl_ok cl ol asked) l1 = true -> forallb (tl_ok cl ol asked) l2 = true -> forallb (tl_ok cl ol asked) (l1 ++ l2) = true.
Proof. intros A B. rewrite forallb_app, A, B. reflexivity. Qed.

Section Round.
  Variables (cl : cluster) (ol asked : Z).

  Lemma lok_kinds b kl kr : LOK cl ol asked b -> LOK cl ol asked (set_kinds b kl kr).
  Proof. intros [A B C]. constructor; assumption. Qed.

  Lemma lok_transfer b l :
    LOK cl ol asked b -> (l = 0 \/ l = b_cur_leader b \/ store_takes_leader cl l = true) ->
    LOK cl ol asked (maybe_transfer b l)
    /\ b_cur_leader (maybe_transfer b l) = (if negb (l =? 0) && negb (l =? b_cur_leader b) then l else b_cur_leader b).
  Proof.
    intros [A B C] H. unfold maybe_transfer. destruct (negb (l =? 0) && negb (l =? b_cur_leader b)) eqn:E.
    - split; [|reflexivity]. apply andb_true_iff in E as [E1 E2]. apply negb_true_iff, Z.eqb_neq in E1, E2.
      destruct H as [H|[H|H]]; try contradiction.
      constructor; cbn [set_kinds exec_transfer upd_exec b_steps b_cluster b_force]; try assumption.
      apply tl_ok_app; [exact A|]. cbn [forallb tl_ok]. rewrite H. reflexivity.
    - split; [constructor; assumption|reflexivity].
  Qed.

  Lemma lok_add b oa : LOK cl ol asked b -> LOK cl ol asked (do_add b oa) /\ b_cur_leader (do_add b oa) = b_cur_leader b.
  Proof.
    intros [A B C]. destruct oa as [a|]; cbn [do_add]; [|split; [constructor; assumption|reflexivity]].
    split; [|reflexivity]. constructor; cbn [set_kinds exec_add upd_exec b_steps b_cluster b_force]; try assumption.
    apply tl_ok_app; [exact A|]. destruct (is_learner a), (b_light b); reflexivity.
  Qed.

  Lemma lok_promote b ox : LOK cl ol asked b -> LOK cl ol asked (do_promote b ox) /\ b_cur_leader (do_promote b ox) = b_cur_leader b.
  Proof.
    intros [A B C]. destruct ox as [x|]; cbn [do_promote]; [|split; [constructor; assumption|reflexivity]].
    split; [|reflexivity]. constructor; cbn [exec_promote upd_exec b_steps b_cluster b_force]; try assumption.
    apply tl_ok_app; [exact A|reflexivity].
  Qed.

  Lemma lok_demote b ox : LOK cl ol asked b -> LOK cl ol asked (do_demote b ox).
  Proof.
    intros [A B C]. destruct ox as [x|]; cbn [do_demote]; [|constructor; assumption].
    constructor; cbn [exec_demote upd_exec b_steps b_cluster b_force]; try assumption.
    apply tl_ok_app; [exact A|reflexivity].
  Qed.

  Lemma lok_remove b ox : LOK cl ol asked b -> LOK cl ol asked (do_remove b ox).
  Proof.
    intros [A B C]. destruct ox as [x|]; cbn [do_remove]; [|constructor; assumption].
    constructor; cbn [set_kinds exec_remove upd_exec b_steps b_cluster b_force]; try assumption.
    apply tl_ok_app; [exact A|reflexivity].
  Qed.

  (* the two leader moves of a round, as the plan kinds allow them *)
  Lemma plan_leaders b p :
    b_cluster b = cl -> PlanKind b p ->
    (lba p = 0 \/ lba p = b_cur_leader b \/ store_takes_leader cl (lba p) = true)
    /\ (lbr p = 0 \/ lbr p = (if negb (lba p =? 0) && negb (lba p =? b_cur_leader b) then lba p else b_cur_leader b)
        \/ store_takes_leader cl (lbr p) = true).
  Proof.
    intros Hc K. subst cl.
    destruct K as [(next & HB & (Hsb & HAa & N1 & N2 & Hlr))|x rest Hp Ep|Hre Hp0 (d & l & Hd & HAl & Nl & Ep)|Hre Hp0 (x & l & Hx & HAl & Nl & Ep)|(a & l & Ha & Hf & HAl & Ep)].
    - split.
      + destruct (allowed_store b _ HAa) as [E|E]; auto.
      + assert (G : lbr p = lba p \/ store_takes_leader (b_cluster b) (lbr p) = true).
        { destruct Hlr as [[Hin Haf]|[(I1 & I2 & I3)|(I1 & I2 & I3)]].
          - unfold pm_get in Haf. fold (lk (b_cur b) (lbr p)) in Haf. destruct (lk (b_cur b) (lbr p)) as [q|] eqn:Eq.
            + pose proof (lk_Some _ _ _ Eq) as [_ Hs]. apply (after_store b (Some q) (lba p)); [exact Haf|exact Hs|discriminate].
            + apply lk_None in Eq. contradiction.
          - apply (after_store b (p_promote next) (lba p)); [exact I3|symmetry; exact I2|].
            destruct (p_promote next); [discriminate|discriminate I1].
          - apply (after_store b (p_add next) (lba p)); [exact I3|symmetry; exact I2|].
            destruct (p_add next); [discriminate|discriminate I1]. }
        destruct G as [G|G]; [|auto].
        destruct (lba p =? 0) eqn:E0; cbn [negb andb].
        * left. rewrite G. apply Z.eqb_eq. exact E0.
        * destruct (lba p =? b_cur_leader b) eqn:E1; cbn [negb]; right; left; [rewrite G; apply Z.eqb_eq; exact E1|exact G].
    - subst p. cbn [lba lbr]. auto.
    - subst p. cbn [lba lbr]. split; [auto|]. cbn. destruct (allowed_store b l HAl) as [E|E]; auto.
    - subst p. cbn [lba lbr]. split; [auto|]. cbn. destruct (allowed_store b l HAl) as [E|E]; auto.
    - subst p. cbn [lba lbr]. split; [|auto]. destruct (allowed_store b l HAl) as [E|E]; auto.
  Qed.

  Lemma apply_plan_lok b p : LOK cl ol asked b -> PlanKind b p -> LOK cl ol asked (apply_plan b p).
  Proof.
    intros L K. destruct (plan_leaders b p (l_cluster _ _ _ _ L) K) as [H1 H2]. rewrite apply_plan_eq.
    destruct (lok_transfer b (lba p) L H1) as [L1 C1].
    destruct (lok_add _ (p_add p) L1) as [L2 C2].
    destruct (lok_promote _ (p_promote p) L2) as [L3 C3].
    assert (H4 : lbr p = 0 \/ lbr p = b_cur_leader (do_promote (do_add (maybe_transfer b (lba p)) (p_add p)) (p_promote p))
                 \/ store_takes_leader cl (lbr p) = true).
    { rewrite C3, C2, C1. exact H2. }
    destruct (lok_transfer _ (lbr p) L3 H4) as [L4 _].
    apply lok_remove, lok_demote. exact L4.
  Qed.

  Lemma loop_lok fuel b bF : LOK cl ol asked b -> nonjoint_loop fuel b = BOk bF -> LOK cl ol asked bF.
  Proof.
    intros L H. apply (nonjoint_loop_inv (LOK cl ol asked) (fun c E Lc => apply_plan_lok c _ Lc (peer_plan_spec c E)) fuel b bF L H).
  Qed.
End Round.

Theorem builder_nonjoint_leader_stores_pf i b ss kl kr :
  nodup_stores (peers (i_region i)) = true ->
  is_in_joint (i_region i) = false ->
  (exists lp, get_store_peer (i_region i) (leader (i_region i)) = Some lp /\ prole lp = Voter) ->
  prepared i = Some b -> b_use_joint b = false ->
  build i = Built ss kl kr ->
  leader_stores_ok (b_cluster b) (leader (i_region i)) (b_tleader b) (b_force b) ss = true.
Proof.
  intros Hnd Hnj Hlead Hprep Huj Hbuild.
  rewrite leader_stores_ok_eq. destruct (b_force b) eqn:Ef; [reflexivity|]. cbn [orb].
  pose proof (prepared_prep i b Hnd Hnj Hlead Hprep) as P.
  pose proof (build_of_prepared _ _ _ _ _ Hprep Hbuild) as B. rewrite Huj in B. destruct B as (bF & Eloop & ->).
  set (cl := b_cluster b) in *. set (asked := b_tleader b) in *. set (l0 := leader (i_region i)).
  assert (Hcur : b_cur_leader b = l0) by (rewrite (pp_curl _ _ P); apply (pp_oleader _ _ P)).
  assert (L0 : LOK cl l0 asked b) by (constructor; [rewrite (pp_steps _ _ P); reflexivity|reflexivity|exact Ef]).
  pose proof (loop_lok cl l0 asked _ _ _ L0 Eloop) as [LF1 LF2 LF3].
  destruct (loop_keeps _ _ _ Eloop) as (EtF & ElF & _).
  unfold nj_finish. set (b2 := set_target_leader_if_not_exist bF).
  assert (Hb2 : b_steps b2 = b_steps bF /\ b_cur_leader b2 = b_cur_leader bF).
  { unfold b2, set_target_leader_if_not_exist. destruct (negb (b_tleader bF =? 0)); split; reflexivity. }
  destruct Hb2 as [Hs2 Hc2].
  destruct (negb (b_tleader b2 =? 0) && negb (b_cur_leader b2 =? b_tleader b2) && is_some (pm_get (b_cur b2) (b_tleader b2))) eqn:Ec;
    [|rewrite Hs2; exact LF1].
  apply andb_true_iff in Ec as [Ec _]. apply andb_true_iff in Ec as [E0 E1].
  apply negb_true_iff, Z.eqb_neq in E0, E1.
  cbn [set_kinds exec_transfer upd_exec b_steps]. rewrite Hs2. apply tl_ok_app; [exact LF1|].
  cbn [forallb tl_ok]. rewrite andb_true_r.
  unfold b2, set_target_leader_if_not_exist in E0, E1 |- *. destruct (b_tleader bF =? 0) eqn:Ez; cbn [negb] in *.
  - cbn [b_tleader set_tleader b_cur_leader] in *.
    destruct (pick_target_leader_spec bF) as [Hz|(p & Hp & Ha)]; [contradiction|].
    rewrite LF3 in Ha. pose proof (lk_Some _ _ _ Hp) as [_ Hs].
    destruct (allow_store bF p Ha) as [E|E].
    + exfalso. apply E1. rewrite <- E. exact Hs.
    + rewrite Hs, LF2 in E. rewrite E. reflexivity.
  - rewrite ElF. fold asked.
    destruct (pp_tleader _ _ P) as [Hz|(p & Hp & _ & Ha)]; [exfalso; apply E0; rewrite ElF; exact Hz|].
    rewrite Ef in Ha. pose proof (lk_Some _ _ _ Hp) as [_ Hs].
    destruct (allow_store b p Ha) as [E|E].
    + rewrite Hs, Hcur in E. fold asked in E. rewrite E, !Z.eqb_refl. apply orb_true_r.
    + rewrite Hs in E. fold cl asked in E. rewrite E. reflexivity.
Qed.

Lemma add_steps_ok cl ol asked light A : forallb (tl_ok cl ol asked) (add_steps light A) = true.
Proof. unfold add_steps. induction A as [|a A IH]; [reflexivity|]. cbn [map forallb]. rewrite IH. unfold add_step. destruct light; reflexivity. Qed.
Lemma remove_steps_ok cl ol asked R : forallb (tl_ok cl ol asked) (remove_steps R) = true.
Proof. unfold remove_steps. induction R as [|a A IH]; [reflexivity|]. cbn [map forallb]. exact IH. Qed.

Theorem builder_joint_leader_stores_pf i b ss kl kr :
  nodup_stores (peers (i_region i)) = true ->
  is_in_joint (i_region i) = false ->
  (exists lp, get_store_peer (i_region i) (leader (i_region i)) = Some lp /\ prole lp = Voter) ->
  prepared i = Some b -> b_use_joint b = true ->
  build i = Built ss kl kr ->
  leader_stores_ok (b_cluster b) (leader (i_region i)) (b_tleader b) (b_force b) ss = true.
Proof.
  intros Hnd Hnj Hlead Hprep Huj Hbuild.
  rewrite leader_stores_ok_eq. destruct (b_force b) eqn:Ef; [reflexivity|]. cbn [orb].
  pose proof (prepared_prep i b Hnd Hnj Hlead Hprep) as P.
  destruct (joint_build_script i b ss kl kr P Huj Hprep Hbuild) as (Htl0 & _ & m & -> & Hmode).
  set (l0 := leader (i_region i)) in *.
  assert (Hcur : b_cur_leader b = l0) by (rewrite (pp_curl _ _ P); apply (pp_oleader _ _ P)).
  assert (Hgo : l0 <> joint_tl b -> tl_ok (b_cluster b) l0 (b_tleader b) (TransferLeader l0 (joint_tl b)) = true).
  { intros Hne. cbn [tl_ok].
    assert (Ha : exists p, pm_get (b_target b) (joint_tl b) = Some p /\ allow_leader b p false = true).
    { destruct (joint_tl_source b) as [(Hn & ->)|(Hz & [C|(p & Hp & Ha)])]; [|contradiction|exists p; rewrite Ef in Ha; auto].
      destruct (pp_tleader _ _ P) as [C|(p & Hp & _ & Ha)]; [contradiction|]. rewrite Ef in Ha. eauto. }
    destruct Ha as (p & Hp & Ha). pose proof (lk_Some _ _ _ Hp) as [_ Hs]. destruct (allow_store b p Ha) as [E|E].
    - exfalso. apply Hne. rewrite <- Hs, E. symmetry. exact Hcur.
    - rewrite Hs in E. rewrite E. reflexivity. }
  unfold joint_plan. apply tl_ok_app; [apply add_steps_ok|].
  destruct m; cbn [app forallb].
  1-3: destruct Hmode as [Hne _]; rewrite (Hgo Hne).
  all: cbn [tl_ok andb]; apply remove_steps_ok.
Qed.

Theorem builder_leader_stores_pf i b ss kl kr :
  nodup_stores (peers (i_region i)) = true ->
  is_in_joint (i_region i) = false ->
  (exists lp, get_store_peer (i_region i) (leader (i_region i)) = Some lp /\ prole lp = Voter) ->
  prepared i = Some b -> build i = Built ss kl kr ->
  leader_stores_ok (b_cluster b) (leader (i_region i)) (b_tleader b) (b_force b) ss = true.
Proof.
  intros H1 H2 H3 H4 H5. destruct (b_use_joint b) eqn:E.
  - eapply builder_joint_leader_stores_pf; eauto.
  - eapply builder_nonjoint_leader_stores_pf; eauto.
Qed.
