(* C11 — proofs about the scatter model and the scheduler moves (model/C11_Scatter.v).
   All statements quantify over every cluster, every counter state (= every history of earlier scatter
   decisions, in every group), every region and EVERY processing order of the peers. *)
From Coq Require Import Permutation.
From PDV Require Import lib.C07_List lib.C10_Cluster lib.C10_StepFacts gen.Gen_C11 model.C11_Scatter proof.C11_Tables.
Local Open Scope list_scope.
Local Open Scope Z_scope.

Lemma choices_in cands g src c : In c (choices cands g src) -> c = src \/ In c cands.
Proof.
  unfold choices. destruct cands as [|x r]; [cbn; intros [H|[]]; auto|].
  destruct (memZ src (x :: r) && (g src <=? min_count g (x :: r))).
  - cbn. intros [H|[]]; auto.
  - intros H. apply filter_In in H as [H _]. right; exact H.
Qed.

Lemma select_candidates_in stores e g guard sel excl c :
  In c (select_candidates stores e g guard sel excl) ->
  ~ In c sel /\ ~ In c excl /\ exists s, In s stores /\ sid s = c /\ sft Gen_C11.scatter_flags s = true /\ e s = true /\ guard c = true.
Proof.
  unfold select_candidates. intros H. apply in_map_iff in H as (s & <- & H). apply filter_In in H as [Hin H].
  rewrite !andb_true_iff in H. destruct H as (((((_ & Hs) & Hx) & He) & Hf) & Hg).
  apply negb_true_iff, memZ_notin in Hx. apply negb_true_iff, memZ_notin in Hs.
  split; [exact Hs|]. split; [exact Hx|]. exists s. repeat split; assumption.
Qed.

Record up_store (s : store) : Prop := {
  us_up : sst s = SUp; us_not_down : s_down s = false; us_connected : s_disc s = false; us_not_busy : s_busy s = false
}.

Lemma up_store_of_conds s :
  cond_raw isTombstone s = false -> cond_raw isOffline s = false -> cond_raw isDown s = false ->
  cond_raw isDisconnected s = false -> cond_raw isBusy s = false -> up_store s.
Proof. intros T O D Dc B. constructor; [apply up_of_conds; assumption|exact D|exact Dc|exact B]. Qed.

(* passing a StoreStateFilter value clears the store of every condition the value excludes (proof/C11_Tables.v);
   `F c eq_refl` is the clause for condition c *)
Lemma scatter_filter_facts s : sft Gen_C11.scatter_flags s = true -> up_store s.
Proof.
  intros H. pose proof (dispatch_pass_clear _ _ _ _ _ _ H scatter_excludes) as F.
  apply up_store_of_conds; apply F; reflexivity.
Qed.

Section Run.
  Variable stores : list store.
  Variable grp : Z.
  Variable guard : Z -> Z -> bool.
  Variable rs : list Z.
  Variable e : store -> bool.
  Variable g : gdist.

  (* a peer stays on its store, or goes to an up store that passes the engine filter, was not selected for another
     peer and is not the store of another peer of the region *)
  Lemma peer_choices_in a p c :
    In c (peer_choices stores grp guard rs e g a p) ->
    c = p_store p \/ (~ In c (a_selected a) /\ ~ In c (others rs (p_store p))
                      /\ exists s, In s stores /\ sid s = c /\ up_store s /\ e s = true).
  Proof.
    unfold peer_choices. destruct (find_store stores (p_store p)) as [s0|]; [|cbn; intros [H|[]]; auto].
    intros H. apply choices_in in H as [H|H]; [left; exact H|right].
    apply select_candidates_in in H as (H1 & H2 & s & Hs & Hid & Hf & He & _).
    split; [exact H1|]. split; [exact H2|]. exists s. auto using scatter_filter_facts.
  Qed.

  (* the targets are the selected stores in processing order, carrying the roles of the peers processed so far *)
  Definition targets_follow (a : acc) (done : list peer) : Prop :=
    map fst (a_targets a) = rev (a_selected a) /\ NoDup (a_selected a) /\ map snd (a_targets a) = map p_role done.

  Lemma targets_follow_nil : targets_follow (Acc [] [] false) [].
  Proof. unfold targets_follow; cbn. repeat split; constructor. Qed.

  Lemma set_target_fresh t s r : ~ In s (map fst t) -> set_target t s r = t ++ [(s, r)].
  Proof.
    induction t as [|[k v] t IH]; cbn; intros H; [reflexivity|].
    destruct (k =? s) eqn:E; [apply Z.eqb_eq in E; exfalso; apply H; left; exact E|].
    f_equal. apply IH. intros X; apply H; right; exact X.
  Qed.

  Lemma targets_follow_step a done p c cl :
    targets_follow a done -> memZ c (a_selected a) = false ->
    targets_follow (Acc (set_target (a_targets a) c (p_role p)) (c :: a_selected a) cl) (done ++ [p]).
  Proof.
    intros (T1 & T2 & T3) Hm. apply memZ_notin in Hm. unfold targets_follow; cbn [a_targets a_selected].
    rewrite set_target_fresh by (rewrite T1; intros Y; apply in_rev in Y; contradiction).
    rewrite !map_app, T1, T3. cbn [map fst snd rev]. repeat split. constructor; assumption.
  Qed.

  (* the clash flag is only ever raised *)
  Lemma run_order_clash_mono order : forall a out,
    In out (run_order stores grp guard rs e g a order) -> a_clash out = false -> a_clash a = false.
  Proof.
    induction order as [|p rest IH]; intros a out Hin Hc; cbn [run_order] in Hin.
    - destruct Hin as [<-|[]]. exact Hc.
    - apply in_flat_map in Hin as (c & _ & Hin). apply IH in Hin; [|exact Hc]. cbn [a_clash] in Hin.
      apply orb_false_iff in Hin. apply Hin.
  Qed.

  Lemma run_order_targets_follow order : forall a done out,
    In out (run_order stores grp guard rs e g a order) -> a_clash out = false ->
    targets_follow a done -> targets_follow out (done ++ order).
  Proof.
    induction order as [|p rest IH]; intros a done out Hin Hc Ht; cbn [run_order] in Hin.
    - destruct Hin as [<-|[]]. rewrite app_nil_r. exact Ht.
    - apply in_flat_map in Hin as (c & _ & Hin).
      pose proof (run_order_clash_mono rest _ out Hin Hc) as Hor. cbn [a_clash] in Hor. apply orb_false_iff in Hor as [_ Hm].
      replace (done ++ p :: rest) with ((done ++ [p]) ++ rest) by (rewrite <- app_assoc; reflexivity).
      exact (IH _ _ _ Hin Hc (targets_follow_step a done p c _ Ht Hm)).
  Qed.

  (* no selected store is the store of a peer still to come *)
  Definition selected_avoid (a : acc) (remaining : list Z) : Prop := forall s, In s (a_selected a) -> ~ In s remaining.

  Lemma never_clashes order : forall rem a out,
    NoDup (stores_of order ++ rem) -> incl (stores_of order ++ rem) rs ->
    a_clash a = false -> selected_avoid a (stores_of order ++ rem) ->
    In out (run_order stores grp guard rs e g a order) ->
    a_clash out = false /\ selected_avoid out rem.
  Proof.
    induction order as [|p rest IH]; intros rem a out Hnd Hincl Hc Hs Hin; cbn [run_order] in Hin.
    - destruct Hin as [<-|[]]. split; [exact Hc|]. exact Hs.
    - apply in_flat_map in Hin as (c & Hcs & Hin).
      cbn [stores_of map app] in Hnd, Hincl, Hs. fold (stores_of rest) in Hnd, Hincl, Hs.
      inversion Hnd as [|? ? Hp Hnd']; subst.
      assert (Hnew : ~ In c (a_selected a) /\ ~ In c (stores_of rest ++ rem)).
      { apply peer_choices_in in Hcs as [->|(H1 & H2 & _)].
        - split; [|exact Hp]. intros X. apply (Hs _ X). left; reflexivity.
        - split; [exact H1|]. intros X. apply H2. unfold others. apply filter_In. split.
          + apply Hincl. right; exact X.
          + apply negb_true_iff. apply Z.eqb_neq. intros ->. contradiction. }
      destruct Hnew as [Hn1 Hn2].
      eapply IH; [exact Hnd'| |  | |exact Hin].
      + intros x Hx. apply Hincl. right; exact Hx.
      + cbn [a_clash]. rewrite Hc. apply memZ_notin. exact Hn1.
      + intros s Hsel. cbn [a_selected] in Hsel. destruct Hsel as [<-|Hsel]; [exact Hn2|].
        intros X. apply (Hs _ Hsel). right; exact X.
  Qed.

  (* one phase of scatterRegion over peers whose stores, with those still to come, are distinct stores of the region *)
  Lemma scatter_phase order rem done a out :
    NoDup (stores_of order ++ rem) -> incl (stores_of order ++ rem) rs ->
    a_clash a = false -> targets_follow a done -> selected_avoid a (stores_of order ++ rem) ->
    In out (run_order stores grp guard rs e g a order) ->
    a_clash out = false /\ targets_follow out (done ++ order) /\ selected_avoid out rem.
  Proof.
    intros Hnd Hincl Hc Ht Hs Hin. destruct (never_clashes order rem a out Hnd Hincl Hc Hs Hin) as [C S].
    split; [exact C|]. split; [|exact S]. exact (run_order_targets_follow order a done out Hin C Ht).
  Qed.

  (* the last phase: no stores are still to come *)
  Lemma scatter_phase_last order done a out :
    NoDup (stores_of order) -> incl (stores_of order) rs ->
    a_clash a = false -> targets_follow a done -> selected_avoid a (stores_of order) ->
    In out (run_order stores grp guard rs e g a order) ->
    a_clash out = false /\ targets_follow out (done ++ order).
  Proof.
    rewrite <- (app_nil_r (stores_of order)). intros Hnd Hincl Hc Ht Hs Hin.
    destruct (scatter_phase order [] done a out Hnd Hincl Hc Ht Hs Hin) as (C & T & _). exact (conj C T).
  Qed.
End Run.

Lemma insert_all_perm {A} (x : A) l l' : In l' (insert_all x l) -> Permutation l' (x :: l).
Proof.
  revert l'. induction l as [|y r IH]; intros l' H; cbn in H.
  - destruct H as [<-|[]]. apply Permutation_refl.
  - destruct H as [<-|H]; [apply Permutation_refl|].
    apply in_map_iff in H as (m & <- & Hm). specialize (IH _ Hm).
    eapply Permutation_trans; [apply perm_skip; exact IH|]. apply perm_swap.
Qed.
Lemma perms_perm {A} (l l' : list A) : In l' (perms l) -> Permutation l' l.
Proof.
  revert l'. induction l as [|x r IH]; intros l' H; cbn in H.
  - destruct H as [<-|[]]. apply Permutation_refl.
  - apply in_flat_map in H as (m & Hm & H). apply insert_all_perm in H.
    eapply Permutation_trans; [exact H|]. apply perm_skip. apply IH. exact Hm.
Qed.
Lemma filter_partition_perm {A} (f : A -> bool) l : Permutation (filter f l ++ filter (fun x => negb (f x)) l) l.
Proof.
  induction l as [|x r IH]; cbn; [apply Permutation_refl|].
  destruct (f x); cbn.
  - apply perm_skip. exact IH.
  - eapply Permutation_trans; [apply Permutation_sym; apply Permutation_middle|]. apply perm_skip. exact IH.
Qed.

Lemma NoDup_app_r {A} (a b : list A) : NoDup (a ++ b) -> NoDup b.
Proof. induction a as [|x a IH]; cbn; intros H; [exact H|]. inversion H; auto. Qed.

Theorem scatter_preserves_roles stores st grp guard rule_ok r o :
  NoDup (stores_of (peers r)) ->
  In o (scatter_outcomes stores st grp guard rule_ok r) ->
  o_clash o = false
  /\ Permutation (map snd (o_targets o)) (map p_role (peers r))
  /\ NoDup (map fst (o_targets o))
  /\ List.length (o_targets o) = List.length (peers r).
Proof.
  intros Hnd Ho. unfold scatter_outcomes in Ho.
  set (ordp := filter (fun p => store_is stores is_ordinary (p_store p)) (peers r)) in *.
  set (tfp := filter (fun p => negb (store_is stores is_ordinary (p_store p))) (peers r)) in *.
  apply in_flat_map in Ho as (o1 & Ho1 & Ho). apply in_flat_map in Ho as (a1 & Ha1 & Ho).
  apply in_flat_map in Ho as (ld & _ & Ho). apply in_flat_map in Ho as (o2 & Ho2 & Ho).
  apply in_map_iff in Ho as (a2 & <- & Ha2). cbn [o_clash o_targets].
  apply perms_perm in Ho1. apply perms_perm in Ho2.
  assert (Pall : Permutation (o1 ++ o2) (peers r)).
  { eapply Permutation_trans; [apply Permutation_app; eassumption|]. apply (filter_partition_perm _ (peers r)). }
  assert (Pst : Permutation (stores_of o1 ++ stores_of o2) (stores_of (peers r))).
  { unfold stores_of. rewrite <- map_app. apply Permutation_map. exact Pall. }
  assert (Nd : NoDup (stores_of o1 ++ stores_of o2)).
  { eapply Permutation_NoDup; [apply Permutation_sym; exact Pst|exact Hnd]. }
  assert (Inc : incl (stores_of o1 ++ stores_of o2) (stores_of (peers r))).
  { intros x Hx. eapply Permutation_in; [exact Pst|exact Hx]. }
  destruct (scatter_phase stores grp guard _ is_ordinary (sc_ord st) o1 (stores_of o2) [] (Acc [] [] false) a1 Nd Inc eq_refl targets_follow_nil) as (C1 & T1 & S1);
    [intros s []|exact Ha1|].
  assert (Inc2 : incl (stores_of o2) (stores_of (peers r))) by (intros x Hx; apply Inc, in_or_app; right; exact Hx).
  destruct (scatter_phase_last stores grp guard _ (has_engine val_tiflash) (sc_tf st) o2 _ a1 a2 (NoDup_app_r _ _ Nd) Inc2 C1 T1 S1 Ha2)
    as (C2 & U1 & U2 & U3).
  cbn [app] in U3.
  split; [exact C2|]. split; [|split].
  - rewrite U3. apply Permutation_map. exact Pall.
  - rewrite U1. apply NoDup_rev. exact U2.
  - rewrite <- (map_length snd), U3, map_length. apply Permutation_length. exact Pall.
Qed.

(* group counters {store 1: 1, store 3: 1}, healthy stores 1..3, region on 1,2,3, processing order 1,2,3.
   Without the exclusion of the region's other stores the peer of store 1 goes to store 2 (the only store below the
   maximum), the peer of store 2 has no candidate left and "stays" on the store just given away: targets = {2, 3}, a
   replica lost.  With it store 2 is no candidate for the peer of store 1 and all three peers stay. *)
Definition s12_store (id : Z) : store := Store id SUp false false false false false false false false false false [].
Definition s12_stores : list store := [s12_store 1; s12_store 2; s12_store 3].
Definition s12_peers : list peer := [Peer 11 1 Voter; Peer 12 2 Voter; Peer 13 3 Voter].
Definition s12_counters : gdist := [(1, [(1, 1); (3, 1)])].

Lemma s12_regression :
  run_order s12_stores 1 (fun _ _ => true) [1; 2; 3] is_ordinary s12_counters (Acc [] [] false) s12_peers
  = [Acc [(1, Voter); (2, Voter); (3, Voter)] [3; 2; 1] false].
Proof. vm_compute. reflexivity. Qed.

Lemma move_filter_facts s : sft [MoveRegion] s = true -> up_store s /\ s_noadd s = false /\ s_snap s = false /\ s_pend s = false.
Proof.
  intros H. pose proof (dispatch_pass_clear _ _ _ _ _ _ H move_excludes) as F.
  split; [apply up_store_of_conds; apply F; reflexivity|].
  exact (conj (F exceedAddLimit eq_refl) (conj (F tooManySnapshots eq_refl) (F tooManyPendingPeers eq_refl))).
Qed.

Theorem move_target_good su stores r dst :
  In dst (move_targets [MoveRegion] su stores r) ->
  In dst stores /\ ~ In (sid dst) (stores_of (peers r)) /\ up_store dst /\ su dst = false.
Proof.
  unfold move_targets, move_pred. intros H. apply filter_In in H as [Hin H].
  rewrite !andb_true_iff in H. destruct H as ((Hx & Hs) & Hf).
  apply negb_true_iff in Hx. apply negb_true_iff in Hs.
  assert (N : ~ In (sid dst) (stores_of (peers r))) by (apply memZ_notin; exact Hx).
  split; [exact Hin|]. split; [exact N|]. split; [apply move_filter_facts; exact Hf|exact Hs].
Qed.

Lemma leader_filter_facts s : sft [TransferLeader] s = true -> up_store s /\ s_pause s = false /\ s_reject s = false.
Proof.
  intros H. pose proof (dispatch_pass_clear _ _ _ _ _ _ H leader_excludes) as F.
  split; [apply up_store_of_conds; apply F; reflexivity|].
  exact (conj (F pauseLeaderTransfer eq_refl) (F hasRejectLeaderProperty eq_refl)).
Qed.

(* whatever the flag set: the empty one of grant-leader's forced transfer excludes nothing *)
Lemma leader_target_voter flags stores r dst :
  In dst (leader_targets flags stores r) ->
  (exists p, In p (peers r) /\ p_store p = sid dst /\ is_learner p = false)
  /\ sid dst <> leader_store r /\ sft flags dst = true.
Proof.
  unfold leader_targets. intros H. apply filter_In in H as [_ H].
  apply andb_true_iff in H as [Hex Hf]. apply existsb_exists in Hex as (p & Hp & Hc).
  apply andb_true_iff in Hc as [Hc Hl]. apply andb_true_iff in Hc as [Hst Hlr].
  apply Z.eqb_eq in Hst. apply negb_true_iff in Hlr. apply negb_true_iff in Hl. apply Z.eqb_neq in Hl.
  split; [exists p; repeat split; assumption|]. split; [rewrite <- Hst; exact Hl|exact Hf].
Qed.

Theorem leader_target_good stores r dst :
  In dst (leader_targets [TransferLeader] stores r) ->
  (exists p, In p (peers r) /\ p_store p = sid dst /\ is_learner p = false)
  /\ sid dst <> leader_store r /\ up_store dst /\ s_pause dst = false /\ s_reject dst = false.
Proof.
  intros H. apply leader_target_voter in H as (V & L & Hf).
  split; [exact V|]. split; [exact L|]. exact (leader_filter_facts dst Hf).
Qed.

(* The filters the models do not transcribe (placement safeguard / rule-fit filter, RegionScoreFilter, shouldBalance, the load
   tolerance of hot-region's pickDstStores, random picks) are applied IN CONJUNCTION with the modelled ones
   (filter.Target = all filters must pass; pinned by pin_src_filter_Target / pin_src_hot_pickDstStores in proof/C11_Pins.v): whatever they are, the
   stores that survive them are among the model's admissible targets.  So the set-valued model is a superset of what the code
   can choose, and every theorem about all admissible targets covers the code's choice.  (For peer moves:
   C11_more_filters_only_remove in props/C11.v; for leader moves:) *)
Theorem more_filters_only_remove_leader flags stores r (extra : store -> bool) dst :
  In dst (filter extra (leader_targets flags stores r)) -> In dst (leader_targets flags stores r).
Proof. intros H. apply filter_In in H as [H _]. exact H. Qed.

Theorem scatter_leader_accepts_leaders stores grp ldr cur rule_ok targets l :
  In l (leader_choices stores grp ldr cur rule_ok targets) ->
  leader_candidates stores rule_ok targets <> [] ->
  exists ro s, In (l, ro) targets /\ ro <> Learner /\ find_store stores l = Some s /\ lv_empty (engine_of s) = true
               /\ up_store s /\ s_pause s = false /\ s_reject s = false /\ rule_ok l = true.
Proof.
  unfold leader_choices. intros H Hne.
  destruct (leader_candidates stores rule_ok targets) as [|x cands] eqn:E; [contradiction|].
  unfold least_loaded in H. apply filter_In in H as [H _]. rewrite <- E in H.
  unfold leader_candidates in H. apply in_map_iff in H as ([l' ro] & Hl & H). cbn in Hl. subst l'.
  apply filter_In in H as [Hin H]. cbn [fst snd] in H.
  destruct (find_store stores l) as [s|]; [|discriminate].
  rewrite !andb_true_iff in H. destruct H as (((He & Hro) & Hf) & Hr).
  destruct (leader_filter_facts s Hf) as (U & P & Rj).
  exists ro, s. split; [exact Hin|]. split; [intros ->; cbn in Hro; discriminate|]. split; [reflexivity|].
  split; [exact He|]. split; [exact U|]. split; [exact P|]. split; [exact Rj|exact Hr].
Qed.

Lemma flat_map_no_src (ps : list peer) src :
  ~ In src (stores_of ps) -> flat_map (fun q => if p_store q =? src then [] else [q]) ps = ps.
Proof.
  induction ps as [|q r IH]; cbn; intros H; [reflexivity|].
  destruct (p_store q =? src) eqn:E; [apply Z.eqb_eq in E; exfalso; apply H; left; exact E|].
  cbn. f_equal. apply IH. intros X; apply H; right; exact X.
Qed.

Lemma drop_perm ps src p :
  NoDup (stores_of ps) -> peer_on ps src = Some p ->
  Permutation ps (p :: flat_map (fun q => if p_store q =? src then [] else [q]) ps).
Proof.
  induction ps as [|q r IH]; intros Hnd Hp; [discriminate|].
  cbn [stores_of map] in Hnd. inversion Hnd as [|? ? Hq Hr]; subst.
  unfold peer_on in Hp. cbn [find] in Hp. cbn [flat_map]. destruct (p_store q =? src) eqn:E.
  - inversion Hp; subst. apply Z.eqb_eq in E. subst src. rewrite (flat_map_no_src r (p_store p) Hq). apply Permutation_refl.
  - cbn [app]. exact (perm_trans (perm_skip q (IH Hr Hp)) (perm_swap p q _)).
Qed.

Theorem move_preserves_roles ps src dst id p :
  NoDup (stores_of ps) -> peer_on ps src = Some p -> ~ In dst (stores_of ps) ->
  roles_preserved ps (move_result ps src dst id) = true
  /\ NoDup (stores_of (move_result ps src dst id))
  /\ List.length (move_result ps src dst id) = List.length ps
  /\ src <> dst.
Proof.
  intros Hnd Hp Hd. unfold move_result. rewrite Hp. pose proof (drop_perm ps src p Hnd Hp) as P.
  set (rest := flat_map (fun q => if p_store q =? src then [] else [q]) ps) in *.
  assert (C : forall ro, count_role ro (rest ++ [Peer id dst (p_role p)]) = count_role ro ps).
  { intros ro. unfold count_role. rewrite (Permutation_length (Permutation_filter _ _ _ P)), filter_app, app_length.
    cbn. destruct (role_eqb (p_role p) ro); cbn; lia. }
  pose proof (Permutation_NoDup (Permutation_map p_store P) Hnd) as N. cbn [map] in N. inversion N as [|? ? _ Nr]; subst.
  repeat split.
  - unfold roles_preserved, all_roles. cbn [forallb]. rewrite !C, !Nat.eqb_refl. reflexivity.
  - unfold stores_of. rewrite map_app. apply NoDup_app_one; [exact Nr|].
    intros X. apply Hd. exact (Permutation_in _ (Permutation_sym (Permutation_map p_store P)) (or_intror X)).
  - rewrite app_length, (Permutation_length P). cbn. lia.
  - intros ->. apply Hd. apply find_some in Hp as [Hin E]. apply Z.eqb_eq in E. subst dst. apply in_map. exact Hin.
Qed.
