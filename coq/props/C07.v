(* C07 — Region lookups and per-store statistics match the cached region set.
   Statements with their derivations from the lemmas of proof/C07_*.v.

   Quantification: `ops` is any finite history of SetRegion (OSet) / RemoveRegion of a cached id (ORemove)
   and queries, over arbitrary byte-string keys (empty end key = +infinity), ids, peers, leaders, sizes.
   `state_of ops` is the executable model of core.RegionsInfo (model/C07_Region.v: region_tree.go and region.go
   transcribed over the ordered-list specification L0 of pkg/btree); `spec_of ops` is the plain list of the
   current regions (a put removes every region it overlaps and the older version of the same id).
   `wf_op`: every put region has a valid key range (start < end or end empty), its pending peers sit on stores
   where it has a peer, and no two of its peers (or pending peers) share a store.  The last two conditions are
   the excluded classes of the _partial theorems; without them the code itself violates the clause (_refuted).

   Dependencies named, not hidden: L0 = pkg/btree is a theorem about the Gallina transcription of pkg/btree
   (C07_btree_* below: representation invariant + refinement of L0 for any degree and any strict weak order;
   transcription = code by the body ties and the driver's observation-and-shape comparison), model = code (driver correspondence after every
   operation with all query methods; proof/C07_Skel.v ties every transcribed function body to the source). *)
From Coq Require Import Sorting.Sorted Permutation.
From PDV Require Import lib.Base lib.C07_Key gen.Gen_C07 model.C07_BTreeSpec model.C07_Region
  proof.C07_Sorted proof.C07_Tree proof.C07_RegionProof proof.C07_Spec proof.C07_Spec2 proof.C07_Monitor proof.C07_BTree proof.C07_Skel
  model.C07_BTree proof.C07_BTreeOrder proof.C07_BTreeRefine proof.C07_BTreeSim proof.C07_SortPeers.
Local Open Scope Z_scope.

(* number of indexed regions = number of cached regions = number of current regions; ids unique *)
Theorem C07_tree_eq_map : forall ops, Forall wf_op ops ->
  length (regs (state_of ops)) = length (items (tree (state_of ops))) /\
  length (items (tree (state_of ops))) = length (spec_of ops) /\
  NoDup (map r_id (items (tree (state_of ops)))).
Proof.
  intros ops W. pose proof (Rel_run ops W) as R. destruct (q_len _ _ R) as [A B].
  split; [exact A|]. split; [exact B|apply (q_ids _ _ R)].
Qed.

(* the index is sorted by start key and its ranges are pairwise disjoint *)
Theorem C07_tree_sorted_disjoint : forall ops, Forall wf_op ops ->
  Forall validP (items (tree (state_of ops))) /\ StronglySorted before (items (tree (state_of ops))).
Proof. intros ops W. apply (q_ds _ _ (Rel_run ops W)). Qed.

(* size counters of the main tree and of every per-store sub-tree (leader/follower/learner/pending) *)
Theorem C07_total_size_exact_partial : forall ops, Forall wf_op ops ->
  total_size (tree (state_of ops)) = sum_size (spec_of ops) /\
  forall f s, total_size (fam_of (state_of ops) f s) = sum_size (spec_fam (spec_of ops) f s).
Proof. intros ops W. pose proof (Rel_run ops W) as R. split; [apply (q_total _ _ R)|apply (q_fam_total _ _ R)]. Qed.

Definition C07_total_size_exact_full : Prop := total_size_exact_full.
Theorem C07_total_size_exact_refuted : ~ C07_total_size_exact_full.
Proof.
  intros H. specialize (H witness_shared_store witness_shared_valid FFollower 2). vm_compute in H. discriminate.
Qed.

(* the sub-tree of family f on store s holds exactly the current regions whose peers/leader/pending say so *)
Theorem C07_subtrees_exact_partial : forall ops, Forall wf_op ops ->
  forall f s, items (fam_of (state_of ops) f s) = spec_fam (spec_of ops) f s /\
              rt_len (fam_of (state_of ops) f s) = Z.of_nat (length (spec_fam (spec_of ops) f s)).
Proof. intros ops W f s. pose proof (Rel_run ops W) as R. split; [apply (q_fam_items _ _ R)|apply (q_fam_len _ _ R)]. Qed.

Definition C07_subtrees_exact_full : Prop := subtrees_exact_full.
Theorem C07_subtrees_exact_refuted : ~ C07_subtrees_exact_full.
Proof.
  intros H. specialize (H witness_foreign_pending witness_foreign_valid FPending 4). vm_compute in H. discriminate.
Qed.

(* lookups *)
Theorem C07_get_region_is_cached : forall ops, Forall wf_op ops ->
  forall id, get_region (state_of ops) id = List.find (fun r => r_id r =? id) (spec_of ops).
Proof. intros ops W id. apply (q_get_region _ _ (Rel_run ops W)). Qed.

Theorem C07_search_is_linear_scan : forall ops, Forall wf_op ops ->
  forall k, search_region (state_of ops) k = List.find (fun r => contains r k) (spec_of ops).
Proof. intros ops W k. apply (q_search _ _ (Rel_run ops W)). Qed.

Theorem C07_scan_range_is_linear_scan : forall ops, Forall wf_op ops ->
  forall s e lim, scan (state_of ops) s e lim = map Some (spec_scan (spec_of ops) s e lim).
Proof. intros ops W s e lim. apply (q_scan _ _ (Rel_run ops W)). Qed.

Theorem C07_overlaps_is_linear_scan : forall ops, Forall wf_op ops ->
  forall r, valid_range r = true ->
  get_overlaps (tree (state_of ops)) r = sort_regions (filter (fun x => overlaps x r) (spec_of ops)).
Proof. intros ops W r V. apply (q_overlaps _ _ (Rel_run ops W) r V). Qed.

Theorem C07_set_region_displaces : forall ops, Forall wf_op ops -> forall r, wf_region r = true ->
  snd (set_region (state_of ops) r) =
  sort_regions (filter (fun x => negb (r_id x =? r_id r) && overlaps x r) (spec_of ops)).
Proof.
  intros ops W r WR. pose proof (Rel_run ops W) as R. destruct (Rel_set _ _ r R WR) as [_ E].
  rewrite E. symmetry. apply (q_sorted_filter _ _ R).
Qed.

(* previous-region lookup: the region that contains k, then the region that ends where it starts *)
Theorem C07_search_prev_is_linear_scan : forall ops, Forall wf_op ops ->
  forall k, search_prev_region (state_of ops) k = spec_prev (spec_of ops) k.
Proof. intros ops W k. apply (q_search_prev _ _ (Rel_run ops W)). Qed.

(* adjacent regions of an arbitrary region r: the region that ends at r's start key, and the next region in
   key order after r's start key if it starts exactly at r's end key *)
Theorem C07_adjacent_is_linear_scan : forall ops, Forall wf_op ops ->
  forall r, adjacent (state_of ops) r = spec_adjacent (spec_of ops) r.
Proof. intros ops W r. apply (q_adjacent _ _ (Rel_run ops W)). Qed.

(* random picks (RandLeaderRegion & co.): whatever rand returns, a non-nil pick is a current region with that
   role on that store lying inside the key range ... *)
Theorem C07_random_pick_sound : forall ops, Forall wf_op ops ->
  forall f s ks ke draws x, random_one (fam_of (state_of ops) f s) ks ke draws = Some (Some x) ->
  In x (filter (fun r => involved r ks ke) (spec_fam (spec_of ops) f s)).
Proof.
  intros ops W f s ks ke draws x H. apply random_sound in H as [Hx IV]. apply filter_In. split; [|exact IV].
  rewrite <- (q_fam_items _ _ (Rel_run ops W)). exact Hx.
Qed.

Theorem C07_random_pick_many_sound : forall ops, Forall wf_op ops ->
  forall f s ranges x, In x (snd (random_many (fam_of (state_of ops) f s) ranges)) ->
  exists se, In se ranges /\ In x (filter (fun r => involved r (fst se) (snd se)) (spec_fam (spec_of ops) f s)).
Proof.
  intros ops W f s ranges x H. apply random_many_sound in H as [Hx (se & Hse & IV)]. exists se. split; [exact Hse|].
  apply filter_In. split; [|exact IV]. rewrite <- (q_fam_items _ _ (Rel_run ops W)). exact Hx.
Qed.

(* ... and every such region sits at an index of the interval the code samples from (positive probability) *)
Theorem C07_random_pick_candidates_complete : forall ops, Forall wf_op ops ->
  forall f s ks ke x, In x (filter (fun r => involved r ks ke) (spec_fam (spec_of ops) f s)) ->
  let '(si, ei) := rand_interval (fam_of (state_of ops) f s) ks ke in
  exists d, 0 <= d < ei - si /\ l0_get_at (si + d) (items (fam_of (state_of ops) f s)) = Some x.
Proof.
  intros ops W f s ks ke x H. pose proof (Rel_run ops W) as R.
  apply filter_In in H as [Hx IV]. rewrite <- (q_fam_items _ _ R) in Hx.
  rewrite (q_fam _ _ R) in *. cbn [items] in *.
  apply random_complete; auto. apply ds_filter, (q_ds _ _ R).
Qed.

(* the boolean property the check evaluates on implementation traces (ri_monitor_from: every observation equals
   what the linear-scan specification expects) holds on every model trace of the domain; OAll / ORandN, whose model
   observation is a set, are compared as sets by the correspondence check instead *)
Theorem C07_monitor_silent_on_model : forall ops, Forall wf_op ops -> Forall plain_op ops ->
  ri_monitor_from [] ops (ri_run ri_empty ops) = None.
Proof. intros ops. apply monitor_silent_on_model. split; [apply Inv_empty|reflexivity]. Qed.

(* ---- pkg/btree itself ----
   model/C07_BTree.v is a Gallina B-tree of arbitrary degree (nodes with items / children / indices; insert with
   split, remove with steal-left / steal-right / merge, get, getWithIndex, getAt, min, max, iterate in both
   directions, ReplaceOrInsert, deleteItem) transcribed from pkg/btree/btree.go (proof/C07_Skel.v ties every
   transcribed body; the driver compares observations AND node shapes with the real package).
   `tinv ltb t` is its representation invariant: all leaves at the same depth, every node but the root holds between
   degree-1 and 2*degree-1 items, an internal node with k items has k+1 children, indices[i] = number of items in
   children 0..i plus i, the in-order walk is strictly sorted for `ltb`, `length` is its length.
   `tabs t` is the in-order walk.  For ANY strict weak order `ltb` (Item.Less) and any degree >= 2 every operation
   keeps the invariant, never reaches a panic of the Go code (result Some), and on the abstraction IS the L0 operation. *)
Definition strict_weak_order {A : Type} (ltb : A -> A -> bool) : Prop :=
  (forall a, ltb a a = false) /\
  (forall a b c, ltb a b = true -> ltb b c = true -> ltb a c = true) /\
  (forall a b c, ltb a b = false -> ltb b c = false -> ltb a c = false).

Theorem C07_btree_empty_ok : forall (A : Type) (ltb : A -> A -> bool) d, (2 <= d)%nat ->
  tinv ltb (bt_new d) /\ tabs (bt_new (A := A) d) = [].
Proof. intros A ltb d D. split; [apply tinv_new, D|reflexivity]. Qed.

Theorem C07_btree_replace_or_insert_refines : forall (A : Type) (ltb : A -> A -> bool), strict_weak_order ltb ->
  forall t x, tinv ltb t ->
  exists t' out, replace_or_insert ltb t x = Some (t', out) /\ tinv ltb t' /\ bt_degree t' = bt_degree t /\
                 l0_insert ltb x (tabs t) = (tabs t', out).
Proof. intros A ltb (H1 & H2 & H3). exact (replace_or_insert_spec ltb H1 H2 H3). Qed.

Theorem C07_btree_delete_refines : forall (A : Type) (ltb : A -> A -> bool), strict_weak_order ltb ->
  forall t typ, tinv ltb t ->
  exists t' out, delete_item ltb t typ = Some (t', out) /\ tinv ltb t' /\ bt_degree t' = bt_degree t /\
                 (match typ with
                  | RemoveItem x => l0_delete ltb x (tabs t)
                  | RemoveMin => l0_delete_min (tabs t)
                  | RemoveMax => l0_delete_max (tabs t)
                  end) = (tabs t', out).
Proof.
  intros A ltb (H1 & H2 & H3) t typ T. destruct (delete_item_spec ltb H1 H2 H3 t typ T) as (t' & out & H).
  exists t', out. destruct typ; exact H.
Qed.

(* the fuel the model gives its recursive functions (root height + 1) is enough: results do not depend on it *)
Theorem C07_btree_queries_refine : forall (A : Type) (ltb : A -> A -> bool), strict_weak_order ltb ->
  forall t, tinv ltb t ->
  let q {X} (dflt : X) (f : node A -> nat -> X) := match bt_root t with Some r => f r (S (height r)) | None => dflt end in
  (forall x, q None (fun r h => get ltb h r x) = l0_get ltb x (tabs t)) /\
  (forall x, q (None, 0) (fun r h => get_with_index ltb h r x) = (l0_get ltb x (tabs t), Z.of_nat (l0_rank ltb x (tabs t)))) /\
  (forall k, q None (fun r h => get_at h r k) = l0_get_at k (tabs t)) /\
  (forall x, q [] (fun r h => ascend_from ltb h r (Some x)) = l0_ascend_ge ltb x (tabs t)) /\
  (forall x, q [] (fun r h => fst (descend_from ltb h r x false)) = l0_descend_le ltb x (tabs t)) /\
  q None (fun r h => node_min h r) = hd_error (tabs t) /\
  q None (fun r h => node_max h r) = hd_error (rev (tabs t)) /\
  bt_length t = Z.of_nat (length (tabs t)).
Proof.
  intros A ltb (H1 & H2 & H3) t T. cbv zeta beta. repeat split; intros.
  - apply (bt_q_get ltb H1 H2 H3 t T).
  - apply (bt_q_get_with_index ltb H1 H2 H3 t T).
  - apply (bt_q_get_at ltb t T).
  - apply (bt_q_ascend ltb H1 H2 H3 t T).
  - apply (bt_q_descend ltb H1 H2 H3 t T).
  - apply (bt_q_min ltb t T).
  - apply (bt_q_max ltb t T).
  - apply (tinv_length ltb t T).
Qed.

Theorem C07_btree_region_item_order : strict_weak_order rlt.
Proof. split; [exact rlt_irrefl|split; [exact rlt_trans|exact rlt_negtrans]]. Qed.

(* regionItem.Less (the order of the start keys) is such an order: the trees of core.regionTree *)
Theorem C07_btree_region_items_refine : forall t r, tinv rlt t ->
  (exists t' out, replace_or_insert rlt t r = Some (t', out) /\ tinv rlt t' /\ bt_degree t' = bt_degree t /\
                  l0_insert rlt r (tabs t) = (tabs t', out)) /\
  (exists t' out, delete_item rlt t (RemoveItem r) = Some (t', out) /\ tinv rlt t' /\ bt_degree t' = bt_degree t /\
                  l0_delete rlt r (tabs t) = (tabs t', out)).
Proof.
  intros t r T. split.
  - apply (replace_or_insert_spec rlt rlt_irrefl rlt_trans rlt_negtrans), T.
  - apply (delete_item_spec rlt rlt_irrefl rlt_trans rlt_negtrans t (RemoveItem r)), T.
Qed.

(* Int items, whole runs: for every degree >= 2 and every operation list of the driver's alphabet (insert, delete,
   delete-min/max, get, GetWithIndex, GetAt, both iterations, Len, Min, Max, all ranks) the Gallina B-tree gives
   the observations of the list specification, and every intermediate tree satisfies the invariant *)
Theorem C07_btree_refines_list_spec : forall d ops, (2 <= d)%nat ->
  map (option_map fst) (bt2_run (bt_new d) ops) = map Some (bt_run [] ops) /\
  Forall (shape_ok d) (bt2_run (bt_new d) ops).
Proof. intros d ops D. apply (bt2_run_refines ops (bt_new d)). apply tinv_new, D. Qed.

(* the bookkeeping of `indices` in terms of the sizes of the children (used by the proofs above) *)
Theorem C07_btree_indices_addAt : forall a s b d acc,
  ix_add_at (length a) d (idx_from acc (a ++ s :: b)) = idx_from acc (a ++ (s + d) :: b).
Proof. exact ix_add_at_spec. Qed.
Theorem C07_btree_indices_split : forall a s b nxt,
  ix_split (length a) nxt (idx_of (a ++ s :: b)) = idx_of (a ++ (s - 1 - nxt) :: nxt :: b).
Proof. exact ix_split_spec. Qed.
Theorem C07_btree_indices_merge : forall a s1 s2 b,
  ix_merge (length a) (idx_of (a ++ s1 :: s2 :: b)) = idx_of (a ++ (s1 + 1 + s2) :: b).
Proof. exact ix_merge_spec. Qed.
Theorem C07_btree_indices_removeAt : forall a s b, ix_remove_at (length a) (idx_of (a ++ s :: b)) = (s, idx_of (a ++ b)).
Proof. exact ix_remove_at_spec. Qed.

(* sort.Sort in classifyVoterAndLearner: with distinct peer ids (PD's id allocator) the sorted voter / learner list is
   unique, so the model's insertion sort stands for any correct sort, for any number of peers *)
Theorem C07_sort_peers_unique : forall l l', NoDup (map p_id l) -> Permutation l l' ->
  StronglySorted (fun a b => p_id a <= p_id b) l' -> l' = sort_peers l.
Proof.
  intros l l' N P S. symmetry. apply sorted_perm_unique.
  - eapply Permutation_NoDup; [|exact N]. apply Permutation_map, sort_peers_perm.
  - apply sort_peers_sorted.
  - exact S.
  - eapply Permutation_trans; [apply Permutation_sym, sort_peers_perm|exact P].
Qed.

(* non-vacuity: a history inside the domain with a split-like overlap, an in-place update, a swallowing put
   and a removal; the swallowing region is what remains *)
Example C07_nonvacuous :
  let p := [Peer 1 1 false; Peer 2 2 false; Peer 3 3 true] in
  let ops := [OSet (Region 1 [] [] p 1 [Peer 2 2 false] 10 1 1 1 1);
              OSet (Region 2 [] (K [99]) p 2 [] 4 2 1 1 2);
              OSet (Region 1 (K [99]) [] p 1 [] 6 2 1 1 3);
              OSet (Region 1 (K [99]) [] p 3 [] 7 2 1 1 4);
              OSet (Region 3 (K [100]) (K [102]) p 1 [] 5 1 1 1 5);
              OSet (Region 4 (K [98]) (K [101]) p 1 [] 9 3 1 1 6);
              OSet (Region 5 (K [120]) [] p 1 [] 2 1 1 1 7);
              ORemove 5] in
  Forall wf_op ops /\ map r_id (items (tree (state_of ops))) = [4] /\
  rt_len (leaders (state_of ops) 1) = 1 /\ total_size (followers (state_of ops) 2) = 9.
Proof. cbn zeta. split; [repeat constructor|]. vm_compute. auto. Qed.

Print Assumptions C07_tree_eq_map.
Print Assumptions C07_tree_sorted_disjoint.
Print Assumptions C07_total_size_exact_partial.
Print Assumptions C07_total_size_exact_refuted.
Print Assumptions C07_subtrees_exact_partial.
Print Assumptions C07_subtrees_exact_refuted.
Print Assumptions C07_get_region_is_cached.
Print Assumptions C07_search_is_linear_scan.
Print Assumptions C07_scan_range_is_linear_scan.
Print Assumptions C07_overlaps_is_linear_scan.
Print Assumptions C07_set_region_displaces.
Print Assumptions C07_search_prev_is_linear_scan.
Print Assumptions C07_adjacent_is_linear_scan.
Print Assumptions C07_random_pick_sound.
Print Assumptions C07_random_pick_many_sound.
Print Assumptions C07_random_pick_candidates_complete.
Print Assumptions C07_monitor_silent_on_model.
Print Assumptions C07_btree_empty_ok.
Print Assumptions C07_btree_replace_or_insert_refines.
Print Assumptions C07_btree_delete_refines.
Print Assumptions C07_btree_queries_refine.
Print Assumptions C07_btree_region_item_order.
Print Assumptions C07_btree_region_items_refine.
Print Assumptions C07_btree_refines_list_spec.
Print Assumptions C07_sort_peers_unique.
Print Assumptions C07_btree_indices_split.
Print Assumptions C07_btree_indices_merge.
