(* Membership in tables of names (call sites, handlers) that the translator regenerates: decided by evaluation,
   used through `In`. *)
From Coq Require Export String List Bool.
Export ListNotations.

Definition mem_str (x : string) (l : list string) : bool := existsb (String.eqb x) l.

Lemma mem_str_In x l : mem_str x l = true <-> In x l.
Proof.
  unfold mem_str. rewrite existsb_exists. split.
  - intros (y & Hy & E). apply String.eqb_eq in E. subst. exact Hy.
  - intros H. exists x. split; [exact H | apply String.eqb_refl].
Qed.

Lemma all_in_incl l1 l2 : forallb (fun x => mem_str x l2) l1 = true -> forall s, In s l1 -> In s l2.
Proof. intros H s Hs. rewrite forallb_forall in H. apply mem_str_In, H, Hs. Qed.
