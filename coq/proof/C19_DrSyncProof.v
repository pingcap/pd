(* C19 — proofs about model/C19_DrSync.v: the one place a status is published (`switch`), which state a tick can enter
   and why, the scan invariant, and the bookkeeping of state ids and DR_STATE files along histories. *)
From Coq Require Import String Ascii.
From PDV Require Import lib.Base gen.Gen_C19 model.C19_DrSync.
Local Open Scope string_scope.
Local Open Scope Z_scope.

(* side condition on the constant the translator regenerates (the model's default_batch, the value of `bsz` the harness boots
   with unless it lowers it): a positive scan batch (0 would mean "no limit") *)
Lemma batch_pos : 0 < Gen_C19.regionScanBatchSize.
Proof. reflexivity. Qed.

Lemma wr_cases f i : wr f i = (true, true) \/ wr f i = (false, false) \/ wr f i = (true, false).
Proof.
  unfold wr. destruct (f_save f) as [[j k]|]; [|auto]. destruct (Nat.eqb j i); [destruct k|]; auto.
Qed.

(* AllocID ; replicate file ; save ; publish.  The state after a switch to t that was saved and published (only sync_recover
   resets the cursor) ... *)
Definition published (s : state) (t : dstate) : state :=
  let st := Status t (next_id s) in
  let reset := dstate_eqb t SyncRecover in
  set_status s (Some st) (Some st) (st :: files s) (next_id s + 1) (if reset then "" else cur_key s) (if reset then 0 else cur_cnt s)
             true (if reset then [] else chain s) (next_id s :: used s).
(* ... and after one whose save failed: the id is spent, the file is out, storage holds st' *)
Definition unpublished (s : state) (t : dstate) (st' : option status) : state :=
  set_status s (served s) st' (Status t (next_id s) :: files s) (next_id s + 1) (cur_key s) (cur_cnt s) false (chain s) (used s).

Lemma switch_cases s t f i :
  switch s t f i = (s, false) \/
  (snd (wr f i) = true /\ switch s t f i = (published s t, true)) \/
  (snd (wr f i) = false /\ exists st', (st' = stored s \/ st' = Some (Status t (next_id s))) /\
                                       switch s t f i = (unpublished s t st', false)).
Proof.
  unfold switch. destruct (alloc_fails f i); [left; reflexivity|right].
  destruct (wr_cases f i) as [E|[E|E]]; rewrite E; cbn [snd].
  - left. split; [reflexivity|]. destruct t; reflexivity.
  - right. split; [reflexivity|]. exists (stored s). split; [left|]; reflexivity.
  - right. split; [reflexivity|]. eexists. split; [right|]; reflexivity.
Qed.

(* what holds before a switch, of the published state and of every unpublished one holds after the switch *)
Lemma switch_preserves (P : state -> Prop) s t f i :
  P s -> P (published s t) ->
  (forall st', st' = stored s \/ st' = Some (Status t (next_id s)) -> P (unpublished s t st')) ->
  P (fst (switch s t f i)).
Proof.
  intros A B C. destruct (switch_cases s t f i) as [E|[[_ E]|(_&st'&Hs&E)]]; rewrite E; cbn [fst]; auto.
Qed.

Lemma switch_ok s t f i s' : switch s t f i = (s', true) -> snd (wr f i) = true /\ s' = published s t.
Proof. destruct (switch_cases s t f i) as [E|[[W E]|(_&st'&_&E)]]; rewrite E; intros H; inv H. auto. Qed.
Lemma switch_failed s t f i s' :
  switch s t f i = (s', false) -> s' = s \/ exists st', (st' = stored s \/ st' = Some (Status t (next_id s))) /\ s' = unpublished s t st'.
Proof. destruct (switch_cases s t f i) as [E|[[W E]|(_&st'&Hs&E)]]; rewrite E; intros H; inv H; eauto. Qed.

(* UpdateConfig takes the new configuration as it is, or after a switch (to sync_recover when dr-auto-sync is switched on,
   to async when the label key changes) whose failure puts the old configuration back *)
Lemma update_config_cases s c f :
  update_config s c f = (set_cfg s c, true) \/
  exists t, update_config s c f =
            let '(s1, ok) := switch (set_cfg s c) t f 0 in (if ok then s1 else set_cfg s1 (cfg s), ok).
Proof.
  unfold update_config. destruct (negb (cf_dr (cfg s)) && cf_dr c)%bool.
  - right. exists SyncRecover. destruct (switch _ _ _ _) as [s1 [|]]; reflexivity.
  - destruct (cf_dr (cfg s) && cf_dr c && negb (String.eqb (cf_label (cfg s)) (cf_label c)))%bool; [right|left; reflexivity].
    exists Async. destruct (switch _ _ _ _) as [s1 [|]]; reflexivity.
Qed.

Lemma update_config_failed s c f s' : update_config s c f = (s', false) -> served s' = served s /\ cfg s' = cfg s.
Proof.
  destruct (update_config_cases s c f) as [E|[t E]]; rewrite E; [discriminate|].
  destruct (switch (set_cfg s c) t f 0) as [s1 [|]] eqn:Es; intros H; inv H.
  destruct (switch_failed _ _ _ _ _ Es) as [->|(st'&_&->)]; split; reflexivity.
Qed.

(* failed stores of the primary / dr datacenter; canSync and hasMajority of tickDR on them *)
Definition dp (s : state) := count_down (cf_label (cfg s)) (stores s) Primary.
Definition dd (s : state) := count_down (cf_label (cfg s)) (stores s) Dr.
Definition cs_of (s : state) := can_sync (cfg s) (dp s) (dd s).
Definition hm_of (s : state) := has_majority (cfg s) (dp s) (dd s).

(* tickDR as its three steps.  canSync and hasMajority are computed once, before the cascade of switches, so step 2 reads
   them off the state s the tick started in while the served status it tests is that of s1, after step 1; n1, n2 count the
   switch attempts so far (the index a fault refers to) *)
Definition tick1 (s : state) (f : fault) : state * nat :=
  if negb (cs_of s) && hm_of s && negb (in_state s Async) && async_ok s
  then (fst (switch s Async f 0), 1%nat) else (s, 0%nat).
Definition tick2 (s : state) (s1 : state) (n1 : nat) (f : fault) : state * nat :=
  if cs_of s && in_state s1 Async then (fst (switch s1 SyncRecover f n1), S n1) else (s1, n1).
Definition progress_figures (s3 : state) : state :=
  State (cfg s3) (served s3) (stored s3) (files s3) (next_id s3) (cur_key s3) (cur_cnt s3)
        (dr_total s3) (cur_cnt s3) (dr_total s3) (regions s3) (stores s3) (bsz s3) (clk s3) (chain s3) (used s3).
Definition tick3 (s2 : state) (n2 : nat) (f : fault) : state :=
  if in_state s2 SyncRecover then
    let s3 := update_progress s2 in
    if finished s3 then fst (switch s3 Sync f n2) else progress_figures s3
  else s2.

Lemma tick_decomp s f :
  tick s f = if negb (cf_dr (cfg s)) then s else
             let '(s1, n1) := tick1 s f in let '(s2, n2) := tick2 s s1 n1 f in tick3 s2 n2 f.
Proof. reflexivity. Qed.

(* s' has the status bookkeeping / the scan cursor of s *)
Definition same_status (s s' : state) : Prop :=
  served s' = served s /\ stored s' = stored s /\ files s' = files s /\ next_id s' = next_id s /\ used s' = used s.
Definition same_cursor (s s' : state) : Prop := cur_key s' = cur_key s /\ cur_cnt s' = cur_cnt s /\ chain s' = chain s.

(* the scan moves the cursor and nothing of the status bookkeeping *)
Lemma progress_loop_status fuel : forall s, same_status s (progress_loop fuel s).
Proof.
  induction fuel as [|n IH]; intros s; cbn [progress_loop]; [repeat split|].
  destruct (negb (key_empty (cur_key s)) || (cur_cnt s =? 0))%bool; [|repeat split].
  destruct (scan (regions s) (cur_key s) (bsz s)) as [|r0 rest] eqn:Eb; [repeat split|].
  destruct (walk (cur_id s) (cur_key s) (cur_cnt s) (chain s) (r0 :: rest)) as [[[k c] passed] hit].
  destruct hit; [repeat split|]. exact (IH _).
Qed.
Lemma update_progress_status s : same_status s (update_progress s).
Proof. apply progress_loop_status. Qed.
Lemma update_progress_served s : served (update_progress s) = served s.
Proof. apply update_progress_status. Qed.

Lemma in_state_served s s' d : served s' = served s -> in_state s' d = in_state s d.
Proof. unfold in_state, cur_state. intros ->. reflexivity. Qed.

Lemma dstate_eqb_eq a b : dstate_eqb a b = true <-> a = b.
Proof. destruct a, b; cbn; split; intros; try discriminate; reflexivity. Qed.

Lemma in_state_excl s a b : in_state s a = true -> in_state s b = true -> a = b.
Proof.
  unfold in_state, cur_state. destruct (served s) as [x|]; cbn; [|discriminate].
  rewrite !dstate_eqb_eq. congruence.
Qed.

Lemma in_state_published s t d : in_state (published s t) d = dstate_eqb t d.
Proof. reflexivity. Qed.

Lemma switch_enters s t f i d : in_state (fst (switch s t f i)) d = true -> in_state s d = true \/ d = t.
Proof.
  apply switch_preserves; [auto| |auto]. rewrite in_state_published, dstate_eqb_eq. auto.
Qed.

Lemma tick1_enters s f s1 n1 d :
  tick1 s f = (s1, n1) -> in_state s1 d = true ->
  in_state s d = true \/ (d = Async /\ cs_of s = false /\ hm_of s = true /\ async_ok s = true).
Proof.
  unfold tick1. destruct (negb (cs_of s) && hm_of s && negb (in_state s Async) && async_ok s)%bool eqn:C1; intros H; inv H; [|auto].
  apply andb_true_iff in C1 as [C1 Ca]. apply andb_true_iff in C1 as [C1 _]. apply andb_true_iff in C1 as [Cc Ch].
  apply negb_true_iff in Cc. intros Hd. destruct (switch_enters _ _ _ _ _ Hd); auto.
Qed.

Lemma tick2_enters s s1 n1 f s2 n2 d :
  tick2 s s1 n1 f = (s2, n2) -> in_state s2 d = true ->
  in_state s1 d = true \/ (d = SyncRecover /\ cs_of s = true /\ in_state s1 Async = true).
Proof.
  unfold tick2. destruct (cs_of s && in_state s1 Async)%bool eqn:C2; intros H; inv H; [|auto].
  apply andb_true_iff in C2 as [Cs Ca]. intros Hd. destruct (switch_enters _ _ _ _ _ Hd); auto.
Qed.

Lemma tick3_enters s2 n2 f d : in_state (tick3 s2 n2 f) d = true -> in_state s2 d = true \/ d = Sync.
Proof.
  unfold tick3. destruct (in_state s2 SyncRecover); [|auto].
  destruct (finished (update_progress s2)).
  - intros Hd. destruct (switch_enters _ _ _ _ _ Hd) as [H|H]; [left|auto].
    rewrite (in_state_served _ _ _ (update_progress_served s2)) in H. exact H.
  - rewrite (in_state_served _ (progress_figures (update_progress s2)) _ (update_progress_served s2)). auto.
Qed.

(* a tick enters async only when a dc lost all its replicas, a majority can be up and the timeout passed; sync_recover only
   from async and when both dcs have fewer failed stores than replicas (the two guards exclude each other, so one tick never
   goes through both switches) *)
Lemma tick_enters s f d :
  in_state s d = false -> in_state (tick s f) d = true ->
  match d with
  | Async => cs_of s = false /\ hm_of s = true /\ async_ok s = true
  | SyncRecover => cs_of s = true /\ in_state s Async = true
  | Sync => True
  end.
Proof.
  intros H0 H1. rewrite tick_decomp in H1. destruct (negb (cf_dr (cfg s))); [congruence|].
  destruct (tick1 s f) as [s1 n1] eqn:E1. destruct (tick2 s s1 n1 f) as [s2 n2] eqn:E2.
  destruct (tick3_enters _ _ _ _ H1) as [H2| ->]; [|exact I].
  destruct (tick2_enters _ _ _ _ _ _ _ E2 H2) as [H3|(->&Cs&Ha)].
  - destruct (tick1_enters _ _ _ _ _ E1 H3) as [?|(->&A)]; [congruence|exact A].
  - split; [exact Cs|]. destruct (tick1_enters _ _ _ _ _ E1 Ha) as [?|(_&Cf&_)]; [assumption|congruence].
Qed.

Definition good (sid : Z) (r : region) : Prop := r_sid r = sid /\ r_int r = true.
(* l (oldest first) leads from key a to key b without a gap *)
Fixpoint path (l : list region) (a b : string) : Prop :=
  match l with
  | [] => a = b
  | r :: t => r_start r = a /\ path t (r_end r) b
  end.
Lemma path_app l1 : forall a b r, path l1 a b -> r_start r = b -> path (l1 ++ [r]) a (r_end r).
Proof.
  induction l1 as [|x t IH]; intros a b r H Hr; cbn in *.
  - subst. split; reflexivity.
  - destruct H as [H1 H2]. split; [exact H1|]. eapply IH; eauto.
Qed.

Definition scan_inv (s : state) : Prop :=
  in_state s SyncRecover = true ->
  path (rev (chain s)) "" (cur_key s) /\ Forall (good (cur_id s)) (chain s) /\ cur_cnt s = Z.of_nat (length (chain s)).

Lemma walk_spec sid : forall batch k c passed k' c' passed' hit,
  walk sid k c passed batch = (k', c', passed', hit) ->
  path (rev passed) "" k -> Forall (good sid) passed -> c = Z.of_nat (length passed) ->
  path (rev passed') "" k' /\ Forall (good sid) passed' /\ c' = Z.of_nat (length passed') /\
  (forall r, In r passed' -> In r passed \/ In r batch).
Proof.
  induction batch as [|r t IH]; intros k c passed k' c' passed' hit H P G C; cbn [walk] in H.
  - inv H. repeat split; auto.
  - destruct (recovered sid r k) eqn:Er.
    + unfold recovered in Er. apply andb_true_iff in Er as [Er Ei]. apply andb_true_iff in Er as [Ek Es].
      apply String.eqb_eq in Ek. apply Z.eqb_eq in Es.
      destruct (IH _ _ _ _ _ _ _ H) as (A&B&D&E).
      * cbn [rev]. eapply path_app; eauto.
      * constructor; [split; auto|exact G].
      * cbn [length]. rewrite Nat2Z.inj_succ. lia.
      * repeat split; auto. intros x Hx. destruct (E x Hx) as [[<-|Hp]|Hb]; [right; left; reflexivity|left; exact Hp|right; right; exact Hb].
    + inv H. repeat split; auto.
Qed.

Lemma scan_subset l k n r : In r (scan l k n) -> In r l.
Proof.
  unfold scan. intros H.
  assert (D : forall l, In r (drop_before k l) -> In r l).
  { induction l0 as [|x t IH]; cbn; [auto|]. destruct (before_key k x); [intros Hx; right; auto|auto]. }
  destruct n; [apply D; exact H|]. apply D. rewrite <- (firstn_skipn (S n)). apply in_or_app. left. exact H.
Qed.

Lemma progress_loop_inv fuel : forall s,
  path (rev (chain s)) "" (cur_key s) -> Forall (good (cur_id s)) (chain s) -> cur_cnt s = Z.of_nat (length (chain s)) ->
  let s' := progress_loop fuel s in
  path (rev (chain s')) "" (cur_key s') /\ Forall (good (cur_id s)) (chain s') /\ cur_cnt s' = Z.of_nat (length (chain s')) /\
  (forall r, In r (chain s') -> In r (chain s) \/ In r (regions s)).
Proof.
  induction fuel as [|n IH]; intros s P G C; cbn [progress_loop]; [repeat split; auto|].
  destruct (negb (key_empty (cur_key s)) || (cur_cnt s =? 0))%bool; [|repeat split; auto].
  destruct (scan (regions s) (cur_key s) (bsz s)) as [|r0 rest] eqn:Eb; [repeat split; auto|].
  destruct (walk (cur_id s) (cur_key s) (cur_cnt s) (chain s) (r0 :: rest)) as [[[k c] passed] hit] eqn:Ew.
  destruct (walk_spec _ _ _ _ _ _ _ _ _ Ew P G C) as (A&B&D&E).
  assert (Esub : forall r, In r passed -> In r (chain s) \/ In r (regions s)).
  { intros r Hr. destruct (E r Hr) as [Hp|Hb]; [left; exact Hp|right]. rewrite <- Eb in Hb. eapply scan_subset; exact Hb. }
  destruct hit; [cbn; repeat split; auto|].
  match goal with |- context [progress_loop n ?x] => specialize (IH x) end.
  cbn [chain cur_key cur_cnt cur_id served regions] in IH. unfold cur_id in *. cbn [served] in IH.
  destruct (IH A B D) as (A'&B'&D'&E'). repeat split; auto.
  intros r Hr. destruct (E' r Hr) as [Hp|Hb]; [apply Esub; exact Hp|right; exact Hb].
Qed.

Lemma update_progress_inv s :
  scan_inv s -> in_state s SyncRecover = true ->
  let s' := update_progress s in
  path (rev (chain s')) "" (cur_key s') /\ Forall (good (cur_id s)) (chain s') /\ cur_cnt s' = Z.of_nat (length (chain s')) /\
  (forall r, In r (chain s') -> In r (chain s) \/ In r (regions s)).
Proof. intros I H. destruct (I H) as (P&G&C). apply progress_loop_inv; assumption. Qed.

Lemma finished_spec s : finished s = true -> cur_key s = "" /\ 0 < cur_cnt s.
Proof.
  unfold finished, key_empty. intros H. apply andb_true_iff in H as [A B]. apply String.eqb_eq in A. split; [exact A|lia].
Qed.

Lemma switch_regions s t f i : regions (fst (switch s t f i)) = regions s.
Proof. apply switch_preserves; reflexivity. Qed.
Lemma switch_chain s t f i : chain (fst (switch s t f i)) = chain s \/ chain (fst (switch s t f i)) = [].
Proof. apply switch_preserves; [auto|destruct t; cbn; auto|auto]. Qed.
Lemma switch_chain_kept s t f i : t <> SyncRecover -> chain (fst (switch s t f i)) = chain s.
Proof. intros H. apply switch_preserves; [reflexivity|destruct t; [reflexivity..|contradiction]|reflexivity]. Qed.
Lemma switch_served s t f i : served (fst (switch s t f i)) = served s \/ fst (switch s t f i) = published s t.
Proof. destruct (switch_cases s t f i) as [E|[[_ E]|(_&st'&_&E)]]; rewrite E; auto. Qed.

Lemma switch_scan_inv s t f i : scan_inv s -> scan_inv (fst (switch s t f i)).
Proof.
  intros I. apply switch_preserves; [exact I| |intros st' _; exact I].
  unfold scan_inv. rewrite in_state_published, dstate_eqb_eq. intros ->. cbn. repeat split. constructor.
Qed.

(* steps 1 and 2 of a tick are switches: what every switch keeps, they keep *)
Lemma tick12_preserved (P : state -> Prop) s f s1 n1 s2 n2 :
  (forall s t f i, P s -> P (fst (switch s t f i))) -> tick1 s f = (s1, n1) -> tick2 s s1 n1 f = (s2, n2) -> P s -> P s2.
Proof.
  unfold tick1, tick2. intros Sw E1 E2 I.
  assert (I1 : P s1) by (destruct (_ && _)%bool in E1; inv E1; auto).
  destruct (_ && _)%bool in E2; inv E2; auto.
Qed.

(* a state that is sync_recover before and after steps 1 and 2 has kept its status: step 1 would have made it async, and then
   step 2, whose guard excludes that of step 1, does nothing *)
Lemma tick12_id s f s1 n1 s2 n2 :
  tick1 s f = (s1, n1) -> tick2 s s1 n1 f = (s2, n2) ->
  in_state s SyncRecover = true -> in_state s2 SyncRecover = true -> cur_id s2 = cur_id s.
Proof.
  unfold tick1, tick2. intros E1 E2 Hs Hr.
  destruct (negb (cs_of s) && hm_of s && negb (in_state s Async) && async_ok s)%bool eqn:C1; inv E1.
  - apply andb_true_iff in C1 as [C1 _]. apply andb_true_iff in C1 as [C1 _]. apply andb_true_iff in C1 as [Cc _].
    apply negb_true_iff in Cc. rewrite Cc in E2. inv E2.
    destruct (switch_served s Async f 0) as [S|S]; [unfold cur_id; rewrite S; reflexivity|].
    rewrite S, in_state_published in Hr. discriminate.
  - destruct (in_state s1 Async) eqn:X; [pose proof (in_state_excl _ _ _ Hs X); discriminate|].
    rewrite andb_false_r in E2. inv E2. reflexivity.
Qed.

Lemma tick3_chain s2 n2 f r : scan_inv s2 -> In r (chain (tick3 s2 n2 f)) -> In r (chain s2) \/ In r (regions s2).
Proof.
  intros I. unfold tick3. destruct (in_state s2 SyncRecover) eqn:Hr; [|auto].
  destruct (update_progress_inv _ I Hr) as (_&_&_&E).
  destruct (finished (update_progress s2)); [rewrite switch_chain_kept by discriminate|]; apply E.
Qed.

Lemma tick3_sync s2 n2 f :
  scan_inv s2 -> in_state s2 Sync = false -> in_state (tick3 s2 n2 f) Sync = true ->
  in_state s2 SyncRecover = true /\
  let ch := chain (tick3 s2 n2 f) in ch <> [] /\ path (rev ch) "" "" /\ Forall (good (cur_id s2)) ch.
Proof.
  intros I H0 H1. unfold tick3 in *.
  destruct (in_state s2 SyncRecover) eqn:Hr; [|congruence]. split; [reflexivity|].
  destruct (update_progress_inv _ I Hr) as (P&G&C&_).
  pose proof (in_state_served _ _ Sync (update_progress_served s2)) as B.
  destruct (finished (update_progress s2)) eqn:Ef.
  - destruct (finished_spec _ Ef) as [Fk Fc]. rewrite switch_chain_kept by discriminate.
    repeat split; auto; [|rewrite Fk in P; exact P].
    intros Hn. rewrite Hn in C. change (Z.of_nat (length (@nil region))) with 0 in C. lia.
  - exfalso. change (in_state (progress_figures (update_progress s2)) Sync) with (in_state (update_progress s2) Sync) in H1. congruence.
Qed.

Lemma tick_chain s f r : scan_inv s -> In r (chain (tick s f)) -> In r (chain s) \/ In r (regions s).
Proof.
  intros I. rewrite tick_decomp. destruct (negb (cf_dr (cfg s))); [auto|].
  destruct (tick1 s f) as [s1 n1] eqn:E1. destruct (tick2 s s1 n1 f) as [s2 n2] eqn:E2.
  pose proof (tick12_preserved scan_inv _ _ _ _ _ _ (fun s t f i => switch_scan_inv s t f i) E1 E2 I) as I2.
  assert (Rg : regions s2 = regions s).
  { apply (tick12_preserved (fun x => regions x = regions s) _ _ _ _ _ _) with (3 := E2) (2 := E1); [|reflexivity].
    intros x t f0 i <-. apply switch_regions. }
  assert (Ch : chain s2 = chain s \/ chain s2 = []).
  { apply (tick12_preserved (fun x => chain x = chain s \/ chain x = []) _ _ _ _ _ _) with (3 := E2) (2 := E1); [|auto].
    intros x t f0 i Hx. destruct (switch_chain x t f0 i) as [X|X]; rewrite X; auto. }
  intros Hin. destruct (tick3_chain _ _ _ _ I2 Hin) as [Hc|Hc]; [|right; congruence].
  destruct Ch as [Ch|Ch]; rewrite Ch in Hc; [left; exact Hc|contradiction].
Qed.

(* the tick that declares sync: the regions passed under the sync_recover id form a gapless chain over the whole key
   space, each of them was in the cache (with integrity, under that id) at the tick that passed it *)
Theorem sync_only_after_full_scan s f :
  scan_inv s -> in_state s Sync = false -> in_state (tick s f) Sync = true ->
  exists sid, let ch := chain (tick s f) in
    ch <> [] /\ path (rev ch) "" "" /\ Forall (good sid) ch /\
    (forall r, In r ch -> In r (chain s) \/ In r (regions s)) /\
    (in_state s SyncRecover = true -> sid = cur_id s).
Proof.
  intros I H0 H1. pose proof (fun r => tick_chain s f r I) as D. rewrite tick_decomp in *.
  destruct (negb (cf_dr (cfg s))); [congruence|].
  destruct (tick1 s f) as [s1 n1] eqn:E1. destruct (tick2 s s1 n1 f) as [s2 n2] eqn:E2.
  pose proof (tick12_preserved scan_inv _ _ _ _ _ _ (fun s t f i => switch_scan_inv s t f i) E1 E2 I) as I2.
  pose proof (tick12_id _ _ _ _ _ _ E1 E2) as Id.
  assert (Sy : in_state s2 Sync = false).
  { destruct (in_state s2 Sync) eqn:X; [exfalso|reflexivity].
    destruct (tick2_enters _ _ _ _ _ _ _ E2 X) as [X1|[? _]]; [|discriminate].
    destruct (tick1_enters _ _ _ _ _ E1 X1) as [?|[? _]]; [congruence|discriminate]. }
  destruct (tick3_sync _ _ _ I2 Sy H1) as (Hr2&A&B&C).
  exists (cur_id s2). cbn zeta. repeat split; auto.
Qed.

Lemma scan_inv_frame s s' : same_status s s' -> same_cursor s s' -> scan_inv s -> scan_inv s'.
Proof.
  intros (A&_) (B&C&D) I Hr. rewrite (in_state_served _ _ _ A) in Hr. destruct (I Hr) as (P&G&N).
  unfold cur_id. rewrite A, B, C, D. auto.
Qed.

Lemma scan_inv_tick s f : scan_inv s -> scan_inv (tick s f).
Proof.
  intros I. rewrite tick_decomp. destruct (negb (cf_dr (cfg s))); [exact I|].
  destruct (tick1 s f) as [s1 n1] eqn:E1. destruct (tick2 s s1 n1 f) as [s2 n2] eqn:E2.
  pose proof (tick12_preserved scan_inv _ _ _ _ _ _ (fun s t f i => switch_scan_inv s t f i) E1 E2 I) as I2.
  unfold tick3. destruct (in_state s2 SyncRecover) eqn:Hr; [|exact I2].
  destruct (update_progress_inv _ I2 Hr) as (P&G&C&_).
  assert (I3 : scan_inv (update_progress s2)) by (intros _; unfold cur_id; rewrite update_progress_served; auto).
  destruct (finished (update_progress s2)); [apply switch_scan_inv, I3|exact I3].
Qed.

(* a property that every switch keeps and that reads nothing but the status bookkeeping survives a tick ... *)
Lemma tick_preserved (P : state -> Prop) :
  (forall s t f i, P s -> P (fst (switch s t f i))) ->
  (forall s s', same_status s s' -> P s -> P s') -> forall s f, P s -> P (tick s f).
Proof.
  intros Sw Fr s f I. rewrite tick_decomp. destruct (negb (cf_dr (cfg s))); [exact I|].
  destruct (tick1 s f) as [s1 n1] eqn:E1. destruct (tick2 s s1 n1 f) as [s2 n2] eqn:E2.
  pose proof (tick12_preserved P _ _ _ _ _ _ Sw E1 E2 I) as I2.
  unfold tick3. destruct (in_state s2 SyncRecover); [|exact I2].
  assert (I3 : P (update_progress s2)) by (apply (Fr s2); [apply update_progress_status|exact I2]).
  destruct (finished (update_progress s2)); [apply Sw, I3|apply (Fr (update_progress s2)); [repeat split|exact I3]].
Qed.

(* ... and one that ticks and switches keep and that reads only the status bookkeeping and the cursor survives every operation *)
Section Preserved.
  Variable P : state -> Prop.
  Hypothesis P_switch : forall s t f i, P s -> P (fst (switch s t f i)).
  Hypothesis P_tick : forall s f, P s -> P (tick s f).
  Hypothesis P_frame : forall s s', same_status s s' -> same_cursor s s' -> P s -> P s'.

  Lemma preserved_step s o : P s -> P (fst (run_cmd s o)).
  Proof.
    intros I. destruct o as [f|c f|l|rid sid integ|id down|dt|mid]; cbn [run_cmd fst];
      try (apply (P_frame s); [repeat split|repeat split|exact I]; fail).
    - apply P_tick, I.
    - assert (G : P (fst (update_config s c f))); [|destruct (update_config s c f); exact G].
      destruct (update_config_cases s c f) as [E|[t E]]; rewrite E; [apply (P_frame s); [repeat split|repeat split|exact I]|].
      assert (I1 : P (fst (switch (set_cfg s c) t f 0))) by (apply P_switch, (P_frame s); [repeat split|repeat split|exact I]).
      destruct (switch (set_cfg s c) t f 0) as [s1 [|]]; cbn [fst] in *; [exact I1|apply (P_frame s1); [repeat split|repeat split|exact I1]].
  Qed.

  Lemma preserved_run s ops : P s -> P (run_state run_op s ops).
  Proof.
    apply run_state_inv. intros s0 o I. unfold run_op. pose proof (preserved_step s0 o I) as H.
    destruct (run_cmd s0 o). exact H.
  Qed.

  (* NewReplicationModeManager: the stored status is loaded, or the manager switches to sync *)
  Lemma preserved_boot c st id0 rs ss b :
    (forall sv, sv = None \/ sv = st ->
       P (State c sv st [] id0 "" 0 0 0 0 rs ss b (Clock 0 0 []) [] (match st with Some x => [st_id x] | None => [] end))) ->
    P (boot c st id0 rs ss b).
  Proof.
    intros I0. unfold boot. destruct (cf_dr c); [|apply I0; auto].
    destruct st as [x|]; [apply (I0 (Some x)); auto|apply P_switch, I0; auto].
  Qed.
End Preserved.

Definition reach (b : bootp) (ops : list op) : state := run_state run_op (boot_of b) ops.

Lemma scan_inv_reach b ops : scan_inv (reach b ops).
Proof.
  unfold reach, boot_of. apply preserved_run; [intros; apply switch_scan_inv; assumption|apply scan_inv_tick| |].
  - apply scan_inv_frame.
  - apply preserved_boot; [intros; apply switch_scan_inv; assumption|].
    intros sv _ _. cbn. repeat split. constructor.
Qed.

Lemma update_config_chain s c f : chain (fst (update_config s c f)) = chain s \/ chain (fst (update_config s c f)) = [].
Proof.
  destruct (update_config_cases s c f) as [E|[t E]]; rewrite E; [left; reflexivity|].
  pose proof (switch_chain (set_cfg s c) t f 0) as X. destruct (switch (set_cfg s c) t f 0) as [s1 [|]]; exact X.
Qed.

(* every id that was ever published is below the allocator's next id and was published once; what is served has
   been persisted (storage holds it, or a newer status whose save was applied but reported failed) and was handed to
   the file replicater, unless it is the status loaded at start-up (st0) *)
Record id_inv (st0 : option status) (s : state) : Prop := {
  ii_lt : forall i, In i (used s) -> i < next_id s;
  ii_nodup : NoDup (used s);
  ii_served : forall x, served s = Some x -> In (st_id x) (used s);
  ii_stored_lt : forall y, stored s = Some y -> st_id y < next_id s;
  ii_persisted : forall x, served s = Some x ->
                   exists y, stored s = Some y /\ st_id x <= st_id y /\ (st_id x = st_id y -> x = y);
  ii_offered : forall x, served s = Some x -> In x (files s) \/ st0 = Some x
}.

Lemma id_inv_switch st0 s t f i : id_inv st0 s -> id_inv st0 (fst (switch s t f i)).
Proof.
  intros [L N Sv Sl P O]. apply switch_preserves; [constructor; assumption| |intros st' Hs]; constructor; cbn.
  (* published: the new id is next_id s, served and stored are the new status, its file is out *)
  - (* ii_lt *) intros j [<-|Hj]; [lia|specialize (L _ Hj); lia].
  - (* ii_nodup *) constructor; [|exact N]. intros Hin. specialize (L _ Hin). lia.
  - (* ii_served *) intros x Hx. inv Hx. left; reflexivity.
  - (* ii_stored_lt *) intros y Hy. inv Hy. cbn. lia.
  - (* ii_persisted *) intros x Hx. inv Hx. eexists; split; [reflexivity|]. split; [lia|auto].
  - (* ii_offered *) intros x Hx. inv Hx. left; left; reflexivity.
  (* unpublished: the id is spent, storage holds st' (the old status, or the new one after an applied-but-failed save) *)
  - (* ii_lt *) intros j Hj. specialize (L _ Hj). lia.
  - (* ii_nodup *) exact N.
  - (* ii_served *) exact Sv.
  - (* ii_stored_lt *) intros y Hy. destruct Hs as [-> | ->]; [specialize (Sl _ Hy); lia|inv Hy; cbn; lia].
  - (* ii_persisted *) intros x Hx. destruct (P x Hx) as (y&Ey&Le&Eq). destruct Hs as [-> | ->]; [exists y; auto|].
    eexists; split; [reflexivity|]. cbn. specialize (Sl _ Ey). split; [lia|]. intros E. exfalso. lia.
  - (* ii_offered *) intros x Hx. destruct (O x Hx) as [Hf|Hb]; [left; right; exact Hf|right; exact Hb].
Qed.

Lemma id_inv_frame st0 s s' : same_status s s' -> id_inv st0 s -> id_inv st0 s'.
Proof. intros (A&B&C&D&E) [L N Sv Sl P O]. constructor; rewrite ?A, ?B, ?C, ?D, ?E; assumption. Qed.

(* the allocator never hands out an id that is in use: at start-up the stored status carries an id below the next one *)
Definition boot_ok (st : option status) (id0 : Z) : Prop := forall y, st = Some y -> st_id y < id0.

Lemma id_inv_reach b ops : boot_ok (b_st b) (b_id0 b) -> id_inv (b_st b) (reach b ops).
Proof.
  intros Hb. unfold reach, boot_of. apply preserved_run; [intros; apply id_inv_switch; assumption| | |].
  - apply tick_preserved; [intros; apply id_inv_switch; assumption|apply id_inv_frame].
  - intros s s' A _. apply id_inv_frame, A.
  - (* at boot the served status is none, or the stored one *)
    apply preserved_boot; [intros; apply id_inv_switch; assumption|]. intros sv Hs. constructor; cbn.
    + (* ii_lt *) intros i Hi. destruct (b_st b) as [x|]; cbn in Hi; [destruct Hi as [<-|[]]; apply Hb; reflexivity|contradiction].
    + (* ii_nodup *) destruct (b_st b); repeat constructor; auto.
    + (* ii_served *) intros x Hx. destruct Hs as [-> | ->]; [discriminate|]. rewrite Hx. left; reflexivity.
    + (* ii_stored_lt *) exact Hb.
    + (* ii_persisted *) intros x Hx. destruct Hs as [-> | ->]; [discriminate|]. exists x. split; [exact Hx|]. split; [lia|auto].
    + (* ii_offered *) intros x Hx. destruct Hs as [-> | ->]; [discriminate|auto].
Qed.

(* every file names an id the allocator has already handed out (and not one from before this leader), and no two files name the same id *)
Record file_inv (lo : Z) (s : state) : Prop := {
  fi_lt : forall x, In x (files s) -> lo <= st_id x < next_id s;
  fi_nodup : NoDup (map st_id (files s));
  fi_lo : lo <= next_id s
}.
Lemma file_inv_frame lo s s' : same_status s s' -> file_inv lo s -> file_inv lo s'.
Proof. intros (_&_&A&B&_) [L N Lo]. constructor; rewrite ?A, ?B; assumption. Qed.
Lemma file_inv_switch lo s t f i : file_inv lo s -> file_inv lo (fst (switch s t f i)).
Proof.
  intros [L N Lo].
  (* published or not, the file of the new id is out and the id is spent *)
  assert (G : forall s', files s' = Status t (next_id s) :: files s -> next_id s' = next_id s + 1 -> file_inv lo s').
  { intros s' Ef En. constructor; rewrite ?Ef, ?En; cbn.
    - intros x [<-|Hx]; cbn; [lia|]. specialize (L x Hx). lia.
    - constructor; [|exact N]. intros Hin. apply in_map_iff in Hin as [y [Ey Hy]]. specialize (L y Hy). lia.
    - lia. }
  apply switch_preserves; [constructor; assumption|apply G; reflexivity|intros st' _; apply G; reflexivity].
Qed.

Lemma file_inv_reach b ops : file_inv (b_id0 b) (reach b ops).
Proof.
  unfold reach, boot_of. apply preserved_run; [intros; apply file_inv_switch; assumption| | |].
  - apply tick_preserved; [intros; apply file_inv_switch; assumption|apply file_inv_frame].
  - intros s s' A _. apply file_inv_frame, A.
  - apply preserved_boot; [intros; apply file_inv_switch; assumption|intros sv _]; constructor; cbn; try contradiction; try constructor; lia.
Qed.

Lemma nodup_ids_eq (l : list status) x y : NoDup (map st_id l) -> In x l -> In y l -> st_id y = st_id x -> y = x.
Proof.
  induction l as [|a r IH]; intros N Hin Hy He; [contradiction|].
  cbn in N. inversion N as [|? ? Hn Nr]; subst.
  destruct Hin as [->|Hin], Hy as [->|Hy]; auto.
  - exfalso. apply Hn. apply in_map_iff. exists y. split; [exact He|exact Hy].
  - exfalso. apply Hn. apply in_map_iff. exists x. split; [symmetry; exact He|exact Hin].
Qed.

Theorem restart_initialises_only_when_nothing_stored s lf f s' r :
  restart s lf f = (s', r) -> (files s' <> files s \/ next_id s' <> next_id s \/ stored s' <> stored s) ->
  cf_dr (cfg s) = true /\ lf = false /\ stored s = None.
Proof.
  unfold restart. destruct (cf_dr (cfg s)); cbn [negb].
  2:{ intros H; inv H. cbn. intros [A|[A|A]]; exfalso; apply A; reflexivity. }
  destruct lf.
  { intros H; inv H. intros [A|[A|A]]; exfalso; apply A; reflexivity. }
  destruct (stored s) as [x|] eqn:E.
  { intros H; inv H. cbn. rewrite E. intros [A|[A|A]]; exfalso; apply A; reflexivity. }
  intros _ _. repeat split; reflexivity.
Qed.
