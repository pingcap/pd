(* C07 — the monitor evaluated on the model's own trace never fires inside the domain: every observation of the
   model equals what the linear-scan specification expects.  This links the boolean property the check evaluates
   on implementation traces (model/C07_Region.v: ri_monitor_from / spec_expect) to the theorems. *)
From Coq Require Import Permutation Sorting.Sorted String.
From PDV Require Import lib.Base lib.C07_Key gen.Gen_C07 model.C07_BTreeSpec model.C07_Region
  proof.C07_Sorted proof.C07_Tree proof.C07_RegionProof proof.C07_Spec proof.C07_Spec2.
Local Open Scope Z_scope.

Lemma ref_eqb_refl a : ref_eqb a a = true.
Proof. unfold ref_eqb. rewrite !Z.eqb_refl. reflexivity. Qed.
Lemma refs_eqb_refl l : refs_eqb l l = true.
Proof. unfold refs_eqb. induction l as [|a l IH]; cbn; [reflexivity|]. rewrite ref_eqb_refl, IH. reflexivity. Qed.
Lemma oref_eqb_refl o : oref_eqb o o = true.
Proof. destruct o; cbn; [apply ref_eqb_refl|reflexivity]. Qed.
Lemma zlist_eqb_refl l : zlist_eqb l l = true.
Proof. induction l as [|a l IH]; cbn; [reflexivity|]. rewrite Z.eqb_refl, IH. reflexivity. Qed.

(* the operations the theorem speaks about: everything except the two whose model observation is a set *)
Definition plain_op (o : rop) : Prop := match o with OAll | ORandN _ _ _ => False | _ => True end.

Section Expect.
  Variables (l : spec) (st : rinfo).
  Hypothesis R : Rel l st.
  Local Notation T := (items (tree st)).

  Lemma nil_klt e : e <> [] -> klt [] e.
  Proof. destruct e; [contradiction|reflexivity]. Qed.

  Lemma scan_ranges_fam f s : scan_ranges (fam_of st f s) = spec_fam l f s.
  Proof.
    rewrite <- (q_fam_items _ _ R f s), (q_fam _ _ R f s). unfold scan_ranges, rt_len. cbn [items].
    destruct (filter (has_role f s) T) as [|a F] eqn:E; [reflexivity|].
    replace (Z.of_nat (length (a :: F)) =? 0) with false by (symmetry; apply Z.eqb_neq; cbn; lia).
    rewrite <- E. rewrite scan_range_spec by (apply ds_filter, (q_ds _ _ R)).
    apply filter_true_id. intros x Hx. apply filter_In in Hx as [Hx _].
    pose proof (ds_valid _ _ (q_ds _ _ R) Hx) as V. apply validP_cases in V.
    unfold ends_after. destruct (is_nil_spec (r_end x)) as [|NE]; [reflexivity|]. cbn.
    destruct (key_ltb_spec [] (r_end x)) as [|NL]; [reflexivity|]. exfalso. apply NL, nil_klt, NE.
  Qed.

  Lemma random_one_total L a b s e dr : random_one (RT L a) s e dr = random_one (RT L b) s e dr.
  Proof. reflexivity. Qed.

  Lemma expect_ok o e : wf_op o -> plain_op o -> spec_expect l o = Some e -> robs_eqb e (snd (ri_step st o)) = true.
  Proof.
    intros W P E. destruct o as [r|id|id0|k|k|ks ke lim|r|r|sto| |sto| |f sto ks ke dr|f sto rs]; cbn in P; try contradiction; cbn [spec_expect] in E.
    - (* OSet *)
      cbn in W. destruct (Rel_set l st r R W) as [[((_ & _ & B) & _) _] EO].
      cbn [ri_step]. destruct (set_region st r) as [st' ov]. cbn [fst snd] in *. rewrite B. cbn [snd].
      inversion E; subst e. rewrite EO. unfold displaced. rewrite (q_sorted_filter _ _ R). apply refs_eqb_refl.
    - inversion E; subst e. cbn [ri_step]. destruct (get_region st id); reflexivity.
    - inversion E; subst e. cbn. rewrite (q_get_region _ _ R). apply oref_eqb_refl.
    - inversion E; subst e. cbn. rewrite (q_search _ _ R). apply oref_eqb_refl.
    - inversion E; subst e. cbn. rewrite (q_search_prev _ _ R). apply oref_eqb_refl.
    - inversion E; subst e. cbn [ri_step]. rewrite (q_scan _ _ R), q_all_some. cbn. apply refs_eqb_refl.
    - destruct (valid_range r) eqn:V; [|discriminate]. inversion E; subst e. cbn.
      rewrite (q_overlaps _ _ R r V). apply refs_eqb_refl.
    - cbn [ri_step]. rewrite (q_adjacent _ _ R r). destruct (spec_adjacent l r) as [p n]. inversion E; subst e. cbn.
      rewrite !oref_eqb_refl. reflexivity.
    - inversion E; subst e. cbn [ri_step snd].
      change (leaders st sto) with (fam_of st FLeader sto). change (followers st sto) with (fam_of st FFollower sto).
      change (learners st sto) with (fam_of st FLearner sto). change (pendings st sto) with (fam_of st FPending sto).
      rewrite !(q_fam_len _ _ R), !(q_fam_total _ _ R). apply zlist_eqb_refl.
    - inversion E; subst e. cbn [ri_step snd]. destruct (q_len _ _ R) as [L1 L2].
      unfold avg_size. rewrite (q_total _ _ R). unfold rt_len. rewrite L1, L2. apply zlist_eqb_refl.
    - inversion E; subst e. cbn [ri_step snd]. unfold store_regions.
      change (leaders st sto) with (fam_of st FLeader sto). change (followers st sto) with (fam_of st FFollower sto).
      change (learners st sto) with (fam_of st FLearner sto). rewrite !scan_ranges_fam. apply refs_eqb_refl.
    - cbn [ri_step]. rewrite (q_fam _ _ R f sto), <- (q_sorted_filter _ _ R (has_role f sto)).
      fold (spec_fam l f sto). rewrite (random_one_total _ _ 0).
      destruct (random_one (RT (spec_fam l f sto) 0) ks ke dr) as [o|]; [|discriminate].
      inversion E; subst e. cbn. apply oref_eqb_refl.
  Qed.
End Expect.

Theorem monitor_silent_on_model ops : forall l st, Rel l st -> Forall wf_op ops -> Forall plain_op ops ->
  ri_monitor_from l ops (ri_run st ops) = None.
Proof.
  induction ops as [|o ops IH]; intros l st R W P; [reflexivity|].
  inversion W as [|? ? Wo W']; subst. inversion P as [|? ? Po P']; subst.
  cbn [ri_run]. destruct (ri_step st o) as [st' b] eqn:S. cbn [ri_monitor_from].
  pose proof (Rel_step l st o R Wo) as R'. rewrite S in R'. cbn [fst] in R'.
  destruct (spec_expect l o) as [e|] eqn:E.
  - pose proof (expect_ok l st R o e Wo Po E) as OK. rewrite S in OK. cbn [snd] in OK. rewrite OK. apply IH; auto.
  - apply IH; auto.
Qed.
