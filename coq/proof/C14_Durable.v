(* C14 — what one command does to one store id: the lifecycle move it makes (`change`), whether what it
   changed is in storage (`outcome`), and that the weight keys still agree with the served weights.
   One pass over the commands gives all three (`run_cmd_effect`); the lifecycle and durability clauses
   of props/C14.v are read off it.  Proved on the code as repaired by the fix commits 7f1a0f1, 0d04e9a,
   eebcdab in /repo (model/C14_Store.v mirrors it). *)
From Coq Require Import String Ascii.
From PDV Require Import lib.Base lib.C14_AList model.C14_Store proof.C14_StoreProof.
Local Open Scope string_scope.
Local Open Scope Z_scope.

(* Reading of the names: proj = the lifecycle / identity fields of a served record (everything LoadStores can give back);
   sm = the stored meta record; wl / wr_ = the stored leader / region weight, 1 when the key is absent, as LoadStores does
   (wr_ is not the model's write outcome `wr`) *)
Definition proj (x : sstore) := (s_addr x, s_state x, s_pd x, s_labels x, s_ver x, s_lw x, s_rw x).
Definition sproj (s : state) (id : Z) := option_map proj (sv s id).
Definition sm (s : state) (id : Z) : option meta := aget (st_meta s) id.
Definition wl (s : state) (id : Z) : Z := match aget (st_lw s) id with Some w => w | None => 1 end.
Definition wr_ (s : state) (id : Z) : Z := match aget (st_rw s) id with Some w => w | None => 1 end.
(* what a new leader would load for this id *)
Definition stored_proj (s : state) (id : Z) :=
  option_map (fun m => (m_addr m, m_state m, m_pd m, m_labels m, m_ver m, wl s id, wr_ s id)) (sm s id).
Definition agree (s : state) (id : Z) : Prop := sproj s id = stored_proj s id.

(* agree (stored = served on the projected fields) splits into synced (the meta record in storage is the served one)
   and wagree (the weight keys are the served weights); a command establishes the two by different writes *)
Definition synced (s : state) (id : Z) : Prop :=
  match sv s id with Some x => sm s id = Some (meta_of x) | None => sm s id = None end.
(* an id that is not served has no weight keys *)
Definition wagree (s : state) (id : Z) : Prop :=
  match sv s id with
  | Some x => s_lw x = wl s id /\ s_rw x = wr_ s id
  | None => aget (st_lw s) id = None /\ aget (st_rw s) id = None
  end.
Definition Winv (s : state) : Prop := forall id, wagree s id.

Lemma synced_wagree_agree s id : synced s id -> wagree s id -> agree s id.
Proof.
  unfold synced, wagree, agree, sproj, stored_proj. destruct (sv s id) as [x|].
  - intros -> [A B]. cbn. unfold proj. rewrite A, B. reflexivity.
  - intros -> _. reflexivity.
Qed.

Lemma sproj_eq s s' id : sv s' id = sv s id -> sproj s' id = sproj s id.
Proof. unfold sproj; intros ->; reflexivity. Qed.

Definition same_store (a b : state) : Prop :=
  served a = served b /\ st_meta a = st_meta b /\ st_lw a = st_lw b /\ st_rw a = st_rw b.
Lemma same_store_refl a : same_store a a.
Proof. repeat split. Qed.
Lemma same_store_trans a b c : same_store a b -> same_store b c -> same_store a c.
Proof. intros (A&B&C&D) (E&F&G&H). repeat split; congruence. Qed.
Lemma version_change_frame s : same_store (version_change s) s /\ regions (version_change s) = regions s.
Proof. unfold version_change. destruct (min_ver _); [destruct (ver_lt _ _)|]; repeat split. Qed.

(* putStoreLocked (SaveStore, then the cache): s' is s after a write of record x for store id that was acknowledged (ok) or not *)
Record wrote (s : state) (id : Z) (x : sstore) (ok : bool) (s' : state) : Prop := {
  w_served : forall j, sv s' j = if (ok && (id =? j))%bool then Some x else sv s j;
  w_meta : ok = true -> sm s' id = Some (meta_of x);
  w_other_meta : forall j, j <> id -> sm s' j = sm s j;
  w_lw : st_lw s' = st_lw s;
  w_rw : st_rw s' = st_rw s;
  w_regions : regions s' = regions s }.

Lemma not_target (ok : bool) id j : id <> j -> (ok && (id =? j))%bool = false.
Proof. intros H. rewrite (proj2 (Z.eqb_neq id j) H). apply andb_false_r. Qed.

Lemma put_locked_wrote s id x f idx s' ok : put_locked s id x f idx = (s', ok) -> wrote s id x ok s'.
Proof.
  intros H. pose proof (put_locked_sv _ _ _ _ _ _ _ H) as Sv. unfold put_locked in H.
  destruct (wr_cases f id idx) as [E|[E|E]]; rewrite E in H; cbn in H; inv H;
    (constructor; [exact Sv| | |reflexivity..]); unfold sm; cbn.
  - intros _. apply aget_aset_eq.
  - intros j Hj. apply aget_aset_ne. auto.
  - discriminate.
  - reflexivity.
  - discriminate.
  - intros j Hj. apply aget_aset_ne. auto.
Qed.

Lemma wrote_version_change s id x ok s' : wrote s id x ok s' -> wrote s id x ok (version_change s').
Proof.
  intros [Wsv Wm Wo Wl Wr Wg]. destruct (version_change_frame s') as ((A&B&C&D)&E).
  constructor; unfold sv, sm in *; rewrite ?A, ?B, ?C, ?D, ?E; assumption.
Qed.

(* `is_clean o`: the cleanup may stop at a storage error after it has removed records; what it removed is gone on both
   sides although the command reports the error *)
Inductive outcome (s : state) (o : op) (s' : state) (r : res) (id : Z) : Prop :=
| oa_same : sproj s' id = sproj s id -> outcome s o s' r id
| oa_sync : (is_err r = false \/ is_clean o = true) -> synced s' id -> outcome s o s' r id.

Record effect (s : state) (o : op) (s' : state) (r : res) (id : Z) : Prop := {
  e_move : change s o id (sv s id) (sv s' id);
  e_dur : outcome s o s' r id;
  e_keys : wagree s id -> wagree s' id }.

Definition keys_same (s s' : state) (id : Z) : Prop :=
  aget (st_lw s') id = aget (st_lw s) id /\ aget (st_rw s') id = aget (st_rw s) id.

(* nothing of the record but its statistics, and neither weight key, has changed *)
Lemma effect_quiet s o s' r j : sproj s' j = sproj s j -> keys_same s s' j -> effect s o s' r j.
Proof.
  unfold sproj, keys_same. intros E [L R]. split.
  - destruct (sv s j) as [x|], (sv s' j) as [y|]; try discriminate; [|constructor].
    injection E as A B C _ _ _ _. apply ch_keep; assumption.
  - apply oa_same, E.
  - unfold wagree, wl, wr_. rewrite L, R. destruct (sv s j) as [x|], (sv s' j) as [y|]; try discriminate; [|auto].
    injection E as _ _ _ _ _ A B. rewrite A, B. auto.
Qed.

Lemma effect_refl s o r j : effect s o s r j.
Proof. apply effect_quiet; [reflexivity|split; reflexivity]. Qed.

Lemma effect_same_store s o s1 s' r j : same_store s' s1 -> effect s o s1 r j -> effect s o s' r j.
Proof.
  intros (A&B&C&D) [M O K].
  assert (Ev : sv s' j = sv s1 j) by (unfold sv; rewrite A; reflexivity).
  assert (Em : sm s' j = sm s1 j) by (unfold sm; rewrite B; reflexivity).
  split.
  - rewrite Ev. exact M.
  - destruct O as [E|Hr Hs]; [apply oa_same|apply oa_sync; [exact Hr|]].
    + unfold sproj in *. rewrite Ev. exact E.
    + unfold synced in *. rewrite Ev, Em. exact Hs.
  - unfold wagree, wl, wr_ in *. rewrite Ev, C, D. exact K.
Qed.

(* the weights of a record written over an old one are the old one's; a new store starts with 1/1 *)
Definition inherits (old : option sstore) (x : sstore) : Prop :=
  match old with Some x0 => s_lw x = s_lw x0 /\ s_rw x = s_rw x0 | None => s_lw x = 1 /\ s_rw x = 1 end.

Lemma wrote_effect s o id x ok s1 r :
  wrote s id x ok s1 -> (ok = true -> is_err r = false) ->
  change s o id (sv s id) (Some x) -> inherits (sv s id) x ->
  forall j, effect s o s1 r j.
Proof.
  intros [A B _ L R _] Hr C W j.
  assert (K : keys_same s s1 j) by (unfold keys_same; rewrite L, R; auto).
  destruct (Z.eqb_spec id j) as [<-|Hne].
  2:{ apply effect_quiet; [apply sproj_eq; rewrite A, not_target by exact Hne; reflexivity|exact K]. }
  destruct ok.
  2:{ apply effect_quiet; [apply sproj_eq; rewrite A; reflexivity|exact K]. }
  assert (E : sv s1 id = Some x) by (rewrite A, Z.eqb_refl; reflexivity).
  split.
  - rewrite E. exact C.
  - apply oa_sync; [left; auto|]. unfold synced. rewrite E. auto.
  - unfold wagree, wl, wr_, inherits in *. rewrite E, L, R. destruct (sv s id) as [x0|].
    + intros [P Q]. destruct W as [W1 W2]. split; congruence.
    + intros [P Q]. rewrite P, Q. exact W.
Qed.

(* putStoreImpl: called for a registration of this id (any address no other live store has), or with the address the
   store already has *)
Lemma put_impl_effect s p force f s' r o :
  put_impl s p force f = (s', r) ->
  (is_put_of o (p_id p) = true \/ (exists x, sv s (p_id p) = Some x /\ p_addr p = s_addr x)) ->
  forall j, effect s o s' r j.
Proof.
  unfold put_impl. intros H Ho j. revert H.
  destruct (p_id p =? 0); [intros H; inv H; apply effect_refl|].
  destruct (p_ver p) as [v|]; [|intros H; inv H; apply effect_refl].
  destruct (negb (compatible (cver s) v)); [intros H; inv H; apply effect_refl|].
  destruct (dup_addr s (p_id p) (p_addr p)) eqn:Edup; [intros H; inv H; apply effect_refl|].
  destruct (sv s (p_id p)) as [old|] eqn:Eold;
    (destruct (labels_rejected _ _); [intros H; inv H; apply effect_refl|]);
    destruct (put_locked _ _ _ _ _) as [s1 ok] eqn:Epl; intros H; inv H;
    (eapply wrote_effect; [exact (put_locked_wrote _ _ _ _ _ _ _ Epl)|intros ->; reflexivity|rewrite Eold|rewrite Eold; split; reflexivity]).
  - destruct Ho as [Ho|[x [Hx Ha]]]; [apply ch_readdr; auto|inv Hx; apply ch_keep; auto].
  - destruct Ho as [Ho|[x [Hx _]]]; [apply ch_new; auto|discriminate].
Qed.

Lemma do_put_effect s p f s' r g : do_put s p f = (s', r) -> forall j, effect s (OPut g p f) s' r j.
Proof.
  unfold do_put. destruct (put_impl s p false f) as [s1 r1] eqn:E. intros H j.
  assert (C : effect s (OPut g p f) s1 r1 j) by (eapply put_impl_effect; [exact E|left; apply Z.eqb_refl]).
  destruct r1; inv H; try exact C. eapply effect_same_store; [apply version_change_frame|exact C].
Qed.

Lemma do_labels_effect s id ls force f s' r o : do_labels s id ls force f = (s', r) -> forall j, effect s o s' r j.
Proof.
  unfold do_labels. destruct (sv s id) as [x|] eqn:E; intros H j; [|inv H; apply effect_refl].
  eapply put_impl_effect; [exact H|]. right. cbn. eauto.
Qed.

Lemma do_remove_effect s id pd f s' r o : do_remove s id pd f = (s', r) -> forall j, effect s o s' r j.
Proof.
  unfold do_remove. destruct (sv s id) as [x|] eqn:E; intros H j; [|inv H; apply effect_refl].
  destruct (sstate_eqb (s_state x) Offline && Bool.eqb (s_pd x) pd)%bool; [inv H; apply effect_refl|].
  destruct (is_tomb x) eqn:Et; [inv H; apply effect_refl|].
  destruct (s_pd x) eqn:Ep; [inv H; apply effect_refl|].
  destruct (put_locked s id (with_state x Offline pd) f 0) as [s1 ok] eqn:Epl. inv H.
  eapply wrote_effect; [exact (put_locked_wrote _ _ _ _ _ _ _ Epl)|intros ->; reflexivity| |]; rewrite E.
  - apply ch_offline; auto. apply is_tomb_false; exact Et.
  - split; reflexivity.
Qed.

Lemma not_tomb_not_up x : is_tomb x = false -> sstate_eqb (s_state x) Up = false -> s_state x = Offline.
Proof. unfold is_tomb. destruct (s_state x); cbn; congruence. Qed.

Lemma do_up_effect s id f s' r o : do_up s id f = (s', r) -> forall j, effect s o s' r j.
Proof.
  unfold do_up. destruct (sv s id) as [x|] eqn:E; intros H j; [|inv H; apply effect_refl].
  destruct (is_tomb x) eqn:Et; [inv H; apply effect_refl|].
  destruct (s_pd x) eqn:Ep; [inv H; apply effect_refl|].
  destruct (sstate_eqb (s_state x) Up) eqn:Eu; [inv H; apply effect_refl|].
  destruct (put_locked s id (with_state x Up false) f 0) as [s1 ok] eqn:Epl. inv H.
  eapply wrote_effect; [exact (put_locked_wrote _ _ _ _ _ _ _ Epl)|intros ->; reflexivity| |]; rewrite E.
  - apply ch_up; auto. apply not_tomb_not_up; assumption.
  - split; reflexivity.
Qed.

(* UpStore refuses a store declared physically destroyed *)
Lemma do_up_destroyed s id y f : sv s id = Some y -> s_state y = Offline -> s_pd y = true -> do_up s id f = (s, RDestroyed).
Proof.
  intros E Eo Ep. unfold do_up. rewrite E, Ep. replace (is_tomb y) with false; [reflexivity|].
  symmetry. apply is_tomb_false. congruence.
Qed.

Lemma remove_destroyed s id f s' :
  run_cmd s (ORemove id true f) = (s', ROk) ->
  (exists y, sv s' id = Some y /\ s_state y = Offline /\ s_pd y = true) /\
  (forall f', run_cmd s' (OUp id f') = (s', RDestroyed)).
Proof.
  intros H. assert (G : exists y, sv s' id = Some y /\ s_state y = Offline /\ s_pd y = true).
  { cbn [run_cmd] in H. unfold do_remove in H. destruct (sv s id) as [x|] eqn:E; [|discriminate].
    destruct (sstate_eqb (s_state x) Offline && Bool.eqb (s_pd x) true)%bool eqn:Eg.
    - inv H. apply andb_true_iff in Eg as [E1 E2]. apply sstate_eqb_eq in E1. exists x. destruct (s_pd x); [auto|discriminate].
    - destruct (is_tomb x); [discriminate|]. destruct (s_pd x); [discriminate|].
      destruct (put_locked s id (with_state x Offline true) f 0) as [s1 [|]] eqn:Epl; inv H.
      exists (with_state x Offline true). rewrite (put_locked_sv _ _ _ _ _ _ _ Epl), Z.eqb_refl. auto. }
  split; [exact G|]. destruct G as (y&E&Eo&Ep). intros f'. exact (do_up_destroyed _ _ _ f' E Eo Ep).
Qed.

(* buryStore (it looks at the region tree itself, under the lock: /repo 2f015b8): whoever calls it, it either does
   nothing or writes the tombstone of an offline store on which the tree holds no peer *)
Lemma do_bury_inv s id f s' r :
  do_bury s id f = (s', r) ->
  s' = s \/ exists x ok, sv s id = Some x /\ s_state x = Offline /\ tree_count s id = 0 /\
                         wrote s id (with_state x Tombstone (s_pd x)) ok s' /\ r = (if ok then ROk else RStorage).
Proof.
  unfold do_bury. destruct (sv s id) as [x|] eqn:E; intros H; [|inv H; auto].
  destruct (is_tomb x) eqn:Et; [inv H; auto|].
  destruct (sstate_eqb (s_state x) Up) eqn:Eu; [inv H; auto|].
  destruct (negb (tree_count s id =? 0)) eqn:Ec; [inv H; auto|].
  apply negb_false_iff, Z.eqb_eq in Ec.
  destruct (put_locked s id (with_state x Tombstone (s_pd x)) f 0) as [s1 ok] eqn:Epl. inv H.
  right. exists x, ok. split; [reflexivity|]. split; [apply not_tomb_not_up; assumption|]. split; [exact Ec|].
  split; [apply wrote_version_change, (put_locked_wrote _ _ _ _ _ _ _ Epl)|reflexivity].
Qed.

Lemma buried_change s o id x :
  sv s id = Some x -> s_state x = Offline -> tree_count s id = 0 ->
  change s o id (sv s id) (Some (with_state x Tombstone (s_pd x))).
Proof. intros -> E T. apply ch_bury; auto. Qed.

Lemma do_bury_effect s id f s' r o : do_bury s id f = (s', r) -> forall j, effect s o s' r j.
Proof.
  intros H j. destruct (do_bury_inv _ _ _ _ _ H) as [->|(x&ok&E&Eo&Et&W&->)]; [apply effect_refl|].
  eapply wrote_effect; [exact W|intros ->; reflexivity|apply buried_change; assumption|rewrite E; split; reflexivity].
Qed.

(* checkStores: during the round every id is either as it was, or was buried while empty and is in storage; a store
   buried in this round is a tombstone and is skipped from then on, so none is touched twice *)
Definition check_inv (s acc : state) : Prop :=
  regions acc = regions s /\
  forall j, keys_same s acc j /\
            (sv acc j = sv s j \/
             exists x, sv s j = Some x /\ s_state x = Offline /\ tree_count s j = 0 /\
                       sv acc j = Some (with_state x Tombstone (s_pd x)) /\ synced acc j).

Lemma check_one_inv s f acc e : check_inv s acc -> check_inv s (check_one f acc e).
Proof.
  intros [Rg D]. unfold check_one.
  destruct (sv acc e) as [x0|] eqn:Ex; [|split; assumption].
  destruct (is_tomb x0 || sstate_eqb (s_state x0) Up)%bool; [split; assumption|].
  destruct (tree_count acc e =? 0); [|split; assumption].
  destruct (do_bury acc e f) as [s1 r1] eqn:Eb. cbn [fst].
  destruct (do_bury_inv _ _ _ _ _ Eb) as [->|(x&ok&E&Eo&Et&[A B C L R G]&_)]; [split; assumption|].
  split; [congruence|]. intros j. destruct (D j) as [[KL KR] Dj].
  split; [split; congruence|]. rewrite A.
  destruct (Z.eqb_spec e j) as [<-|Hne]; [|rewrite andb_false_r].
  - destruct Dj as [Dj|(y&_&_&_&Ey&_)]; [|rewrite Ey in E; inv E; discriminate].
    rewrite andb_true_r. destruct ok; [right|left; exact Dj].
    exists x. unfold tree_count in *. rewrite <- Dj, <- Rg. repeat split; auto.
    unfold synced. rewrite A, Z.eqb_refl. cbn. auto.
  - destruct Dj as [Dj|(y&Ey&Eo'&Et'&Ea&Es)]; [left; exact Dj|right].
    exists y. repeat split; auto. unfold synced in *.
    rewrite A, not_target, (C j (not_eq_sym Hne)) by exact Hne. exact Es.
Qed.

Lemma do_check_effect s order f j : effect s (OCheck order f) (do_check s order f) RNone j.
Proof.
  assert (G : forall l acc, check_inv s acc -> check_inv s (fold_left (check_one f) l acc)).
  { induction l as [|e l IH]; intros acc R; cbn [fold_left]; [exact R|]. apply IH, check_one_inv, R. }
  destruct (G (order ++ map fst (served s))%list s) as [_ D].
  { split; [reflexivity|]. intros k. split; [split; reflexivity|left; reflexivity]. }
  fold (do_check s order f) in D. destruct (D j) as [K [E|(x&Ex&Eo&Et&Ea&Es)]].
  - apply effect_quiet; [apply sproj_eq, E|exact K].
  - split.
    + rewrite Ea. apply buried_change; assumption.
    + apply oa_sync; [left; reflexivity|exact Es].
    + destruct K as [L R]. unfold wagree, wl, wr_. rewrite Ea, Ex, L, R. exact (fun W => W).
Qed.

Lemma aget_restore_w m id old k : aget (restore_w m id old) k = if id =? k then old else aget m k.
Proof. unfold restore_w. destruct old; [apply aget_aset|apply aget_adel]. Qed.

Lemma sm_restore_weights s s0 id k : sm (restore_weights s s0 id) k = sm s k.
Proof. reflexivity. Qed.

(* putting the two keys of id back to what they were in s undoes whatever s1 did to them *)
Lemma keys_restore_weights s s1 id :
  (forall k, k <> id -> keys_same s s1 k) -> forall j, keys_same s (restore_weights s1 s id) j.
Proof.
  intros Fr j. unfold keys_same. cbn [st_lw st_rw restore_weights]. rewrite !aget_restore_w.
  destruct (Z.eqb_spec id j) as [<-|Hne]; [split; reflexivity|apply Fr; auto].
Qed.

(* SetStoreWeight: success writes both keys, the record and the served weights; every failure puts the keys back *)
Lemma do_weight_effect s id lw rw f s' r o : do_weight s id lw rw f = (s', r) -> forall j, effect s o s' r j.
Proof.
  unfold do_weight. destruct (sv s id) as [x|] eqn:E; intros H j; [|inv H; apply effect_refl].
  assert (Q : forall s1, served s1 = served s -> (forall k, k <> id -> keys_same s s1 k) -> effect s o (restore_weights s1 s id) RStorage j).
  { intros s1 Sv Fr. apply effect_quiet; [unfold sproj, sv; cbn; rewrite Sv; reflexivity|apply keys_restore_weights, Fr]. }
  destruct (wr_cases f id 0) as [W0|[W0|W0]]; rewrite W0 in H; cbn [negb] in H.
  2,3: inv H; apply Q; [reflexivity|]; intros k Hk; split; cbn; rewrite ?aget_aset_ne by auto; reflexivity.
  destruct (wr_cases f id 1) as [W1|[W1|W1]]; rewrite W1 in H; cbn [negb] in H.
  2,3: inv H; apply Q; [reflexivity|]; intros k Hk; split; cbn; rewrite ?aget_aset_ne by auto; reflexivity.
  destruct (put_locked _ _ _ _ _) as [s2 ok] eqn:Epl.
  destruct (put_locked_wrote _ _ _ _ _ _ _ Epl) as [A B _ L R _]. cbn [st_lw st_rw write_rw write_lw] in L, R.
  set (y := SStore (s_addr x) (s_state x) (s_pd x) (s_labels x) (s_ver x) lw rw (s_rcf x) (s_hbp x)) in *.
  destruct (Z.eqb_spec id j) as [<-|Hne].
  2:{ apply effect_quiet.
      - destruct ok; injection H as <- <-; apply sproj_eq; [|change (sv s2 j = sv s j)]; rewrite A, not_target by exact Hne; reflexivity.
      - destruct ok; injection H as <- <-; unfold keys_same; cbn [st_lw st_rw write_rw write_lw]; rewrite ?L, ?R, !aget_aset_ne by auto; auto. }
  destruct ok; injection H as <- <-.
  - assert (Es : sv s2 id = Some y) by (rewrite A, Z.eqb_refl; reflexivity).
    split.
    + rewrite Es, E. apply ch_keep; reflexivity.
    + apply oa_sync; [left; reflexivity|]. unfold synced. rewrite Es. apply B; reflexivity.
    + intros _. unfold wagree, wl, wr_. rewrite Es, L, R, !aget_aset_eq. split; reflexivity.
  - assert (Es : sv (write_rw (write_lw s2 id (s_lw x)) id (s_rw x)) id = sv s id) by (change (sv s2 id = sv s id); rewrite A; reflexivity).
    split.
    + rewrite Es. constructor.
    + apply oa_same, sproj_eq, Es.
    + intros _. unfold wagree, wl, wr_. rewrite Es, E. cbn [st_lw st_rw write_rw write_lw]. rewrite !aget_aset_eq. split; reflexivity.
Qed.

Lemma delete_store_spec s id f s1 ok :
  delete_store s id f = (s1, ok) ->
  served s1 = served s /\ (forall k, k <> id -> sm s1 k = sm s k /\ keys_same s s1 k) /\
  if ok then sm s1 id = None /\ aget (st_lw s1) id = None /\ aget (st_rw s1) id = None else keys_same s s1 id.
Proof.
  unfold delete_store.
  assert (Q : forall s2, served s2 = served s -> (forall k, k <> id -> sm s2 k = sm s k /\ keys_same s s2 k) ->
              served (restore_weights s2 s id) = served s /\
              (forall k, k <> id -> sm (restore_weights s2 s id) k = sm s k /\ keys_same s (restore_weights s2 s id) k) /\
              keys_same s (restore_weights s2 s id) id).
  { intros s2 Sv Fr. split; [exact Sv|]. split; [intros k Hk; split; [apply Fr, Hk|]|]; apply keys_restore_weights; intros k' Hk'; apply Fr, Hk'. }
  assert (T : forall (b0 b1 b2 : bool) k, k <> id ->
              let s2 := State (served s) (if b2 then adel (st_meta s) id else st_meta s) (if b0 then adel (st_lw s) id else st_lw s)
                              (if b1 then adel (st_rw s) id else st_rw s) (regions s) (cver s) (cenv s) in
              sm s2 k = sm s k /\ keys_same s s2 k).
  { intros b0 b1 b2 k Hk. unfold sm, keys_same. cbn. destruct b0, b1, b2; rewrite ?aget_adel_ne by auto; auto. }
  destruct (wr_cases f id 0) as [W0|[W0|W0]]; rewrite W0; cbn [negb].
  2: intros H; inv H; apply Q; [reflexivity|apply (T false false false)].
  2: intros H; inv H; apply Q; [reflexivity|apply (T true false false)].
  destruct (wr_cases f id 1) as [W1|[W1|W1]]; rewrite W1; cbn [negb].
  2: intros H; inv H; apply Q; [reflexivity|apply (T true false false)].
  2: intros H; inv H; apply Q; [reflexivity|apply (T true true false)].
  destruct (wr_cases f id 2) as [W2|[W2|W2]]; rewrite W2; cbn [negb]; intros H; inv H.
  2: apply Q; [reflexivity|apply (T true true false)].
  2: apply Q; [reflexivity|apply (T true true true)].
  split; [reflexivity|]. split; [apply (T true true true)|].
  unfold sm; cbn. rewrite !aget_adel_eq. auto.
Qed.

Lemma clean_loop_spec f order : forall s s' r,
  clean_loop s order f = (s', r) ->
  forall j, (sv s' j = sv s j /\ keys_same s s' j /\ (sv s j = None -> sm s' j = sm s j)) \/
            (exists x, sv s j = Some x /\ s_state x = Tombstone /\
                       sv s' j = None /\ sm s' j = None /\ aget (st_lw s') j = None /\ aget (st_rw s') j = None).
Proof.
  induction order as [|id rest IH]; intros s s' r H; cbn [clean_loop] in H.
  { inv H. intros j. left. repeat split. }
  destruct (sv s id) as [x|] eqn:E; [|eapply IH; eauto].
  destruct (is_tomb x && (s_rcf x <=? 0))%bool eqn:Eg; [|eapply IH; eauto].
  apply andb_true_iff in Eg as [Et _]. apply is_tomb_true in Et.
  destruct (delete_store s id f) as [s1 ok] eqn:Ed.
  destruct (delete_store_spec _ _ _ _ _ Ed) as (Sv&Fr&Fi).
  assert (Sv' : forall k, sv s1 k = sv s k) by (intros k; unfold sv; rewrite Sv; reflexivity).
  intros j. destruct ok.
  - specialize (IH _ _ _ H j). rewrite sv_del_served, Sv' in IH.
    change (sm (del_served s1 id) j) with (sm s1 j) in IH.
    change (keys_same (del_served s1 id) s' j) with (keys_same s1 s' j) in IH.
    destruct (Z.eqb_spec id j) as [<-|Hne].
    + right. exists x. destruct Fi as (F1&F2&F3).
      destruct IH as [(I1&[I2 I3]&I4)|(y&Hy&_)]; [|discriminate].
      repeat split; auto; try congruence. rewrite I4; auto.
    + destruct (Fr j (not_eq_sym Hne)) as (Fm&Fl&Fw).
      destruct IH as [(I1&[I2 I3]&I4)|I]; [left|right; exact I].
      split; [exact I1|]. split; [split; congruence|]. intros Hn. rewrite I4; auto.
  - inv H. left. split; [apply Sv'|]. destruct (Z.eqb_spec id j) as [<-|Hne].
    + split; [exact Fi|]. congruence.
    + destruct (Fr j (not_eq_sym Hne)) as [Fm Fk]. auto.
Qed.

Lemma do_clean_effect s order f s' r : do_clean s order f = (s', r) -> forall j, effect s (OClean order f) s' r j.
Proof.
  unfold do_clean. destruct (clean_loop s order f) as [s1 r1] eqn:E. intros H j.
  assert (s' = s1) as -> by (destruct r1; try (inv H; reflexivity); destruct (cleanable s1); inv H; reflexivity).
  destruct (clean_loop_spec _ _ _ _ _ E j) as [(D1&D2&_)|(x&Ex&Et&D1&D2&D3&D4)].
  - apply effect_quiet; [apply sproj_eq, D1|exact D2].
  - split.
    + rewrite Ex, D1. apply ch_clean; auto.
    + apply oa_sync; [right; reflexivity|]. unfold synced. rewrite D1. exact D2.
    + intros _. unfold wagree. rewrite D1. auto.
Qed.

Lemma do_heartbeat_effect s id f s' r o : do_heartbeat s id f = (s', r) -> forall j, effect s o s' r j.
Proof.
  unfold do_heartbeat. destruct (sv s id) as [x|] eqn:E; intros H j; [|inv H; apply effect_refl].
  destruct (is_tomb x); [inv H; apply effect_refl|].
  destruct (if s_hbp x then (false, true) else wr f id 0) as [applied ok]. inv H.
  apply effect_quiet; [|destruct applied; split; reflexivity].
  unfold sproj. rewrite sv_set_served.
  assert (Ea : sv (if applied then write_meta s id (meta_of x) else s) j = sv s j) by (destruct applied; reflexivity).
  rewrite Ea. destruct (Z.eqb_spec id j) as [<-|]; [|reflexivity]. rewrite E. reflexivity.
Qed.

Lemma refresh_rcf_quiet s id :
  (forall j, sproj (refresh_rcf s id) j = sproj s j) /\ st_lw (refresh_rcf s id) = st_lw s /\ st_rw (refresh_rcf s id) = st_rw s.
Proof.
  unfold refresh_rcf, sproj. destruct (sv s id) as [x|] eqn:E; [|auto].
  split; [|auto]. intros j. rewrite sv_set_served. destruct (Z.eqb_spec id j) as [<-|]; [|reflexivity]. rewrite E. reflexivity.
Qed.

Lemma do_region_effect s rg stores o r j : effect s o (do_region s rg stores) r j.
Proof.
  unfold do_region.
  assert (G : forall l a, (forall j, sproj (fold_left refresh_rcf l a) j = sproj a j) /\
                          st_lw (fold_left refresh_rcf l a) = st_lw a /\ st_rw (fold_left refresh_rcf l a) = st_rw a).
  { induction l as [|i l IH]; intros a; cbn [fold_left]; [auto|].
    destruct (IH (refresh_rcf a i)) as (A&B&C). destruct (refresh_rcf_quiet a i) as (A'&B'&C').
    split; [intros k; rewrite A; apply A'|split; congruence]. }
  match goal with |- effect _ _ (fold_left _ ?l ?a) _ _ => destruct (G l a) as (A&B&C) end.
  apply effect_quiet; [rewrite A; reflexivity|unfold keys_same; rewrite B, C; auto].
Qed.

Theorem run_cmd_effect s o s' r : run_cmd s o = (s', r) -> forall j, effect s o s' r j.
Proof.
  destruct o as [g p f|id ls force f|id pd f|id f|id f|corder f|id lw rw f|order f|id f|rg stores|e]; cbn [run_cmd]; intros H.
  - assert (G : forall t : bool, (if t then (s, RTiFlash) else do_put s p f) = (s', r) -> forall j, effect s (OPut g p f) s' r j).
    { intros [|] Ht; [inv Ht; intros j; apply effect_refl|eapply do_put_effect; eauto]. }
    destruct g; [|eapply do_put_effect; eauto]. cbv zeta in H.
    destruct (sv s (p_id p)) as [x|]; [destruct (is_tomb x); [inv H; intros j; apply effect_refl|]|]; eapply G; eauto.
  - eapply do_labels_effect; eauto.
  - eapply do_remove_effect; eauto.
  - eapply do_up_effect; eauto.
  - eapply do_bury_effect; eauto.
  - inv H. apply do_check_effect.
  - eapply do_weight_effect; eauto.
  - eapply do_clean_effect; eauto.
  - eapply do_heartbeat_effect; eauto.
  - inv H. intros j. apply do_region_effect.
  - inv H. intros j. apply effect_quiet; [reflexivity|split; reflexivity].
Qed.

Lemma run_cmd_change s o s' r : run_cmd s o = (s', r) -> forall j, change s o j (sv s j) (sv s' j).
Proof. intros H j. apply (e_move _ _ _ _ _ (run_cmd_effect _ _ _ _ H j)). Qed.
Lemma run_cmd_outcome s o s' r : run_cmd s o = (s', r) -> forall j, outcome s o s' r j.
Proof. intros H j. apply (e_dur _ _ _ _ _ (run_cmd_effect _ _ _ _ H j)). Qed.
Lemma winv_step s o s' r : Winv s -> run_cmd s o = (s', r) -> Winv s'.
Proof. intros I H j. apply (e_keys _ _ _ _ _ (run_cmd_effect _ _ _ _ H j)), I. Qed.

Lemma success_agree s o s' r id :
  Winv s -> run_cmd s o = (s', r) -> (is_err r = false \/ is_clean o = true) -> sproj s' id <> sproj s id -> agree s' id.
Proof.
  intros I H Hr Hc. destruct (run_cmd_outcome _ _ _ _ H id) as [E|_ Hs]; [contradiction|].
  apply synced_wagree_agree; [exact Hs|exact (winv_step _ _ _ _ I H id)].
Qed.

Definition reach (cv : ver) (p : payload) (ops : list op) : state := run_state run_op (boot cv p) ops.

Lemma run_op_inv (I : state -> Prop) :
  (forall s o s' r, I s -> run_cmd s o = (s', r) -> I s') -> forall s o, I s -> I (fst (run_op s o)).
Proof. intros St s o Hs. unfold run_op. destruct (run_cmd s o) as [s' r] eqn:E. exact (St _ _ _ _ Hs E). Qed.

Lemma Winv_boot cv p : Winv (boot cv p).
Proof.
  intros id. unfold wagree, sv, boot, wl, wr_. cbn. destruct (p_id p =? id); cbn; auto.
Qed.

Lemma Winv_reach cv p ops : Winv (reach cv p ops).
Proof. unfold reach. apply run_state_inv; [apply run_op_inv, winv_step|apply Winv_boot]. Qed.
Lemma addr_inv_reach cv p ops : addr_inv (reach cv p ops).
Proof.
  unfold reach. apply run_state_inv; [apply run_op_inv|apply addr_inv_boot].
  intros s o s' r I H. exact (addr_inv_change _ _ _ I (run_cmd_change _ _ _ _ H)).
Qed.

(* "After every successful change the stored record equals the served record" (proved as C14_success_implies_stored_eq_served) *)
Definition success_full : Prop :=
  forall cv p ops o s' r, run_cmd (reach cv p ops) o = (s', r) -> (is_err r = false \/ is_clean o = true) ->
    forall id, sproj s' id <> sproj (reach cv p ops) id -> agree s' id.

(* "A failed storage write leaves the served state unchanged": any state, any command, any fault (proved as C14_failed_write_keeps_served) *)
Definition failed_full : Prop :=
  forall s o s' r, run_cmd s o = (s', r) -> is_err r = true -> is_clean o = false ->
    forall id, sproj s' id = sproj s id.

(* the boot payload and the history of the regression theorems of props/C14.v *)
Definition boot1 : payload := Payload 1 "a1" Up false [("zone", "z1"); ("host", "h1")] (Some (4, 0, 0)).

(* weights 3/4, offline, buried, record removed (with its weight keys), id registered again: served 1/1, stored 1/1 *)
Definition w_cleanup : list op :=
  [OWeight 1 3 4 NoFault; OPut false (Payload 2 "a2" Up false [] (Some (4, 0, 0))) NoFault;
   ORemove 1 false NoFault; OCheck [1] NoFault; OClean [1] NoFault].

Lemma served_restore_m s id a b mf n : served (fst (restore_m s id a b mf n)) = served s.
Proof. unfold restore_m. cbn [fst]. destruct (fst (wrm mf n)), (fst (wrm mf (S n))); reflexivity. Qed.
Lemma served_save_weight_m s id lw rw mf n : served (fst (fst (save_weight_m s id lw rw mf n))) = served s.
Proof.
  unfold save_weight_m. destruct (wrm mf n) as [a0 [|]]; cbn [negb]; [destruct (wrm mf (S n)) as [a1 [|]]; cbn [negb]|].
  - destruct a0, a1; reflexivity.
  - rewrite (surjective_pairing (restore_m _ _ _ _ _ _)). cbn [fst]. rewrite served_restore_m. destruct a0, a1; reflexivity.
  - rewrite (surjective_pairing (restore_m _ _ _ _ _ _)). cbn [fst]. rewrite served_restore_m. destruct a0; reflexivity.
Qed.

Lemma served_delete_store_m s id mf : snd (delete_store_m s id mf) = false -> served (fst (delete_store_m s id mf)) = served s.
Proof.
  unfold delete_store_m.
  destruct (wrm mf 0) as [a0 [|]]; cbn [negb fst snd].
  2:{ rewrite served_restore_m. destruct a0; reflexivity. }
  destruct (wrm mf 1) as [a1 [|]]; cbn [negb fst snd].
  2:{ rewrite served_restore_m. destruct a0, a1; reflexivity. }
  destruct (wrm mf 2) as [a2 [|]]; cbn [negb fst snd]; [discriminate|].
  rewrite served_restore_m. destruct a0, a1, a2; reflexivity.
Qed.

Theorem multi_failed_keeps_served s o mf s' r : run_mop s o mf = (s', r) -> r <> ROk -> served s' = served s.
Proof.
  destruct o as [id lw rw|id]; cbn [run_mop]; intros H Hr.
  - unfold do_weight_m in H. destruct (sv s id) as [x|]; [|inv H; reflexivity].
    pose proof (served_save_weight_m s id lw rw mf 0) as S1.
    destruct (save_weight_m s id lw rw mf 0) as [[s1 ok] n1]. cbn [fst] in S1. destruct ok; cbn [negb] in H; [|inv H; exact S1].
    destruct (wrm mf n1) as [a2 [|]]; [inv H; congruence|]. inv H.
    rewrite served_save_weight_m. destruct a2; exact S1.
  - unfold do_clean_one_m in H. pose proof (served_delete_store_m s id mf) as S1.
    destruct (delete_store_m s id mf) as [s1 [|]]; inv H; [congruence|exact (S1 eq_refl)].
Qed.

(* with at most one failing write the layer is the single-fault model: its theorems (stored = served after a failed operation too) carry over.
   `single mf`: after a failing write every later write succeeds; the fault f of the single-fault model does to store id what mf does *)
Definition single (mf : mfault) : Prop :=
  forall j1 j2, (j1 < j2)%nat -> snd (wrm mf j1) = false -> wrm mf j2 = (true, true).

Lemma state_eta s : State (served s) (st_meta s) (st_lw s) (st_rw s) (regions s) (cver s) (cenv s) = s.
Proof. destruct s; reflexivity. Qed.

(* after a failing write the two restoring writes succeed and put both keys back *)
Lemma restore_m_after s s0 id mf j a :
  single mf -> wrm mf j = (a, false) ->
  fst (restore_m s id (aget (st_lw s0) id) (aget (st_rw s0) id) mf (S j)) = restore_weights s s0 id.
Proof.
  intros Hs W. unfold restore_m. rewrite (Hs j (S j)), (Hs j (S (S j))) by (lia || (rewrite W; reflexivity)). reflexivity.
Qed.

Lemma delete_store_refines s id mf f :
  (forall j, wr f id j = wrm mf j) -> single mf -> delete_store_m s id mf = delete_store s id f.
Proof.
  intros Hw Hs. unfold delete_store_m, delete_store. rewrite !Hw.
  destruct (wrm mf 0) as [a0 [|]] eqn:W0; cbn [negb]; [|rewrite (restore_m_after _ s id mf 0%nat a0 Hs W0); reflexivity].
  destruct (wrm mf 1) as [a1 [|]] eqn:W1; cbn [negb]; [|rewrite (restore_m_after _ s id mf 1%nat a1 Hs W1); reflexivity].
  destruct (wrm mf 2) as [a2 [|]] eqn:W2; cbn [negb]; [reflexivity|rewrite (restore_m_after _ s id mf 2%nat a2 Hs W2); reflexivity].
Qed.

Lemma do_weight_refines s id lw rw mf f :
  (forall j, wr f id j = wrm mf j) -> single mf -> do_weight_m s id lw rw mf = do_weight s id lw rw f.
Proof.
  intros Hw Hs. unfold do_weight_m, do_weight. destruct (sv s id) as [x|]; [|reflexivity].
  unfold save_weight_m at 1. unfold put_locked. rewrite !Hw.
  destruct (wrm mf 0) as [a0 [|]] eqn:W0; cbn [negb].
  2:{ rewrite <- (restore_m_after _ s id mf 0%nat a0 Hs W0). destruct (restore_m _ _ _ _ _ _); reflexivity. }
  destruct (wrm mf 1) as [a1 [|]] eqn:W1; cbn [negb].
  2:{ rewrite <- (restore_m_after _ s id mf 1%nat a1 Hs W1). destruct (restore_m _ _ _ _ _ _); reflexivity. }
  destruct (wrm mf 2) as [a2 [|]] eqn:W2; [reflexivity|].
  (* SetStoreWeight saves the served weights again: two writes that succeed *)
  unfold save_weight_m. rewrite (Hs 2%nat 3%nat), (Hs 2%nat 4%nat) by (lia || (rewrite W2; reflexivity)). reflexivity.
Qed.

Lemma single_one i k : single [(i, k)].
Proof.
  intros j1 j2 Hlt. cbn [wrm]. destruct (Nat.eqb_spec i j1) as [->|]; [|discriminate].
  intros _. destruct (Nat.eqb_spec j1 j2); [lia|reflexivity].
Qed.
Lemma wr_self id i k j : wr (Fault id i k) id j = wrm [(i, k)] j.
Proof. unfold wr, wrm. rewrite Z.eqb_refl. cbn [andb]. destruct (Nat.eqb i j); [destruct k|]; reflexivity. Qed.

(* why the hypothesis "the restoring writes succeed" is needed for stored = served after a failed operation: the region-weight
   write fails, and so does the write that puts the leader weight back: the error is reported, the served weight is still 1,
   the stored leader weight is 5 *)
Definition multi_base : state :=
  State [(2, SStore "a2" Up false [] (4, 0, 0) 1 1 0 false)] [(2, Meta "a2" Up false [] (4, 0, 0))] [] [] [] (4, 0, 0) (Env [] false true).
