(* C04 — Allocated ids are unique forever.  Statements, each derived in a few lines from the invariant and the
   one-step lemmas of proof/C04_IdAllocProof.v.
   Quantification: every label list `ls` is one interleaving/history: any number of allocator
   instances (LNew), leader switches (LSetLeader), crashes (an instance that is never scheduled
   again), lost races (another instance's LTxn between LGet and LTxn) and storage faults
   (ErrNotApplied, ErrApplied).  Hypothesis recorded in DESIGN.md: stored end + allocStep < 2^64.
   proof.C04_Skel is imported so that the structural obligations are in the closure of this file. *)
From PDV Require Import lib.Base gen.Gen_C04 model.C04_IdAlloc proof.C04_IdAllocProof proof.C04_Skel.
Local Open Scope Z_scope.

Theorem C04_ids_nodup :
  forall ls, NoDup (map id_of (issued (exec step init ls))).
Proof. intros ls. apply inv_nodup, inv_exec. Qed.

(* issued is newest-first: every earlier id of the same instance is smaller *)
Theorem C04_ids_increasing_per_instance :
  forall ls, decr_per_inst (issued (exec step init ls)).
Proof. intros ls. apply inv_sorted, inv_exec. Qed.

(* every id is <= the bound that was stored in etcd at the moment it was returned *)
Theorem C04_id_le_persisted_end :
  forall ls u, In u (issued (exec step init ls)) -> id_of u <= stored_then u.
Proof. intros ls u H. apply (inv_le _ (inv_exec ls) _ H). Qed.

Theorem C04_stored_end_monotone :
  forall s l s', step s l = Some s' -> stored s <= stored s'.
Proof.
  intros s l s' H. pose proof step_pos. unfold stored at 2.
  destruct (alloc_id_step _ _ _ H) as [->| ->]; [apply Z.le_refl | lia].
Qed.

(* not the recorded leader, or lost the race for the window: the txn changes neither the
   store nor the instance window, whatever the outcome reported to the client *)
Theorem C04_loser_cannot_extend :
  forall s i o s' x snap k,
    step s (LTxn i o) = Some s' -> insts s i = Some x -> pending x = Some (snap, k) ->
    (leader s <> Some (mem x) \/ alloc_id s <> snap) ->
    alloc_id s' = alloc_id s /\ window_of s' i = window_of s i /\ issued s' = issued s.
Proof.
  intros s i o s' x snap k H Ex Ep Hl.
  assert (Ec : cmp_ok s x snap = false).
  { destruct (cmp_ok s x snap) eqn:E; [|reflexivity]. apply cmp_ok_true in E. destruct E, Hl; congruence. }
  rewrite (txn_lost _ _ _ _ _ _ _ H Ex Ep Ec). unfold window_of. cbn. rewrite Nat.eqb_refl, Ex. auto.
Qed.

(* non-vacuity: two instances, leader switch, a lost race, an ErrApplied, five ids issued *)
Example C04_nonvacuous :
  let ls := [LNew 1; LNew 2; LSetLeader (Some 1); LGet 0 FromAlloc; LTxn 0 Ok; LAllocFast 0;
             LGet 1 FromRebase; LSetLeader (Some 2); LGet 0 FromRebase; LTxn 1 Ok; LTxn 0 Ok;
             LAllocFast 1; LGet 1 FromRebase; LTxn 1 ErrApplied; LGet 1 FromRebase; LTxn 1 Ok; LAllocFast 1; LAllocFast 0] in
  map id_of (issued (exec step init ls)) = [3; 3001; 1001; 2; 1].
Proof. vm_compute. reflexivity. Qed.

Print Assumptions C04_ids_nodup.
Print Assumptions C04_ids_increasing_per_instance.
Print Assumptions C04_id_le_persisted_end.
Print Assumptions C04_stored_end_monotone.
Print Assumptions C04_loser_cannot_extend.
