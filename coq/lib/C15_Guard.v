(* Executions in which every label that fires satisfies a guard (a decidable side condition on
   the pre-state and the label).  The excluded class of schedules / inputs is the visible hypothesis
   `guarded step G s ls = true` of a theorem (C15_without_cas_partial, C20_exactly_one_if_some_valid_completes). *)
From PDV Require Import lib.Base.

Section Guarded.
  Context {S L : Type} (step : S -> L -> option S) (G : S -> L -> bool).

  Fixpoint guarded (s : S) (ls : list L) : bool :=
    match ls with
    | [] => true
    | l :: r => match step s l with Some s' => G s l && guarded s' r | None => guarded s r end
    end.

  Theorem invariant_guarded (I : S -> Prop) :
    (forall s l s', I s -> G s l = true -> step s l = Some s' -> I s') ->
    forall ls s, I s -> guarded s ls = true -> I (exec step s ls).
  Proof.
    intros Hstep ls; induction ls as [|l r IH]; intros s Hs Hg; cbn [exec guarded] in *; [exact Hs|].
    destruct (step s l) as [s'|] eqn:E.
    - apply andb_true_iff in Hg as [Hg1 Hg2]. apply IH; [eapply Hstep; eauto | exact Hg2].
    - apply IH; assumption.
  Qed.

  (* the same with a side condition on the labels alone *)
  Theorem invariant_Forall (I : S -> Prop) (P : L -> Prop) :
    (forall s l s', I s -> P l -> step s l = Some s' -> I s') ->
    forall ls s, I s -> Forall P ls -> I (exec step s ls).
  Proof.
    intros Hstep ls; induction ls as [|l r IH]; intros s Hs Hp; cbn [exec]; [exact Hs|].
    inversion Hp as [|? ? Hl Hr]; subst. destruct (step s l) as [s'|] eqn:E; [|apply IH; assumption].
    apply IH; [eapply Hstep; eauto|exact Hr].
  Qed.

  Lemma guarded_app s l1 l2 : guarded s (l1 ++ l2) = guarded s l1 && guarded (exec step s l1) l2.
  Proof.
    revert s; induction l1 as [|l r IH]; intros s; cbn [guarded exec app]; [reflexivity|].
    destruct (step s l) as [s'|]; [rewrite IH, andb_assoc; reflexivity | apply IH].
  Qed.

  Lemma guarded_last s ls l s' :
    guarded s (ls ++ [l]) = true -> step (exec step s ls) l = Some s' ->
    guarded s ls = true /\ G (exec step s ls) l = true.
  Proof.
    rewrite guarded_app. intros H E. apply andb_true_iff in H as [H1 H2]. split; [exact H1|].
    cbn [guarded] in H2. rewrite E in H2. apply andb_true_iff in H2 as [H2 _]. exact H2.
  Qed.
End Guarded.
