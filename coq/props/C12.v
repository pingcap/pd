(* C12 — Rule fitting partitions peers correctly and picks the best assignment.
   Statements with short derivations from proof/C12_FitProof.v; structural obligations in proof/C12_Skel.v.

   Quantification: all store sets (any labels, duplicated keys, empty values, exclusive labels), all
   regions (any number of peers, learners, any leader id incl. none / a learner, peers on unknown
   stores), all rule lists (any number of rules, the four roles and an unknown role, any Count >= 0,
   label constraints in/notIn/exists/notExists/unknown operator, any location labels).
   `fit_region` is the transcription of FitRegion (fitRule / enumPeers / compareBest /
   updateOrphanPeers); its tie to the Go code is proof/C12_Skel.v + the correspondence run.
   Outside the model: negative Count (rejected by adjustRule; the Go search then leaves a nil RuleFit),
   non-ASCII labels (EqualFold is ASCII here).  Peers with equal ids, which sort.Slice may leave in any order, are
   covered by C12_unstable_sort_covered. *)
From Coq Require Import String Permutation Sorting.Sorted.
From PDV Require Import lib.Base lib.C12_Order gen.Gen_C12 model.C12_Fit proof.C12_FitProof proof.C12_Skel.
Local Open Scope list_scope.

(* every peer in exactly one rule or in the orphan list; only into rules whose label constraints its
   store satisfies and whose role it can still be converted to; never more than Count; the role
   mismatch list and the isolation score are exact (rule_fit_ok) *)
Theorem C12_fit_partition :
  forall stores leader peers rules,
  exists fits orph,
    fit_region stores leader peers rules = (map Some fits, orph) /\
    length fits = length rules /\
    Permutation (concat (map rf_peers fits) ++ orph) (mk_fpeers stores leader peers) /\
    Forall2 rule_fit_ok rules fits.
Proof. exact fit_partition. Qed.

(* the fit peers are exactly the region's peers *)
Theorem C12_fit_peers_are_region_peers :
  forall stores leader peers, Permutation (map fpid (mk_fpeers stores leader peers)) (map pid peers).
Proof.
  intros stores leader peers. unfold mk_fpeers. rewrite mk_fpeers_from_pids. apply Permutation_map, sort_peers_perm.
Qed.

(* the backtracking search (pruning, shared best-so-far vector, selected flags) computes the
   specification: rule by rule the first lexicographic maximum over all k-subsets *)
Theorem C12_fit_imp_eq_spec :
  forall stores leader peers rules,
    fit_region stores leader peers rules =
    (map Some (fst (fit_region_spec stores leader peers rules)), snd (fit_region_spec stores leader peers rules)).
Proof. exact fit_region_eq_spec. Qed.

(* no valid assignment is better under the documented order: rule by rule more peers, then fewer
   role mismatches, then higher isolation score (crf_documented_order), finally fewer orphans —
   i.e. CompareRegionFit never prefers any other valid assignment *)
Theorem C12_fit_optimal :
  forall stores leader peers rules,
  exists fits orph,
    fit_region stores leader peers rules = (map Some fits, orph) /\
    forall A, valid (mk_fpeers stores leader peers) rules [] A ->
      compare_region_fit (fits, orph)
        (fits_of rules A, unselected (mk_fpeers stores leader peers) (final_sel [] A)) <> Lt.
Proof. exact fit_optimal. Qed.

Theorem C12_crf_documented_order :
  forall a b, compare_rule_fit a b = Gt <->
    (length (rf_peers a) > length (rf_peers b))%nat \/
    (length (rf_peers a) = length (rf_peers b) /\
     ((length (rf_diff a) < length (rf_diff b))%nat \/
      (length (rf_diff a) = length (rf_diff b) /\ (rf_score a > rf_score b)%Z))).
Proof. exact crf_gt_iff. Qed.

(* satisfied exactly when every rule is filled with matching roles and no orphan remains
   (and there is at least one rule: RegionFit.IsSatisfied is false for an empty rule list) *)
Theorem C12_satisfied_iff :
  forall stores leader peers rules,
  exists fits orph,
    fit_region stores leader peers rules = (map Some fits, orph) /\
    (is_satisfied rules (fits, orph) = true <->
     rules <> [] /\
     Forall2 (fun r f => length (rf_peers f) = rcount r /\
                         forall p, In p (rf_peers f) -> match_role_strict p (rrole r) = true) rules fits /\
     orph = []).
Proof. exact satisfied_iff. Qed.

(* CompareRegionFit is the comparison of a total preorder on the fits of one rule list *)
Theorem C12_compare_region_fit_total_preorder :
  forall n,
  let D := fun f : list rulefit * list fpeer => length (fst f) = n in
  (forall a b, D a -> D b -> compare_region_fit b a = CompOpp (compare_region_fit a b)) /\
  (forall a b d x, D a -> D b -> D d -> compare_region_fit a b = x -> compare_region_fit b d = x -> compare_region_fit a d = x) /\
  (forall a b d, D a -> D b -> D d -> compare_region_fit a b = Eq -> compare_region_fit a d = compare_region_fit b d).
Proof.
  intros n D; unfold D; repeat split.
  - intros a b Ha Hb. rewrite !compare_region_fit_same_len by congruence. apply (g_anti _ good_region_full).
  - intros a b d x Ha Hb Hd. rewrite !compare_region_fit_same_len by congruence. apply (g_trans _ good_region_full).
  - intros a b d Ha Hb Hd. rewrite !compare_region_fit_same_len by congruence. apply (g_eq_l _ good_region_full).
Qed.

(* remark, outside the statement (CompareRegionFit is only called on fits of the same rule list): on
   fits of different length it compares the common prefix and is then not transitive *)
Example C12_compare_prefix_not_transitive :
  let hi := RF [FPeer 0 1 false false None] [] 0 in
  let lo := RF [] [] 0 in
  let a := ([hi; hi], @nil fpeer) in let b := ([hi], @nil fpeer) in let c := ([hi; lo], @nil fpeer) in
  compare_region_fit c b = Eq /\ compare_region_fit b a = Eq /\ compare_region_fit c a = Lt.
Proof. vm_compute. repeat split. Qed.

(* ---- assumptions removed or quantified ---- *)
(* sort.Slice is unstable: whatever order it leaves among peers of equal id, the answer is fit_region of that
   arrangement of the region's peers — and every theorem here holds for every arrangement *)
Theorem C12_unstable_sort_covered :
  forall stores leader ps ps' rules, Permutation ps ps' -> StronglySorted pid_le ps' ->
    fit_imp stores (mk_fpeers_from 0 stores leader ps') rules = fit_region stores leader ps' rules
    /\ Permutation (map pid ps') (map pid ps).
Proof.
  intros stores leader ps ps' rules P S. split; [|apply Permutation_map, Permutation_sym; exact P].
  unfold fit_region, mk_fpeers. rewrite (sort_peers_sorted ps' S). reflexivity.
Qed.

(* isolation scores: 0 <= score <= C(n,2) * base^(levels-1); below 2^53 (exact in float64; the partial sums are
   smaller, the summands being non-negative) for <= 6 peers in a rule and <= 7 location labels *)
Theorem C12_isolation_score_bounds :
  forall ps labels, (0 <= isolation_score ps labels
     <= Z.of_nat (length ps * (length ps - 1) / 2) * replicaBaseScore ^ (Z.of_nat (length labels) - 1))%Z.
Proof. exact isolation_score_bounds. Qed.
Theorem C12_isolation_score_exact_in_float64 :
  forall ps labels, (length ps <= 6)%nat -> (length labels <= 7)%nat -> (0 <= isolation_score ps labels < 2 ^ 53)%Z.
Proof. exact isolation_score_exact_in_float64. Qed.

(* the brute-force oracle of the monitor (every sub-sequence of the free candidates of size <= Count, rule by
   rule) enumerates exactly the valid assignments, and FitRegion's answer always passes it *)
Theorem C12_all_valid_spec :
  forall peers rules sel A, In A (all_valid peers rules sel) <-> valid peers rules sel A.
Proof. exact all_valid_spec. Qed.
Theorem C12_fit_region_passes_oracle :
  forall stores leader ps rules,
  exists fits orph, fit_region stores leader ps rules = (map Some fits, orph) /\
                    not_worse_than_any (mk_fpeers stores leader ps) rules (fits, orph) = true.
Proof.
  intros stores leader ps rules.
  destruct (fit_optimal stores leader ps rules) as (fits & orph & E & H). exists fits, orph. split; [exact E|].
  unfold not_worse_than_any. apply forallb_forall. intros A HA. apply all_valid_spec in HA. specialize (H A HA).
  destruct (compare_region_fit _ _); try reflexivity. congruence.
Qed.

(* non-vacuity: 3 zones, a leader rule pinned to z1, two voters spread over zones, a learner rule;
   5 peers: the search places 4 (first maximum {11,13} of the equally isolated voter pairs) and leaves one orphan; a valid assignment exists and is not better *)
Definition ex_stores := [Store 1 [("zone","z1")]; Store 2 [("zone","z1")]; Store 3 [("zone","z2")];
                         Store 4 [("zone","z3")]; Store 5 [("zone","z3"); ("engine","tiflash")]]%string.
Definition ex_rules := [Rule Leader 1 [Constr "zone" OpIn ["z1"]] []; Rule Voter 2 [] ["zone"];
                        Rule Learner 1 [Constr "engine" OpIn ["tiflash"]] []]%string.
Definition ex_peers := [Peer 15 5 true; Peer 11 1 false; Peer 12 2 false; Peer 13 3 false; Peer 14 4 false].
Example C12_nonvacuous :
  let '(bs, orph) := fit_region ex_stores 12 ex_peers ex_rules in
  map (option_map rf_obs) bs = [Some ([12], [], 0); Some ([11; 13], [], 1); Some ([15], [], 0)]%Z
  /\ map fpid orph = [14]%Z
  /\ (exists A, valid (mk_fpeers ex_stores 12 ex_peers) ex_rules [] A /\ length (concat A) = 2%nat).
Proof.
  vm_compute. split; [reflexivity|]. split; [reflexivity|].
  exists [[]; [FPeer 2 13 false false (Some (Store 3 [("zone","z2")]%string)); FPeer 3 14 false false (Some (Store 4 [("zone","z3")]%string))]; []].
  split; [|reflexivity]. cbn [valid].
  split; [apply sl_nil|]. split; [repeat constructor|].
  split; [vm_compute; apply sl_skip, sl_skip, sl_take, sl_take, sl_nil|]. split; [repeat constructor|].
  split; [apply sl_nil|]. split; [repeat constructor|exact I].
Qed.

Print Assumptions C12_fit_partition.
Print Assumptions C12_fit_peers_are_region_peers.
Print Assumptions C12_fit_imp_eq_spec.
Print Assumptions C12_fit_optimal.
Print Assumptions C12_crf_documented_order.
Print Assumptions C12_satisfied_iff.
Print Assumptions C12_compare_region_fit_total_preorder.
Print Assumptions C12_unstable_sort_covered.
Print Assumptions C12_isolation_score_bounds.
Print Assumptions C12_isolation_score_exact_in_float64.
Print Assumptions C12_all_valid_spec.
Print Assumptions C12_fit_region_passes_oracle.
