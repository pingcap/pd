(* C10 — the verified checker `balanced_from`: a step list whose every prefix adds at least as many peers as it
   removes never takes the region below its initial peer count, on ANY region on which TiKV accepts the steps. *)
From PDV Require Import lib.C10_Cluster lib.C10_StepFacts gen.Gen_C10 model.C10_Checker.
Local Open Scope list_scope.
Local Open Scope Z_scope.

Lemma balanced_from_cons bal x r :
  balanced_from bal (x :: r) = (0 <=? bal + step_delta x) && balanced_from (bal + step_delta x) r.
Proof. destruct x; cbn [balanced_from step_delta]; rewrite ?Z.add_0_r; reflexivity. Qed.

(* the verified checker: with `bal` spare peers at the start, no state of the run is more than `bal`
   peers below the start *)
Theorem balanced_sound xs : forall s tr bal,
  run_steps s xs = Some tr -> NoDup (stores_of (rs_peers s)) -> 0 <= bal -> balanced_from bal xs = true ->
  Forall (fun s' => Z.of_nat (List.length (rs_peers s)) - bal <= Z.of_nat (List.length (rs_peers s'))) tr.
Proof.
  induction xs as [|x xs IH]; intros s tr bal H Hn Hb Hbal; cbn in H.
  - inversion H; subst. constructor; [lia|constructor].
  - destruct (apply_step s x) as [s1|] eqn:E; [|discriminate].
    destruct (run_steps s1 xs) as [t|] eqn:E2; [|discriminate]. inversion H; subst.
    constructor; [lia|].
    rewrite balanced_from_cons in Hbal. apply andb_true_iff in Hbal as [Hb1 Hb2]. apply Z.leb_le in Hb1.
    pose proof (apply_step_length _ _ _ E Hn) as L.
    specialize (IH s1 t (bal + step_delta x) E2 (apply_step_nodup _ _ _ E Hn) Hb1 Hb2).
    eapply Forall_impl; [|exact IH]. cbn. intros a Ha. lia.
Qed.

Lemma plan_add_balanced joint r t lrn id pl :
  plan_of joint r (AAdd t lrn) id = Some pl -> balanced_prefixes pl = true.
Proof. cbn. destruct lrn; intros H; inversion H; subst; reflexivity. Qed.
