(* C06 — invariants of heartbeat processing over all interleavings of heartbeat threads. *)
From PDV Require Import lib.Base lib.C07_Key lib.C07_List model.C07_Region proof.C07_Tree proof.C07_RegionProof proof.C07_Spec
  model.C06_Heartbeat.
Local Open Scope Z_scope.

Inductive hlabel :=
| LBegin (t : Z) (r : region)      (* a thread starts a heartbeat: first precheck, flags *)
| LStep (t : Z)                    (* its next atomic section *)
| LFlush.                          (* RegionStorage flushes its batch (timer, size, Flush) *)

(* a heartbeat of the domain: a well-formed region (C07) and a raft term that is a uint64 *)
Definition hb_ok (r : region) : bool := wf_region r && (0 <=? r_term r).
Lemma hb_ok_parts r : hb_ok r = true -> wf_region r = true /\ 0 <= r_term r.
Proof. unfold hb_ok. intros H. apply andb_true_iff in H as [W T]. apply Z.leb_le in T. auto. Qed.

Definition hl_step (h : hstate) (l : hlabel) : option hstate :=
  match l with
  | LBegin t r =>
      if hb_ok r
      then match begin h t r with (_, HBad) => None | (h', _) => Some h' end
      else None
  | LStep t => match step h t with (_, HBad) => None | (h', _) => Some h' end
  | LFlush => Some (HState (h_cache h) (flush (h_store h)) (h_threads h))
  end.

Definition cached (c : rinfo) : list region := items (tree c).

Lemma th_get_in l t p : th_get l t = Some p -> In (t, p) l.
Proof.
  induction l as [|[k v] l IH]; cbn; [discriminate|].
  destruct (Z.eqb_spec k t) as [->|]; [intros H; inversion H; auto|auto].
Qed.
Lemma th_del_in l t x : In x (th_del l t) -> In x l.
Proof.
  induction l as [|[k v] l IH]; cbn; [tauto|].
  destruct (k =? t); [auto|]. intros [H|H]; auto.
Qed.
Lemma th_set_in l t p x : In x (th_set l t p) -> x = (t, p) \/ In x l.
Proof. unfold th_set. intros [H|H]; [auto|right; eapply th_del_in; eauto]. Qed.

Lemma keep_term_eq c r : keep_term c r = with_term r (r_term (keep_term c r)).
Proof.
  unfold keep_term. destruct (r_term r =? 0); [destruct (get_region c (r_id r))|]; try reflexivity; destruct r; reflexivity.
Qed.

Lemma keep_term_id c r : r_id (keep_term c r) = r_id r.
Proof. rewrite keep_term_eq. reflexivity. Qed.
Lemma wf_keep_term c r : wf_region (keep_term c r) = wf_region r.
Proof. rewrite keep_term_eq. reflexivity. Qed.
Lemma overlaps_keep_term c r x : overlaps x (keep_term c r) = overlaps x r.
Proof. rewrite keep_term_eq. reflexivity. Qed.
Lemma displaced_keep_term l c r : displaced l (keep_term c r) = displaced l r.
Proof. rewrite keep_term_eq. reflexivity. Qed.

Lemma Inv_put c r : Inv c -> wf_region r = true ->
  Inv (fst (put_region c r)) /\ cached (fst (put_region c r)) = spec_tree (cached c) (keep_term c r) /\
  snd (put_region c r) = displaced (cached c) r.
Proof.
  intros I W. unfold put_region. rewrite <- (wf_keep_term c r) in W.
  destruct (Inv_set c _ I W) as (A & B & C). rewrite displaced_keep_term in C. auto.
Qed.

Lemma displaced_in T r x : In x (displaced T r) <-> In x T /\ r_id x <> r_id r /\ overlaps x r = true.
Proof. unfold displaced. rewrite filter_In, andb_true_iff, negb_true_iff, Z.eqb_neq. tauto. Qed.

Lemma option_ext {X} (a b : option X) : (forall x, a = Some x <-> b = Some x) -> a = b.
Proof.
  intros H. destruct a as [x|]; [symmetry; apply H; reflexivity|].
  destruct b as [y|]; [apply H; reflexivity|reflexivity].
Qed.

(* what is served after SetRegion: the new region under its id; under another id what was served, unless it overlaps *)
Lemma get_set c r id : Inv c -> wf_region r = true ->
  get_region (fst (set_region c r)) id =
  if id =? r_id r then Some r
  else match get_region c id with Some y => if overlaps y r then None else Some y | None => None end.
Proof.
  intros I W. destruct (Inv_set c r I W) as (I' & E & _). apply option_ext. intros x.
  rewrite (Inv_get _ id x I'), E, spec_tree_in. unfold keep.
  destruct (Z.eqb_spec id (r_id r)) as [->|NE].
  - split.
    + intros [[->|[_ K]] Eid]; [reflexivity|]. rewrite Eid, Z.eqb_refl in K. discriminate.
    + intros H. inv H. auto.
  - destruct (get_region c id) as [y|] eqn:G.
    + apply (Inv_get c id y I) in G as [Hy Ey]. split.
      * intros [[->|[Hx K]] Eid]; [congruence|].
        rewrite (nodup_ids_eq _ x y (Inv_ids c I) Hx Hy) in K |- * by congruence.
        apply andb_true_iff in K as [_ K]. apply negb_true_iff in K. rewrite K. reflexivity.
      * destruct (overlaps y r) eqn:O; [discriminate|]. intros H. inv H. split; [right; split; [exact Hy|]|reflexivity].
        rewrite O. apply Z.eqb_neq in NE. rewrite NE. reflexivity.
    + split; [|discriminate]. intros [[->|[Hx _]] Eid]; [congruence|].
      rewrite (proj2 (Inv_get c id x I) (conj Hx Eid)) in G. discriminate.
Qed.

Lemma get_put c r id : Inv c -> wf_region r = true ->
  get_region (fst (put_region c r)) id =
  if id =? r_id r then Some (keep_term c r)
  else match get_region c id with Some y => if overlaps y r then None else Some y | None => None end.
Proof.
  intros I W. unfold put_region. rewrite get_set, keep_term_id by (rewrite ?wf_keep_term; assumption).
  destruct (id =? r_id r); [reflexivity|]. destruct (get_region c id); rewrite ?overlaps_keep_term; reflexivity.
Qed.

Lemma served_after_put c r id : Inv c -> wf_region r = true ->
  get_region c id <> None -> ~ In id (map r_id (displaced (cached c) r)) ->
  get_region (fst (put_region c r)) id <> None.
Proof.
  intros I W GS NI. rewrite get_put by assumption. destruct (Z.eqb_spec id (r_id r)) as [E|NE]; [discriminate|].
  destruct (get_region c id) as [y|] eqn:GY; [|congruence]. apply (Inv_get c id y I) in GY as [Hy Ey].
  destruct (overlaps y r) eqn:O; [|discriminate]. exfalso. apply NI, in_map_iff. exists y. split; [exact Ey|].
  apply displaced_in. split; [exact Hy|]. split; [congruence|exact O].
Qed.

Lemma served_put_self c r : Inv c -> wf_region r = true -> get_region (fst (put_region c r)) (r_id r) <> None.
Proof. intros I W. rewrite get_put, Z.eqb_refl by assumption. discriminate. Qed.

(* a heartbeat that is not answered at once always updates the cache: saveKV and isNew imply saveCache *)
Definition idle (fl : flags) : bool := negb (f_kv fl) && negb (f_cache fl) && negb (f_new fl).

Lemma flags_kv_cache r origin : f_kv (compute_flags r origin) = true -> f_cache (compute_flags r origin) = true.
Proof.
  destruct origin as [o|]; cbn; [|reflexivity]. intros H.
  apply orb_true_iff in H as [H|H]; [apply orb_true_iff in H as [H|H]|]; rewrite H; rewrite ?orb_true_r; reflexivity.
Qed.
Lemma flags_new_cache r origin : f_new (compute_flags r origin) = true -> f_cache (compute_flags r origin) = true.
Proof.
  destruct origin as [o|]; cbn; [|reflexivity]. intros H. apply andb_true_iff in H as [H _].
  rewrite H; rewrite ?orb_true_r; reflexivity.
Qed.
Lemma flags_not_early r origin : idle (compute_flags r origin) = false -> f_cache (compute_flags r origin) = true.
Proof.
  unfold idle. intros H. destruct (f_cache (compute_flags r origin)) eqn:FC; [reflexivity|]. exfalso.
  destruct (f_kv (compute_flags r origin)) eqn:FK; [rewrite (flags_kv_cache _ _ FK) in FC; discriminate|].
  destruct (f_new (compute_flags r origin)) eqn:FN; [rewrite (flags_new_cache _ _ FN) in FC; discriminate|].
  discriminate H.
Qed.

Definition accepted (c : rinfo) (r : region) : Prop := snd (precheck c r) = false.

Lemma precheck_ok c r : accepted c r -> fst (precheck c r) = get_region c (r_id r).
Proof.
  unfold accepted, precheck, relevant. destruct (existsb _ _); [discriminate|].
  destruct (get_region c (r_id r)) as [o|]; [|reflexivity]. destruct (_ || _ || _); [discriminate|reflexivity].
Qed.

(* what is left of a thread after a section: its remaining storage writes, or nothing *)
Definition park (l : list (Z * pc)) (t : Z) (todo : list sop) : list (Z * pc) :=
  match todo with [] => th_del l t | _ => th_set l t (PStore todo) end.
Definition res_of (todo : list sop) : hres := match todo with [] => HOk | _ => HParked end.

Lemma park_in l t todo x : In x (park l t todo) -> x = (t, PStore todo) \/ In x l.
Proof. destruct todo; cbn [park]; [right; eapply th_del_in; eauto|apply th_set_in]. Qed.

Lemma res_of_err todo : res_of todo <> HErr.
Proof. destruct todo; discriminate. Qed.

Inductive hstep (h : hstate) : hlabel -> hstate -> hres -> Prop :=
| hs_err t r : th_get (h_threads h) t = None -> snd (precheck (h_cache h) r) = true -> hstep h (LBegin t r) h HErr
| hs_idle t r : th_get (h_threads h) t = None -> accepted (h_cache h) r ->
    idle (compute_flags r (get_region (h_cache h) (r_id r))) = true -> hstep h (LBegin t r) h HOk
| hs_lock t r fl : th_get (h_threads h) t = None -> accepted (h_cache h) r ->
    fl = compute_flags r (get_region (h_cache h) (r_id r)) -> f_cache fl = true ->
    hstep h (LBegin t r) (HState (h_cache h) (h_store h) (th_set (h_threads h) t (PLock r fl))) HParked
| hs_reject t r fl : th_get (h_threads h) t = Some (PLock r fl) -> f_cache fl = true ->
    snd (precheck (h_cache h) r) = true ->
    hstep h (LStep t) (HState (h_cache h) (h_store h) (th_del (h_threads h) t)) HErr
| hs_put t r fl todo : th_get (h_threads h) t = Some (PLock r fl) -> f_cache fl = true -> accepted (h_cache h) r ->
    todo = store_ops (snd (put_region (h_cache h) r)) r fl ->
    hstep h (LStep t) (HState (fst (put_region (h_cache h) r)) (h_store h) (park (h_threads h) t todo)) (res_of todo)
| hs_skip t r fl todo : th_get (h_threads h) t = Some (PLock r fl) -> f_cache fl = false -> todo = store_ops [] r fl ->
    hstep h (LStep t) (HState (h_cache h) (h_store h) (park (h_threads h) t todo)) (res_of todo)
| hs_write t o rest : th_get (h_threads h) t = Some (PStore (o :: rest)) ->
    hstep h (LStep t) (HState (h_cache h) (apply_sop (h_store h) o) (park (h_threads h) t rest)) (res_of rest)
| hs_done t : th_get (h_threads h) t = Some (PStore []) ->
    hstep h (LStep t) (HState (h_cache h) (h_store h) (th_del (h_threads h) t)) HOk
| hs_flush : hstep h LFlush (HState (h_cache h) (flush (h_store h)) (h_threads h)) HOk.

Lemma begin_hstep h t r h' res : th_get (h_threads h) t = None -> begin h t r = (h', res) -> hstep h (LBegin t r) h' res.
Proof.
  intros TG. unfold begin. rewrite TG. destruct (precheck (h_cache h) r) as [origin err] eqn:PC.
  destruct err; [intros H; inv H; apply hs_err; [exact TG|rewrite PC; reflexivity]|].
  assert (A : accepted (h_cache h) r) by (unfold accepted; rewrite PC; reflexivity).
  pose proof (precheck_ok _ _ A) as EO. rewrite PC in EO. cbn [fst] in EO. subst origin.
  destruct (negb _ && negb _ && negb _) eqn:ND; intros H; inv H.
  - apply hs_idle; assumption.
  - apply hs_lock; auto. apply flags_not_early, ND.
Qed.

Lemma begin_busy h t r p : th_get (h_threads h) t = Some p -> begin h t r = (h, HBad).
Proof. intros TG. unfold begin. rewrite TG. reflexivity. Qed.

Lemma step_hstep h t p h' res : th_get (h_threads h) t = Some p -> step h t = (h', res) -> hstep h (LStep t) h' res.
Proof.
  intros TG. unfold step. rewrite TG. destruct p as [r fl|[|o rest]].
  - destruct (f_cache fl) eqn:FC.
    + destruct (precheck (h_cache h) r) as [origin err] eqn:PC. destruct err.
      * intros H; inv H. eapply hs_reject; eauto. rewrite PC; reflexivity.
      * assert (A : accepted (h_cache h) r) by (unfold accepted; rewrite PC; reflexivity).
        pose proof (hs_put h t r fl _ TG FC A eq_refl) as X.
        destruct (put_region (h_cache h) r) as [c' ov]. cbn [fst snd] in X.
        destruct (store_ops ov r fl); intros H; inv H; exact X.
    + pose proof (hs_skip h t r fl _ TG FC eq_refl) as X.
      destruct (store_ops [] r fl); intros H; inv H; exact X.
  - intros H; inv H. apply hs_done, TG.
  - pose proof (hs_write h t o rest TG) as X. destruct rest; intros H; inv H; exact X.
Qed.

Lemma step_free h t : th_get (h_threads h) t = None -> step h t = (h, HBad).
Proof. intros TG. unfold step. rewrite TG. reflexivity. Qed.

Lemma hl_step_hstep h l h' : hl_step h l = Some h' ->
  exists res, hstep h l h' res /\ match l with LBegin _ r => hb_ok r = true | _ => True end.
Proof.
  destruct l as [t r|t|]; cbn [hl_step].
  - destruct (hb_ok r); [|discriminate]. destruct (th_get (h_threads h) t) as [p|] eqn:TG.
    + rewrite (begin_busy _ _ _ _ TG). discriminate.
    + destruct (begin h t r) as [h1 res] eqn:B. apply (begin_hstep _ _ _ _ _ TG) in B.
      destruct res; intros H; inv H; eexists; (split; [eassumption|reflexivity]).
  - destruct (th_get (h_threads h) t) as [p|] eqn:TG.
    + destruct (step h t) as [h1 res] eqn:S. apply (step_hstep _ _ _ _ _ TG) in S.
      destruct res; intros H; inv H; eexists; (split; [eassumption|exact I]).
    + rewrite (step_free _ _ TG). discriminate.
  - intros H; inv H. exists HOk. split; [constructor|exact I].
Qed.

(* the C07 invariant of the cache; a thread waiting for the lock has a heartbeat of the domain and will write the cache *)
Definition locks_ok (l : list (Z * pc)) : Prop :=
  forall t r fl, In (t, PLock r fl) l -> hb_ok r = true /\ f_cache fl = true.
Definition threads_wf (h : hstate) : Prop := locks_ok (h_threads h).
Definition HInv (h : hstate) : Prop := Inv (h_cache h) /\ threads_wf h.

Lemma locks_del l t : locks_ok l -> locks_ok (th_del l t).
Proof. intros H t0 r fl Hin. apply th_del_in in Hin. eauto. Qed.
Lemma locks_park l t todo : locks_ok l -> locks_ok (park l t todo).
Proof. intros H t0 r fl Hin. apply park_in in Hin as [E|Hin]; [discriminate|eauto]. Qed.

Lemma HInv_init wb : HInv (h_init wb).
Proof. split; [apply Inv_empty|]. intros t r fl []. Qed.

Lemma HInv_step h l h' : HInv h -> hl_step h l = Some h' -> HInv h'.
Proof.
  intros [I TW] H. apply hl_step_hstep in H as (res & H & W).
  destruct H as [t r TG|t r TG|t r fl TG A Efl FC|t r fl TG|t r fl todo TG|t r fl todo TG|t o rest TG|t TG|].
  - (* rejected by the first check *) exact (conj I TW).
  - (* answered at once *) exact (conj I TW).
  - (* a thread starts to wait for the lock: its heartbeat is of the domain and it will write the cache *)
    split; [exact I|]. intros t0 r0 fl0 Hin. apply th_set_in in Hin as [E|Hin]; [inv E; auto|eauto].
  - (* rejected under the lock *) split; [exact I|apply locks_del, TW].
  - (* the put keeps the C07 invariant *)
    split; [|apply locks_park, TW]. destruct (TW _ _ _ (th_get_in _ _ _ TG)) as [W0 _].
    apply Inv_put; [exact I|apply hb_ok_parts, W0].
  - (* no put *) split; [exact I|apply locks_park, TW].
  - (* a storage write *) split; [exact I|apply locks_park, TW].
  - (* nothing left to write *) split; [exact I|apply locks_del, TW].
  - (* flush *) exact (conj I TW).
Qed.

Theorem HInv_exec wb ls : HInv (exec hl_step (h_init wb) ls).
Proof. apply (invariant_exec hl_step HInv); [intros; eapply HInv_step; eauto|apply HInv_init]. Qed.

Lemma step_cache h l h' : hl_step h l = Some h' ->
  h_cache h' = h_cache h \/
  exists t r fl, l = LStep t /\ In (t, PLock r fl) (h_threads h) /\ accepted (h_cache h) r /\
                 h_cache h' = fst (put_region (h_cache h) r).
Proof.
  intros H. apply hl_step_hstep in H as (res & H & _). destruct H; auto.
  right. exists t, r, fl. auto using th_get_in.
Qed.

Definition epoch_le (x x' : region) : Prop :=
  r_ver x <= r_ver x' /\ r_confver x <= r_confver x' /\ r_term x <= r_term x'.

Lemma epoch_le_refl x : epoch_le x x.
Proof. unfold epoch_le. lia. Qed.
Lemma epoch_le_trans x y z : epoch_le x y -> epoch_le y z -> epoch_le x z.
Proof. unfold epoch_le. lia. Qed.

Lemma accepted_origin c r o : accepted c r -> 0 <= r_term r -> get_region c (r_id r) = Some o -> epoch_le o (keep_term c r).
Proof.
  unfold accepted, precheck, relevant. intros A T G. rewrite G in A. destruct (existsb _ _); [discriminate|].
  destruct ((0 <? r_term r) && (r_term r <? r_term o) || (r_ver r <? r_ver o) || (r_confver r <? r_confver o)) eqn:B; [discriminate|].
  apply orb_false_iff in B as [B B3]. apply orb_false_iff in B as [B1 B2]. apply Z.ltb_ge in B2, B3.
  unfold epoch_le, keep_term. rewrite G. destruct (Z.eqb_spec (r_term r) 0) as [Z0|NZ]; cbn; [lia|].
  apply andb_false_iff in B1 as [B1|B1]; apply Z.ltb_ge in B1; lia.
Qed.

Theorem epoch_monotone_step_pf h l h' id x x' :
  HInv h -> hl_step h l = Some h' ->
  get_region (h_cache h) id = Some x -> get_region (h_cache h') id = Some x' -> epoch_le x x'.
Proof.
  intros [I TW] H G G'. destruct (step_cache _ _ _ H) as [E|(t & r & fl & _ & Hin & A & E)].
  - rewrite E, G in G'. inv G'. apply epoch_le_refl.
  - destruct (hb_ok_parts _ (proj1 (TW _ _ _ Hin))) as [W T].
    rewrite E, get_put in G' by assumption. destruct (Z.eqb_spec id (r_id r)) as [->|_].
    + inv G'. eapply accepted_origin; eauto.
    + rewrite G in G'. destruct (overlaps x r); inv G'. apply epoch_le_refl.
Qed.

Theorem rejected_unchanged_begin_pf h t r h' : begin h t r = (h', HErr) -> h' = h.
Proof.
  intros H. destruct (th_get (h_threads h) t) as [p|] eqn:TG; [rewrite (begin_busy _ _ _ _ TG) in H; discriminate|].
  apply (begin_hstep _ _ _ _ _ TG) in H. inv H. reflexivity.
Qed.

Theorem rejected_unchanged_step_pf h t h' : step h t = (h', HErr) ->
  h_cache h' = h_cache h /\ h_store h' = h_store h.
Proof.
  intros H. destruct (th_get (h_threads h) t) as [p|] eqn:TG; [|rewrite (step_free _ _ TG) in H; discriminate].
  apply (step_hstep _ _ _ _ _ TG) in H. inversion H; subst; auto; exfalso; eapply res_of_err; eassumption.
Qed.

Theorem displaced_gone_from_cache_put_pf c r x : Inv c -> wf_region r = true ->
  In x (snd (put_region c r)) -> get_region (fst (put_region c r)) (r_id x) = None /\ In x (cached c).
Proof.
  intros I W Hx. destruct (Inv_put c r I W) as (_ & _ & C). rewrite C in Hx. apply displaced_in in Hx as (Hx & NE & O).
  split; [|exact Hx]. rewrite get_put by assumption. apply Z.eqb_neq in NE. rewrite NE.
  rewrite (proj2 (Inv_get c (r_id x) x I) (conj Hx eq_refl)), O. reflexivity.
Qed.

Definition origin_stale (r x : region) : bool :=
  ((0 <? r_term r) && (r_term r <? r_term x)) || (r_ver r <? r_ver x) || (r_confver r <? r_confver x).

(* staler than the cached region of the same id, or older in version than a cached region it overlaps *)
Definition stale_spec (l : list region) (r : region) : bool :=
  existsb (fun x => if r_id x =? r_id r then origin_stale r x else overlaps x r && (r_ver r <? r_ver x)) l.

Lemma precheck_unfold c r :
  snd (precheck c r) =
  let '(origin, ov) := relevant c r in
  existsb (fun item => r_ver r <? r_ver item) ov || match origin with Some o => origin_stale r o | None => false end.
Proof.
  unfold precheck. destruct (relevant c r) as [origin ov]. destruct (existsb _ ov); [reflexivity|].
  destruct origin as [o|]; [|reflexivity]. cbn [orb]. unfold origin_stale.
  destruct ((0 <? r_term r) && (r_term r <? r_term o) || (r_ver r <? r_ver o) || (r_confver r <? r_confver o)); reflexivity.
Qed.

Theorem precheck_is_stale_pf c r : Inv c -> valid_range r = true ->
  snd (precheck c r) = stale_spec (cached c) r.
Proof.
  intros I V. pose proof (Inv_ds c I) as D. pose proof (Inv_ids c I) as N.
  rewrite precheck_unfold. unfold relevant. rewrite (Inv_overlaps c r I V). fold (cached c).
  apply eq_true_iff_eq. unfold stale_spec. rewrite existsb_exists.
  destruct (get_region c (r_id r)) as [o|] eqn:GO.
  - apply (Inv_get c _ o I) in GO as [Ho Eid]. fold (cached c) in Ho.
    assert (IDO : forall x, In x (cached c) -> (r_id x =? r_id r) = true -> x = o).
    { intros x Hx E. apply Z.eqb_eq in E. apply (nodup_ids_eq _ _ _ N Hx Ho). congruence. }
    destruct (negb (key_eqb (r_start o) (r_start r)) || negb (key_eqb (r_end o) (r_end r))) eqn:RC.
    + rewrite existsb_filter, orb_true_iff, existsb_exists. split.
      * intros [(x & Hx & C)|OS].
        -- apply andb_true_iff in C as [O L]. destruct (r_id x =? r_id r) eqn:E.
           ++ rewrite (IDO x Hx E) in *. exists o. split; [exact Ho|]. rewrite <- Eid, Z.eqb_refl.
              unfold origin_stale. rewrite L. rewrite orb_true_r. reflexivity.
           ++ exists x. split; [exact Hx|]. rewrite E, O, L. reflexivity.
        -- exists o. split; [exact Ho|]. rewrite <- Eid, Z.eqb_refl. exact OS.
      * intros (x & Hx & C). destruct (r_id x =? r_id r) eqn:E.
        -- rewrite (IDO x Hx E) in C. right; exact C.
        -- left. exists x. split; [exact Hx|exact C].
    + cbn [existsb orb]. apply orb_false_iff in RC as [RC1 RC2]. apply negb_false_iff in RC1, RC2.
      destruct (key_eqb_spec (r_start o) (r_start r)) as [Es|]; [|discriminate].
      destruct (key_eqb_spec (r_end o) (r_end r)) as [Ee|]; [|discriminate].
      split.
      * intros OS. exists o. split; [exact Ho|]. rewrite <- Eid, Z.eqb_refl. exact OS.
      * intros (x & Hx & C). destruct (r_id x =? r_id r) eqn:E.
        -- rewrite (IDO x Hx E) in C. exact C.
        -- exfalso. apply andb_true_iff in C as [O _].
           rewrite (sr_overlaps o r Es Ee x) in O. rewrite (ds_overlaps_eq _ _ _ D Hx Ho O) in E.
           rewrite Eid, Z.eqb_refl in E. discriminate.
  - assert (NI : forall x, In x (cached c) -> r_id x <> r_id r).
    { intros x Hx E. rewrite (proj2 (Inv_get c _ x I) (conj Hx E)) in GO. discriminate. }
    rewrite existsb_filter, orb_false_r, existsb_exists. split.
    + intros (x & Hx & C). exists x. split; [exact Hx|].
      replace (r_id x =? r_id r) with false by (symmetry; apply Z.eqb_neq, NI, Hx). exact C.
    + intros (x & Hx & C). exists x. split; [exact Hx|].
      replace (r_id x =? r_id r) with false in C by (symmetry; apply Z.eqb_neq, NI, Hx). exact C.
Qed.

Theorem stale_rejected_begin_pf h t r : HInv h -> valid_range r = true -> th_get (h_threads h) t = None ->
  stale_spec (cached (h_cache h)) r = true -> begin h t r = (h, HErr).
Proof.
  intros [I _] V TG S. rewrite <- (precheck_is_stale_pf _ _ I V) in S. unfold begin. rewrite TG.
  destruct (precheck (h_cache h) r) as [origin err]. cbn in S. subst err. reflexivity.
Qed.

Theorem stale_rejected_step_pf h t r fl : HInv h -> th_get (h_threads h) t = Some (PLock r fl) ->
  stale_spec (cached (h_cache h)) r = true ->
  exists h', step h t = (h', HErr) /\ h_cache h' = h_cache h /\ h_store h' = h_store h.
Proof.
  intros [I TW] TG S. destruct (TW _ _ _ (th_get_in _ _ _ TG)) as [W0 FC]. destruct (hb_ok_parts _ W0) as [W _].
  apply wf_region_parts in W as [V _].
  rewrite <- (precheck_is_stale_pf _ _ I V) in S. unfold step. rewrite TG, FC.
  destruct (precheck (h_cache h) r) as [origin err]. cbn in S. subst err. eexists. split; [reflexivity|]. split; reflexivity.
Qed.

Definition next (h : hstate) (l : hlabel) : hstate := match hl_step h l with Some h' => h' | None => h end.

Fixpoint always_served (id : Z) (h : hstate) (ls : list hlabel) : Prop :=
  get_region (h_cache h) id <> None /\
  match ls with [] => True | l :: r => always_served id (next h l) r end.

Lemma exec_next h l ls : exec hl_step h (l :: ls) = exec hl_step (next h l) ls.
Proof. unfold next. cbn. destruct (hl_step h l); reflexivity. Qed.

Lemma HInv_next h l : HInv h -> HInv (next h l).
Proof. intros I. unfold next. destruct (hl_step h l) eqn:E; [eapply HInv_step; eauto|exact I]. Qed.

Lemma epoch_le_next h l id x y : HInv h ->
  get_region (h_cache h) id = Some x -> get_region (h_cache (next h l)) id = Some y -> epoch_le x y.
Proof.
  intros I G G'. unfold next in G'. destruct (hl_step h l) eqn:E.
  - eapply epoch_monotone_step_pf; eauto.
  - rewrite G in G'. inv G'. apply epoch_le_refl.
Qed.

Lemma always_served_here id h ls : always_served id h ls -> get_region (h_cache h) id <> None.
Proof. destruct ls; intros [H _]; exact H. Qed.

Theorem epochs_monotone_chain_pf ls : forall h id x x', HInv h -> always_served id h ls ->
  get_region (h_cache h) id = Some x -> get_region (h_cache (exec hl_step h ls)) id = Some x' ->
  epoch_le x x'.
Proof.
  induction ls as [|l ls IH]; intros h id x x' I AS G G'.
  - cbn in G'. rewrite G in G'. inv G'. apply epoch_le_refl.
  - rewrite exec_next in G'. destruct AS as [_ AS]. pose proof (always_served_here _ _ _ AS) as NN.
    destruct (get_region (h_cache (next h l)) id) as [y|] eqn:GY; [|congruence].
    apply (epoch_le_trans x y); [eapply epoch_le_next; eauto|]. apply (IH (next h l) id); auto using HInv_next.
Qed.

(* heartbeats of one region with term 5, without term, with term 3: the term-less one keeps term 5 (BasicCluster.PutRegion,
   /repo 9338658) and the third one is rejected *)
Definition term_gap_region (term stamp : Z) : region :=
  Region 1 (K [97]) (K [99]) [Peer 11 1 false; Peer 12 2 false] 11 [] 10 1 1 term stamp.

Example term_gap_behaves :
  let h1 := exec hl_step (h_init false) [LBegin 1 (term_gap_region 5 1); LStep 1; LStep 1] in
  let h2 := exec hl_step h1 [LBegin 1 (term_gap_region 0 2); LStep 1; LStep 1] in
  option_map r_term (get_region (h_cache h2) 1) = Some 5 /\
  snd (begin h2 1 (term_gap_region 3 3)) = HErr.
Proof. vm_compute. auto. Qed.

Lemma flags_no_change_term r o : idle (compute_flags r (Some o)) = true -> r_term r <= r_term o.
Proof.
  unfold idle. cbn. intros H. apply andb_true_iff in H as [H _]. apply andb_true_iff in H as [_ H]. apply negb_true_iff in H.
  repeat (apply orb_false_iff in H as [H ?]). apply Z.ltb_ge. assumption.
Qed.

Theorem acknowledged_term_begin_pf h t r h' : begin h t r = (h', HOk) ->
  exists x, get_region (h_cache h') (r_id r) = Some x /\ r_term r <= r_term x.
Proof.
  intros H. destruct (th_get (h_threads h) t) as [p|] eqn:TG; [rewrite (begin_busy _ _ _ _ TG) in H; discriminate|].
  apply (begin_hstep _ _ _ _ _ TG) in H. inv H.
  destruct (get_region (h_cache h') (r_id r)) as [o|]; [|discriminate]. exists o. split; [reflexivity|].
  apply flags_no_change_term. assumption.
Qed.

Theorem acknowledged_term_step_pf h t r fl h' res : HInv h -> th_get (h_threads h) t = Some (PLock r fl) ->
  0 < r_term r -> step h t = (h', res) -> res <> HErr ->
  exists x, get_region (h_cache h') (r_id r) = Some x /\ r_term r <= r_term x.
Proof.
  intros [I TW] TG TP ST NE. destruct (TW _ _ _ (th_get_in _ _ _ TG)) as [W0 FC]. destruct (hb_ok_parts _ W0) as [W _].
  apply (step_hstep _ _ _ _ _ TG) in ST. inversion ST; subst; try congruence. assert (r0 = r) by congruence. subst r0.
  exists (keep_term (h_cache h) r). cbn [h_cache]. rewrite get_put, Z.eqb_refl by assumption. split; [reflexivity|].
  unfold keep_term. destruct (Z.eqb_spec (r_term r) 0); [lia|reflexivity].
Qed.

Definition epochs_monotone_across_displacement : Prop :=
  forall wb ls1 ls2 id x x',
    let h1 := exec hl_step (h_init wb) ls1 in
    get_region (h_cache h1) id = Some x -> get_region (h_cache (exec hl_step h1 ls2)) id = Some x' ->
    r_ver x <= r_ver x' /\ r_term x <= r_term x'.

Definition gap_peers (id : Z) : list peer := [Peer (id * 10 + 1) 1 false; Peer (id * 10 + 2) 2 false; Peer (id * 10 + 3) 3 false].
Definition gap_region (id : Z) (s e : list Z) (leader ver term stamp : Z) : region :=
  Region id (K s) (K e) (gap_peers id) leader [] 10 ver 1 term stamp.
Definition gap_hb (r : region) : list hlabel := [LBegin 1 r; LStep 1; LStep 1; LStep 1; LStep 1].

Definition gap_prefix : list hlabel :=
  gap_hb (gap_region 1 [] [99] 11 2 6 1) ++ gap_hb (gap_region 2 [99] [] 21 2 6 2) ++     (* 1 = ["","c") v2 t6, 2 = ["c","") *)
  gap_hb (gap_region 1 [] [] 12 3 7 3) ++                                                   (* leader moves, 2 merged into 1 *)
  gap_hb (gap_region 1 [109] [] 12 4 7 4).                                                  (* 1 splits at "m", keeps ["m","") v4 *)
Definition gap_suffix : list hlabel :=
  gap_hb (gap_region 4 [109] [116] 41 5 7 5) ++                                             (* child ["m","t") v5 reports first: displaces 1 *)
  gap_hb (gap_region 1 [] [99] 11 2 6 6).                                                   (* the delayed heartbeat of step 1 *)

