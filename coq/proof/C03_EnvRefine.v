(* C03 -> C01: every run of the election model is a run of the leadership environment the timestamp
   model assumes (model/C03_Env.v), with  owner := the member named by the stored record  and
   valid m := Member.IsLeader() of m (lease not expired locally and cached "leader = me").
   The only fact about the election model that is needed is its inductive invariant (leader_owns_key):
   that is exactly hypothesis E2 of DESIGN.md section 3. *)
From Coq Require Import NArith Lia Bool Arith.
From PDV Require Import lib.Base model.C03_Leader model.C03_Env proof.C03_LeaderProof.

Definition env_of (s : state) : env := Env (key_value s) (fun m => is_leader s m).

Definition label_members (l : label) : list nat :=
  match l with
  | LTick _ | LExpire _ | LEnvPut _ _ => []
  | LGrantStart m _ | LGrantDone m _ | LCampaignTxn m _ _ | LKeepStart m | LKeepDone m | LReset m _
  | LObserve m | LDeleteKey m _ _ | LWrite m _ _ _ | LCrash m | LServe m => [m]
  end.

Definition touched (ls : list label) : list nat := flat_map label_members ls.

Definition memb (m : nat) (l : list nat) : bool := existsb (Nat.eqb m) l.

Lemma memb_in m l : memb m l = true <-> In m l.
Proof.
  unfold memb. rewrite existsb_exists. split.
  - intros (x & Hx & E). apply Nat.eqb_eq in E. subst. exact Hx.
  - intros H. exists m. split; [exact H | apply Nat.eqb_refl].
Qed.

Lemma upd_other {A} (f : nat -> A) i x j : j <> i -> upd f i x j = f j.
Proof. intros H. unfold upd. destruct (Nat.eqb j i) eqn:E; [apply Nat.eqb_eq in E; contradiction | reflexivity]. Qed.

Lemma mems_revoke s l : mems (revoke s l) = mems s.
Proof. reflexivity. Qed.

Lemma mems_do_close_other s m r j : j <> m -> mems (do_close s m r) j = mems s j.
Proof.
  intros H. unfold do_close.
  destruct (lease_id (lease (mems s m))); [destruct r|]; rewrite ?mems_revoke; cbn; apply upd_other; exact H.
Qed.

Lemma step_other s l s' j : step s l = Some s' -> ~ In j (label_members l) -> mems s' j = mems s j.
Proof.
  intros H N.
  assert (Hj : forall m, label_members l = [m] -> j <> m).
  { intros m E Hjm. apply N. rewrite E. left. symmetry. exact Hjm. }
  destruct l; cbn [step] in H; try specialize (Hj _ eq_refl).
  - inversion H; reflexivity.
  - destruct (lease (mems s m)); try discriminate; destruct (won (mems s m)); try discriminate;
      inversion H; cbn; apply upd_other; assumption.
  - destruct (lease (mems s m)); try discriminate. destruct (g_start (mems s m)) as [[st ttl]|]; try discriminate.
    destruct ok; inversion H; cbn; apply upd_other; assumption.
  - destruct (lease (mems s m)) as [| |id e|]; try discriminate.
    destruct (campaigning (mems s m)); try discriminate.
    destruct (match o with Ok => _ | _ => false end); inversion H.
    + cbn. apply upd_other; assumption.
    + rewrite mems_do_close_other by assumption. reflexivity.
  - destruct (lease (mems s m)); try discriminate. destruct (won (mems s m)); try discriminate.
    inversion H; cbn; apply upd_other; assumption.
  - destruct (lease (mems s m)) as [| |id e|]; try discriminate; [|inversion H; reflexivity].
    destruct (ka_start (mems s m)); try discriminate.
    destruct (leases s id) as [[e' ttl]|].
    + destruct (now s <=? e')%N; inversion H; cbn; apply upd_other; assumption.
    + inversion H; cbn; apply upd_other; assumption.
  - destruct (leases s l) as [[e t]|]; try discriminate.
    destruct (e <? now s)%N; inversion H. reflexivity.
  - destruct (lease (mems s m)); try discriminate; inversion H; apply mems_do_close_other; assumption.
  - destruct (won (mems s m)); try discriminate. inversion H; cbn; apply upd_other; assumption.
  - destruct (saw (mems s m)) as [kv|]; try discriminate.
    destruct (negb (won (mems s m))); try discriminate.
    destruct o; destruct (lease (mems s m));
      try (inversion H; cbn; apply upd_other; assumption);
      (destruct (pair_opt_eqb (key s) kv); inversion H;
       [rewrite mems_do_close_other by assumption|]; cbn; apply upd_other; assumption).
  - inversion H; reflexivity.
  - inversion H; reflexivity.
  - inversion H; cbn; apply upd_other; assumption.
  - destruct (is_leader s m); try discriminate. inversion H; reflexivity.
Qed.

Lemma untouched_mem0 ls j : ~ In j (touched ls) -> forall s, mems s j = mem0 -> mems (exec step s ls) j = mem0.
Proof.
  induction ls as [|l r IH]; intros N s H; cbn [exec]; [exact H|].
  cbn [touched flat_map] in N. rewrite in_app_iff in N.
  destruct (step s l) as [s'|] eqn:E.
  - apply IH; [tauto|]. rewrite (step_other _ _ _ _ E); [exact H | tauto].
  - apply IH; [tauto | exact H].
Qed.

Lemma untouched_not_leader ls j : ~ In j (touched ls) -> is_leader (exec step init ls) j = false.
Proof.
  intros N. unfold is_leader. rewrite (untouched_mem0 ls j N init eq_refl). reflexivity.
Qed.

Lemma eexec_app e l1 l2 : eexec e (l1 ++ l2) = match eexec e l1 with Some e1 => eexec e1 l2 | None => None end.
Proof.
  revert e; induction l1 as [|l r IH]; intros e; cbn [eexec app]; [reflexivity|].
  destruct (estep e l); [apply IH | reflexivity].
Qed.

Lemma eexec_offs l : forall e, exists e1, eexec e (map EValidOff l) = Some e1 /\ eowner e1 = eowner e /\
  forall m, evalid e1 m = evalid e m && negb (memb m l).
Proof.
  induction l as [|x r IH]; intros e; cbn [map eexec estep].
  - exists e. repeat split. intros m. cbn. rewrite andb_true_r. reflexivity.
  - destruct (IH (Env (eowner e) (eupd (evalid e) x false))) as (e1 & H1 & H2 & H3).
    exists e1. split; [exact H1|]. split; [exact H2|].
    intros m. rewrite H3. cbn [evalid memb existsb]. unfold eupd, memb.
    destruct (Nat.eqb m x); cbn; rewrite ?andb_false_r; reflexivity.
Qed.

Lemma eexec_ons l : forall e, (forall m, In m l -> eowner e = Some m) ->
  exists e1, eexec e (map EValidOn l) = Some e1 /\ eowner e1 = eowner e /\
  forall m, evalid e1 m = evalid e m || memb m l.
Proof.
  induction l as [|x r IH]; intros e Hall; cbn [map eexec estep].
  - exists e. repeat split. intros m. cbn. rewrite orb_false_r. reflexivity.
  - pose proof (Hall x (or_introl eq_refl)) as Ho. rewrite Ho, Nat.eqb_refl.
    destruct (IH (Env (Some x) (eupd (evalid e) x true))) as (e1 & H1 & H2 & H3);
      [intros m Hm; cbn; rewrite <- Ho; apply Hall; right; exact Hm |].
    exists e1. split; [exact H1|]. split; [rewrite H2; cbn; congruence|].
    intros m. rewrite H3. cbn [evalid memb existsb]. unfold eupd, memb.
    destruct (Nat.eqb m x); cbn; rewrite ?orb_true_r; reflexivity.
Qed.

Definition optnat_eq (a b : option nat) : bool :=
  match a, b with Some x, Some y => Nat.eqb x y | None, None => true | _, _ => false end.

Lemma optnat_eq_true a b : optnat_eq a b = true -> a = b.
Proof. destruct a, b; cbn; intros H; try discriminate; [apply Nat.eqb_eq in H; subst|]; reflexivity. Qed.

Definition offs (s s' : state) (ms : list nat) := filter (fun m => is_leader s m && negb (is_leader s' m)) ms.
Definition ons (s s' : state) (ms : list nat) := filter (fun m => negb (is_leader s m) && is_leader s' m) ms.

Definition changes (s s' : state) : list elabel :=
  if optnat_eq (key_value s) (key_value s') then []
  else (match key_value s with Some _ => [EOwnerGone] | None => [] end)
       ++ (match key_value s' with Some m => [EElect m; EValidOff m] | None => [] end).

(* who stopped believing; the record changes hands (a new owner starts as "not believing" and is switched on
   by the last block when it does); who (the owner only) believes again *)
Definition tr (s s' : state) (ms : list nat) : list elabel :=
  map EValidOff (offs s s' ms) ++ changes s s' ++ map EValidOn (ons s s' ms).

Lemma leader_is_owner s m : Inv s -> is_leader s m = true -> key_value s = Some m.
Proof.
  intros I H. destruct (leader_owns_key _ _ I H) as (id & e & et & _ & K & _).
  unfold key_value. rewrite K. reflexivity.
Qed.

Lemma memb_filter f m l : memb m (filter f l) = memb m l && f m.
Proof.
  unfold memb. induction l as [|x r IH]; cbn [filter existsb]; [reflexivity|].
  destruct (f x) eqn:Fx; cbn [existsb]; rewrite IH;
    destruct (Nat.eqb m x) eqn:E; cbn [orb andb]; try reflexivity;
    apply Nat.eqb_eq in E; subst; rewrite Fx; rewrite ?andb_false_r; reflexivity.
Qed.

Lemma tr_ok e s s' ms :
  Inv s -> Inv s' ->
  (forall m, memb m ms = false -> is_leader s m = false /\ is_leader s' m = false) ->
  env_eq e (env_of s) ->
  exists e', eexec e (tr s s' ms) = Some e' /\ env_eq e' (env_of s').
Proof.
  intros I I' Hun [Eo Ev]. cbn in Eo, Ev.
  pose proof (fun m => leader_is_owner s m I) as Own. pose proof (fun m => leader_is_owner s' m I') as Own'.
  assert (Foff : forall m, memb m (offs s s' ms) = is_leader s m && negb (is_leader s' m)).
  { intros m. unfold offs. rewrite memb_filter. destruct (memb m ms) eqn:Mm; [reflexivity|].
    destruct (Hun m Mm) as [-> _]. reflexivity. }
  assert (Fon : forall m, memb m (ons s s' ms) = negb (is_leader s m) && is_leader s' m).
  { intros m. unfold ons. rewrite memb_filter. destruct (memb m ms) eqn:Mm; [reflexivity|].
    destruct (Hun m Mm) as [_ ->]. cbn. symmetry. apply andb_false_r. }
  unfold tr. rewrite eexec_app.
  (* first block: exactly the members that lead before and after still believe *)
  destruct (eexec_offs (offs s s' ms) e) as (e1 & -> & O1 & V1). rewrite eexec_app.
  assert (V1' : forall m, evalid e1 m = is_leader s m && is_leader s' m).
  { intros m. rewrite V1, Ev, Foff. destruct (is_leader s m), (is_leader s' m); reflexivity. }
  (* second block: the record changes hands; who leads before and after owns it before and after, so neither the
     old nor the new owner of a record that changes believes at this point *)
  assert (exists e2, eexec e1 (changes s s') = Some e2 /\ eowner e2 = key_value s' /\
            forall m, evalid e2 m = evalid e1 m) as (e2 & -> & O2 & V2).
  { unfold changes. destruct (optnat_eq (key_value s) (key_value s')) eqn:Eq.
    - apply optnat_eq_true in Eq. exists e1. cbn. repeat split; congruence.
    - assert (Hne : key_value s <> key_value s').
      { intros Hk. rewrite Hk in Eq. destruct (key_value s'); cbn in Eq; [rewrite Nat.eqb_refl in Eq|]; discriminate. }
      assert (Hno : forall m, key_value s = Some m \/ key_value s' = Some m -> evalid e1 m = false).
      { intros m Hm. rewrite V1'. destruct (is_leader s m) eqn:L, (is_leader s' m) eqn:L'; try reflexivity.
        destruct Hne. rewrite (Own _ L), (Own' _ L'). reflexivity. }
      rewrite <- Eo, <- O1 in Hno, Hne |- *.
      destruct (eowner e1) as [mo|] eqn:Eo1, (key_value s') as [mn|]; cbn [app eexec estep]; rewrite ?Eo1.
      + rewrite (Hno mo) by auto. cbn [eowner]. eexists. split; [reflexivity|]. split; [reflexivity|].
        intros m. cbn. unfold eupd. destruct (Nat.eqb_spec m mn) as [->|]; [rewrite Hno; auto | reflexivity].
      + rewrite (Hno mo) by auto. eexists. repeat split.
      + eexists. split; [reflexivity|]. split; [reflexivity|].
        intros m. cbn. unfold eupd. destruct (Nat.eqb_spec m mn) as [->|]; [rewrite Hno; auto | reflexivity].
      + destruct Hne. reflexivity. }
  (* third block: only the owner of the record starts believing *)
  destruct (eexec_ons (ons s s' ms) e2) as (e3 & -> & O3 & V3).
  { intros m Hm. apply filter_In in Hm as [_ L]. apply andb_true_iff in L as [_ L]. rewrite O2. apply Own', L. }
  exists e3. split; [reflexivity|]. split; [cbn; congruence|].
  intros m. cbn. rewrite V3, V2, V1', Fon. destruct (is_leader s m), (is_leader s' m); reflexivity.
Qed.

Fixpoint trace_from (s : state) (ls : list label) (ms : list nat) : list elabel :=
  match ls with
  | [] => []
  | l :: r => match step s l with
              | Some s' => tr s s' ms ++ trace_from s' r ms
              | None => trace_from s r ms
              end
  end.

Definition env_trace (ls : list label) : list elabel := trace_from init ls (nodup Nat.eq_dec (touched ls)).

Lemma mem0_not_leader s m : mems s m = mem0 -> is_leader s m = false.
Proof. intros H. unfold is_leader. rewrite H. reflexivity. Qed.

Lemma trace_from_ok ms : forall ls s e,
  InvSaw s ->
  (forall m, memb m ms = false -> mems s m = mem0) ->
  (forall m, In m (touched ls) -> memb m ms = true) ->
  env_eq e (env_of s) ->
  exists e', eexec e (trace_from s ls ms) = Some e' /\ env_eq e' (env_of (exec step s ls)).
Proof.
  induction ls as [|l r IH]; intros s e I Hun Hin He; cbn [trace_from exec eexec].
  - exists e. split; [reflexivity | exact He].
  - cbn [touched flat_map] in Hin.
    assert (Hr : forall m, In m (touched r) -> memb m ms = true).
    { intros m Hm. apply Hin. apply in_app_iff. right. exact Hm. }
    destruct (step s l) as [s'|] eqn:E.
    + assert (I' : InvSaw s') by (eapply inv_step; eauto).
      assert (Hun' : forall m, memb m ms = false -> mems s' m = mem0).
      { intros m Mm. rewrite (step_other _ _ _ _ E); [apply Hun; exact Mm|].
        intros Hm. assert (memb m ms = true) by (apply Hin; apply in_app_iff; left; exact Hm). congruence. }
      destruct (tr_ok e s s' ms (proj1 I) (proj1 I')) as (e1 & X1 & H1); [|exact He|].
      { intros m Mm. split; apply mem0_not_leader; [apply Hun | apply Hun']; exact Mm. }
      destruct (IH s' e1 I' Hun' Hr H1) as (e2 & X2 & H2).
      exists e2. split; [|exact H2]. rewrite eexec_app, X1. exact X2.
    + apply IH; assumption.
Qed.

(* Every run of the election model, projected to (owner of the record, who believes to lead), is a run of the
   leadership environment: each label of env_trace is enabled when it is taken. *)
Theorem election_refines_environment ls :
  exists e, eexec env0 (env_trace ls) = Some e /\ env_eq e (env_of (exec step init ls)).
Proof.
  unfold env_trace. apply trace_from_ok.
  - split; [exact inv_init | exact sawown_init].
  - intros m _. reflexivity.
  - intros m Hm. apply memb_in. apply nodup_In. exact Hm.
  - split; [reflexivity | intros m; reflexivity].
Qed.

(* the environment's own invariant, read back on the election model: E2 *)
Corollary believing_member_owns_record ls m :
  is_leader (exec step init ls) m = true -> key_value (exec step init ls) = Some m.
Proof. apply leader_is_owner. apply inv_exec. Qed.
