(* C13 — the storage image of a served configuration (rule contents under their keys, the non-default
   groups), the writes of savePatch as writes on sorted maps, and: what an accepted update leaves in the
   storage is the image of what it serves. *)
From Coq Require Import Sorting.Sorted.
From PDV Require Import lib.Base lib.C12_Order lib.C13_Map gen.Gen_C13 model.C13_Rules proof.C13_RulesProof.
Local Open Scope list_scope.

Definition map_vals {K V W} (f : V -> W) (m : list (K * V)) : list (K * W) := map (fun kv => (fst kv, f (snd kv))) m.

Definition ksorted {V} (m : list (id * V)) : Prop := StronglySorted (fun a b => key_lt (fst a) (fst b)) m.

Definition nd (kg : id * group) : bool := negb (is_default (snd kg)).

Definition sv (r : rule) : sval := SVRule (set_group r None).

Lemma sv_set_group r g : sv (set_group r g) = sv r.
Proof. destruct r; reflexivity. Qed.

(* re-pointing rules at groups does not show in the storage image *)
Lemma map_vals_sv_regroup (G : (id * id) * rule -> option group) (m : rmap) :
  map_vals sv (map (fun kr => (fst kr, set_group (snd kr) (G kr))) m) = map_vals sv m.
Proof. unfold map_vals. rewrite map_map. apply map_ext. intros [k r]. cbn [fst snd]. apply f_equal, sv_set_group. Qed.

Lemma config_adjust_rules_sv c : map_vals sv (c_rules (config_adjust c)) = map_vals sv (c_rules c).
Proof. rewrite config_adjust_unfold. exact (map_vals_sv_regroup _ (c_rules c)). Qed.

Lemma config_adjust_groups_nd c : filter nd (c_groups (config_adjust c)) = filter nd (c_groups c).
Proof.
  rewrite config_adjust_unfold. cbn [c_groups]. unfold nd. rewrite filter_non_default_fold_add_default. apply filter_twice.
Qed.

Lemma map_vals_sv (m : rmap) : map_vals sv m = map_vals SVRule (strip_rules m).
Proof. unfold map_vals, strip_rules. rewrite map_map. reflexivity. Qed.

Lemma patch_adjust_mirror c p :
  map_vals sv (c_rules (fst (patch_adjust c p))) = map_vals sv (c_rules c) /\
  c_groups (fst (patch_adjust c p)) = c_groups c.
Proof. destruct (patch_adjust_keeps c p) as [K1 K2]. rewrite !map_vals_sv, K2. auto. Qed.

Definition rule_writes (L : list ((id * id) * option rule)) : list ((id * id) * option sval) :=
  map (fun kr => (fst kr, option_map sv (snd kr))) L.
Definition group_writes (L : gmap) : list (id * option group) :=
  map (fun kg => (fst kg, if is_default (snd kg) then None else Some (snd kg))) L.

Lemma apply_rule_write_spec kr s :
  apply_rule_write kr s = Storage (awrite pair_cmp (s_rules s) (fst kr, option_map sv (snd kr))) (s_groups s).
Proof. unfold apply_rule_write, awrite. destruct kr as [k [r|]]; reflexivity. Qed.
Lemma apply_group_write_spec kg s :
  apply_group_write kg s = Storage (s_rules s) (awrite key_cmp (s_groups s) (fst kg, if is_default (snd kg) then None else Some (snd kg))).
Proof. unfold apply_group_write, awrite. destruct kg as [k g]. cbn [fst snd]. destruct (is_default g); reflexivity. Qed.

Lemma fold_rule_writes L : forall s,
  fold_left (fun s kr => apply_rule_write kr s) L s =
  Storage (fold_left (awrite pair_cmp) (rule_writes L) (s_rules s)) (s_groups s).
Proof.
  induction L as [|kr L IH]; intros s; cbn [fold_left rule_writes map]; [destruct s; reflexivity|].
  rewrite IH, apply_rule_write_spec. reflexivity.
Qed.
Lemma fold_group_writes L : forall s,
  fold_left (fun s kg => apply_group_write kg s) L s =
  Storage (s_rules s) (fold_left (awrite key_cmp) (group_writes L) (s_groups s)).
Proof.
  induction L as [|kg L IH]; intros s; cbn [fold_left group_writes map]; [destruct s; reflexivity|].
  rewrite IH, apply_group_write_spec. reflexivity.
Qed.

Lemma save_all_spec p s :
  save_all p s = Storage (fold_left (awrite pair_cmp) (rule_writes (m_rules p)) (s_rules s))
                         (fold_left (awrite key_cmp) (group_writes (m_groups p)) (s_groups s)).
Proof. unfold save_all. rewrite fold_group_writes, fold_rule_writes. reflexivity. Qed.

Lemma filter_nd_fold_mset L : forall G : gmap, asorted key_cmp G ->
  filter nd (fold_left (fun m (kg : id * group) => mset key_cmp (fst kg) (snd kg) m) L G) =
  fold_left (awrite key_cmp) (group_writes L) (filter nd G).
Proof.
  induction L as [|[k g] L IH]; intros G S; [reflexivity|]. cbn [fold_left group_writes map fst snd].
  rewrite IH by (apply (aset_sorted key_cmp good_key key_cmp_eq); exact S).
  rewrite (filter_aset key_cmp good_key key_cmp_eq) by exact S. unfold awrite, nd. cbn [fst snd].
  destruct (is_default g); reflexivity.
Qed.

Record mirrors (c : config) (s : storage) : Prop := {
  mi_rules : s_rules s = map_vals sv (c_rules c);
  mi_groups : s_groups s = filter nd (c_groups c)
}.

Theorem accepted_update_mirrors m s p order f m' s' ok :
  asorted key_cmp (c_groups (m_conf m)) -> mirrors (m_conf m) s ->
  try_commit m s p order f = (m', s', None, ok) ->
  mirrors (m_conf m') s'.
Proof.
  intros Sg [M1 M2] H. destruct (try_commit_committed _ _ _ _ _ _ _ _ H) as (c1 & p1 & rl & Ea & _ & -> & ->).
  destruct (patch_adjust_mirror (m_conf m) p) as [A1 A2]. rewrite Ea in A1, A2. cbn [fst] in A1, A2.
  unfold patch_commit. cbn [m_conf]. rewrite save_all_spec.
  constructor; cbn [s_rules s_groups].
  - rewrite config_adjust_rules_sv. cbn [c_rules]. unfold map_vals at 1.
    rewrite (map_fold_awrite pair_cmp sv). fold (map_vals sv (c_rules c1)). rewrite A1, <- M1. reflexivity.
  - rewrite config_adjust_groups_nd. cbn [c_groups]. rewrite filter_nd_fold_mset by (rewrite A2; exact Sg).
    rewrite A2, <- M2. reflexivity.
Qed.

Lemma initialize_empty_mirrors mr m s' :
  initialize (Storage [] []) mr = (inl m, s') -> mirrors (m_conf m) s'.
Proof.
  unfold initialize, load_repairs. cbn [load_rules s_rules fold_left filter la_rules la_save la_delete s_groups].
  destruct (build_rule_list _) as [e|rl] eqn:B; intros H; inversion H; subst. constructor; reflexivity.
Qed.

(* the histories that start PD on an empty storage and then only issue updates without storage faults *)
Definition fault_free_update (o : op) : bool :=
  match o with OUpdate _ None _ | ORetry _ _ => true | _ => false end.
