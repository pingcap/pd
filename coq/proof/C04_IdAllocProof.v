From PDV Require Import lib.Base gen.Gen_C04 model.C04_IdAlloc.
Local Open Scope Z_scope.

(* C04 — the invariant of model/C04_IdAlloc.v: the ranges (base, endv] of the instances are pairwise disjoint, below the
   stored bound and free of issued ids.  One lemma, inv_window, covers every label of an existing instance. *)

(* side condition on the constant the translator regenerates from server/id/id.go *)
Lemma step_pos : 0 < step_sz.
Proof. reflexivity. Qed.

Fixpoint decr_per_inst (l : list issue) : Prop :=
  match l with
  | [] => True
  | u :: r => (forall v, In v r -> by_inst v = by_inst u -> id_of v < id_of u) /\ decr_per_inst r
  end.

Definition window_of (s : state) (i : nat) : option (Z * Z) :=
  match insts s i with Some x => Some (base x, endv x) | None => None end.

(* The ids an instance may still hand out are (base, endv]: these ranges are pairwise disjoint, below the stored
   bound, and contain no issued id. *)
Record Inv (s : state) : Prop := {
  inv_base   : forall i x, insts s i = Some x -> 0 <= base x <= endv x /\ endv x <= stored s;
  inv_disj   : forall i j x y, i <> j -> insts s i = Some x -> insts s j = Some y ->
                 endv x <= base y \/ endv y <= base x;
  inv_issued : forall u, In u (issued s) -> forall i x, insts s i = Some x ->
                 id_of u <= base x \/ endv x < id_of u;
  inv_own    : forall u, In u (issued s) -> forall x, insts s (by_inst u) = Some x -> id_of u <= base x;
  inv_nodup  : NoDup (map id_of (issued s));
  inv_le     : forall u, In u (issued s) -> id_of u <= stored_then u /\ id_of u <= stored s /\ 0 < id_of u;
  inv_sorted : decr_per_inst (issued s);
  inv_issuer : forall u, In u (issued s) -> (by_inst u < nexti s)%nat;
  inv_fresh  : forall i, (nexti s <= i)%nat -> insts s i = None;
  inv_stored_nonneg   : 0 <= stored s
}.

Lemma inv_init : Inv init.
Proof.
  constructor; unfold stored; cbn; intros; try discriminate; try contradiction; try constructor; try lia; auto.
Qed.

Lemma sel_cases {A} (f : nat -> option A) i x j y :
  (if Nat.eqb j i then Some x else f j) = Some y -> j = i /\ y = x \/ j <> i /\ f j = Some y.
Proof. destruct (Nat.eqb_spec j i); [left; split; congruence | right; auto]. Qed.

(* stored s = bound (alloc_id s) *)
Definition bound (a : option Z) : Z := match a with Some e => e | None => 0 end.

(* Instance i is replaced by x, whose range (base x, endv x] lies inside a range (L, U] that nobody else can own: the
   old range of i, or the gap between the old and the new stored bound.  An id that is issued is base x, taken from
   (L, U]. *)
Lemma inv_window s i x0 x L U a ld is :
  Inv s -> insts s i = Some x0 -> stored s <= bound a ->
  (L = base x0 /\ U = endv x0) \/ (L = stored s /\ U = bound a) ->
  L <= base x <= endv x /\ endv x <= U ->
  is = issued s \/ (exists T, is = Issue i (base x) T :: issued s /\ L < base x <= T) ->
  Inv (State a ld (fun j => if Nat.eqb j i then Some x else insts s j) (nexti s) is).
Proof.
  intros [Ib Id Ii Io In_ Il Is Ir If Ia] E0 Hst HLU Hbe Hiss.
  destruct (Ib _ _ E0) as [Hb0 He0].
  assert (Hi : (i < nexti s)%nat).
  { destruct (Nat.lt_ge_cases i (nexti s)) as [|Hge]; [assumption|]. rewrite (If _ Hge) in E0. discriminate. }
  assert (F1 : forall u, In u (issued s) -> id_of u <= L \/ U < id_of u).
  { intros u Hu. destruct HLU as [[-> ->]|[-> ->]]; [exact (Ii _ Hu _ _ E0) | left; apply (Il _ Hu)]. }
  assert (F2 : forall j y, j <> i -> insts s j = Some y -> U <= base y \/ endv y <= L).
  { intros j y Hj Ej. destruct HLU as [[-> ->]|[-> ->]];
      [exact (Id _ _ _ _ (not_eq_sym Hj) E0 Ej) | right; apply (Ib _ _ Ej)]. }
  assert (F3 : base x0 <= L /\ U <= bound a) by (destruct HLU as [[-> ->]|[-> ->]]; lia).
  pose proof (sel_cases (insts s) i x) as Hsel.
  assert (Hold : forall u, In u (issued s) -> forall j y, (if Nat.eqb j i then Some x else insts s j) = Some y ->
            (id_of u <= base y \/ endv y < id_of u) /\ (by_inst u = j -> id_of u <= base y)).
  { intros u Hu j y Ej. destruct (Hsel _ _ Ej) as [[-> ->]|[Hj Ej']].
    - split; [destruct (F1 _ Hu); lia|]. intros Hby. rewrite <- Hby in E0. specialize (Io _ Hu _ E0). lia.
    - split; [exact (Ii _ Hu _ _ Ej') | intros <-; exact (Io _ Hu _ Ej')]. }
  assert (Hnew : forall u, In u is -> In u (issued s) \/ (exists T, u = Issue i (base x) T /\ L < base x <= T)).
  { intros u Hu. destruct Hiss as [->|(T & -> & HT)]; [left; exact Hu|].
    destruct Hu as [<-|Hu]; [right; exists T; auto | left; exact Hu]. }
  constructor; unfold stored; cbn; fold (bound a).
  - intros j y Ej. destruct (Hsel _ _ Ej) as [[-> ->]|[Hj Ej']]; [lia | specialize (Ib _ _ Ej'); lia].
  - intros j1 j2 y1 y2 Hne E1 E2.
    destruct (Hsel _ _ E1) as [[-> ->]|[H1 E1']], (Hsel _ _ E2) as [[-> ->]|[H2 E2']].
    + contradiction.
    + destruct (F2 _ _ H2 E2'); lia.
    + destruct (F2 _ _ H1 E1'); lia.
    + exact (Id _ _ _ _ Hne E1' E2').
  - intros u Hu j y Ej. destruct (Hnew _ Hu) as [Ho|(T & -> & HT)]; [apply (Hold _ Ho _ _ Ej)|]. cbn.
    destruct (Hsel _ _ Ej) as [[-> ->]|[Hj Ej']]; [lia | destruct (F2 _ _ Hj Ej'); lia].
  - intros u Hu y Ej. destruct (Hnew _ Hu) as [Ho|(T & -> & HT)]; [apply (Hold _ Ho _ _ Ej); reflexivity|].
    cbn in *. destruct (Hsel _ _ Ej) as [[_ ->]|[Hj _]]; [lia | contradiction].
  - destruct Hiss as [->|(T & -> & HT)]; [assumption|]. cbn. constructor; [|assumption].
    intros Hin. apply in_map_iff in Hin as (u & Hu & Hin). destruct (F1 _ Hin); lia.
  - intros u Hu. destruct (Hnew _ Hu) as [Ho|(T & -> & HT)]; [specialize (Il _ Ho); lia | cbn; lia].
  - destruct Hiss as [->|(T & -> & HT)]; [assumption|]. split; [|assumption]. cbn. intros v Hv Hby.
    rewrite <- Hby in E0. specialize (Io _ Hv _ E0). lia.
  - intros u Hu. destruct (Hnew _ Hu) as [Ho|(T & -> & HT)]; [auto | exact Hi].
  - intros j Hj. destruct (Nat.eqb_spec j i); [lia | auto].
  - lia.
Qed.

(* the range of i is kept, nothing is issued, the stored bound does not go down *)
Lemma inv_window_same s i x m p a ld :
  Inv s -> insts s i = Some x -> stored s <= bound a ->
  Inv (State a ld (fun j => if Nat.eqb j i then Some (Inst m (base x) (endv x) p) else insts s j) (nexti s) (issued s)).
Proof.
  intros I E H. pose proof (inv_base _ I _ _ E). apply (inv_window s i x _ (base x) (endv x)); cbn; auto; lia.
Qed.

(* a new instance starts with the empty range (0, 0] *)
Lemma inv_new s m :
  Inv s ->
  Inv (State (alloc_id s) (leader s) (fun j => if Nat.eqb j (nexti s) then Some (Inst m 0 0 None) else insts s j)
             (S (nexti s)) (issued s)).
Proof.
  intros [Ib Id Ii Io In_ Il Is Ir If Ia].
  pose proof (sel_cases (insts s) (nexti s) (Inst m 0 0 None)) as Hsel.
  constructor; unfold stored in *; cbn; auto.
  - intros j y Ej. destruct (Hsel _ _ Ej) as [[_ ->]|[_ Ej']]; [cbn; lia | eauto].
  - intros j1 j2 y1 y2 Hne E1 E2.
    destruct (Hsel _ _ E1) as [[-> ->]|[H1 E1']], (Hsel _ _ E2) as [[-> ->]|[H2 E2']]; cbn.
    + contradiction.
    + left. apply (Ib _ _ E2').
    + right. apply (Ib _ _ E1').
    + exact (Id _ _ _ _ Hne E1' E2').
  - intros u Hu j y Ej. destruct (Hsel _ _ Ej) as [[_ ->]|[_ Ej']]; [right; apply (Il _ Hu) | eauto].
  - intros u Hu y Ej. destruct (Hsel _ _ Ej) as [[Hj _]|[_ Ej']]; [specialize (Ir _ Hu); lia | eauto].
  - intros u Hu. specialize (Ir _ Hu). lia.
  - intros j Hj. destruct (Nat.eqb_spec j (nexti s)); [lia | apply If; lia].
Qed.

Lemma optZ_eqb_eq a b : optZ_eqb a b = true -> a = b.
Proof.
  destruct a, b; cbn; try discriminate; auto. intros H; apply Z.eqb_eq in H; congruence.
Qed.

Lemma cmp_ok_true s x snap : cmp_ok s x snap = true -> alloc_id s = snap /\ leader s = Some (mem x).
Proof. unfold cmp_ok. intros H. apply andb_true_iff in H as [H1 H2]. split; apply optZ_eqb_eq; assumption. Qed.

Lemma txn_lost s i o s' x snap k :
  step s (LTxn i o) = Some s' -> insts s i = Some x -> pending x = Some (snap, k) -> cmp_ok s x snap = false ->
  s' = State (alloc_id s) (leader s)
             (fun j => if Nat.eqb j i then Some (Inst (mem x) (base x) (endv x) None) else insts s j)
             (nexti s) (issued s).
Proof.
  intros H Ex Ep Ec. cbn in H. rewrite Ex, Ep, Ec in H. destruct o; cbn in H; inv H; reflexivity.
Qed.

Theorem inv_step s l s' : Inv s -> step s l = Some s' -> Inv s'.
Proof.
  intros I H. pose proof step_pos as Hpos. pose proof (inv_stored_nonneg _ I) as H0.
  destruct l; cbn in H.
  - (* the next id of the range *)
    destruct (insts s i) as [x|] eqn:Ex; [|discriminate]. destruct (pending x); [discriminate|].
    destruct (base x =? endv x) eqn:Eb; [discriminate|]. apply Z.eqb_neq in Eb. inv H.
    pose proof (inv_base _ I _ _ Ex).
    apply (inv_window s i x _ (base x) (endv x)); unfold bound, stored in *; cbn; auto; try lia.
    right. eexists. split; [reflexivity | lia].
  - destruct (insts s i) as [x|] eqn:Ex; [|discriminate]. destruct (pending x); [discriminate|].
    assert (s' = set_inst s i (Inst (mem x) (base x) (endv x) (Some (alloc_id s, k)))) as ->
      by (destruct k; [destruct (base x =? endv x)|]; inv H; reflexivity).
    apply (inv_window_same s i x); auto; apply Z.le_refl.
  - destruct (insts s i) as [x|] eqn:Ex; [|discriminate].
    destruct (pending x) as [[snap k]|] eqn:Ep; [|discriminate].
    pose proof (inv_base _ I _ _ Ex).
    destruct (cmp_ok s x snap) eqn:Ec.
    + (* the comparisons hold: the snapshot is the stored value *)
      apply cmp_ok_true in Ec as [<- _]. fold (stored s) in H.
      destruct o; cbn in H.
      * (* acknowledged: the range (stored, stored + step] is adopted; Alloc issues its first id *)
        destruct k; inv H; apply (inv_window s i x _ (stored s) (stored s + step_sz));
          unfold bound, stored in *; cbn; auto; try lia.
        right. eexists. split; [reflexivity | lia].
      * inv H. apply (inv_window_same s i x); auto; apply Z.le_refl.
      * (* applied, not acknowledged: the store moved, the instance did not *)
        inv H. apply (inv_window_same s i x); auto. unfold bound, stored in *. lia.
    + assert (Hs : step s (LTxn i o) = Some s') by (cbn; rewrite Ex, Ep, Ec; exact H).
      rewrite (txn_lost _ _ _ _ _ _ _ Hs Ex Ep Ec).
      apply (inv_window_same s i x); auto; apply Z.le_refl.
  - inv H. apply inv_new, I.
  - inv H. destruct I; constructor; auto.
Qed.

Theorem inv_exec ls : Inv (exec step init ls).
Proof. apply invariant_exec; [exact inv_step | exact inv_init]. Qed.

Lemma alloc_id_step s l s' :
  step s l = Some s' -> alloc_id s' = alloc_id s \/ alloc_id s' = Some (stored s + step_sz).
Proof.
  destruct l; cbn; intros H.
  - destruct (insts s i) as [x|]; [|discriminate]. destruct (pending x); [discriminate|].
    destruct (base x =? endv x); inv H; auto.
  - destruct (insts s i) as [x|]; [|discriminate]. destruct (pending x); [discriminate|].
    destruct k; [destruct (base x =? endv x)|]; inv H; auto.
  - destruct (insts s i) as [x|]; [|discriminate]. destruct (pending x) as [[snap k]|]; [|discriminate].
    destruct (cmp_ok s x snap) eqn:Ec; [apply cmp_ok_true in Ec as [<- _]|]; destruct o, k; inv H; auto.
  - inv H; auto.
  - inv H; auto.
Qed.
