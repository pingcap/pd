(* C09 — step accounting: a step that is neither finished nor unsafe in a region counts nothing in
   ConfVerChanged.  True for every step kind of step.go provided ChangePeerV2Leave.ConfVerChanged looks the
   demoted peer up by its store (gen/Gen_C08.leave_cvc_lookup_arg = "each#v(cpl.DemoteVoters).ToStore"; the lemma
   leave_lookup_is_store below fails if the source passes the peer id), for regions with one peer
   per store and non-zero peer ids, steps naming non-zero peer ids, with one exception that is part of
   the statement: a RemovePeer whose store holds a peer with ANOTHER id counts 1. *)
From PDV Require Import lib.Base model.C08_Steps model.C09_OpCtl proof.C08_ListFacts proof.C08_StepSpec.
Local Open Scope string_scope.
Local Open Scope list_scope.
Local Open Scope Z_scope.

Lemma leave_lookup_is_store d : leave_lookup_key d = fst d.
Proof. reflexivity. Qed.

Definition region_ids_nonzero (r : region) : bool := forallb (fun p => negb (pid p =? 0)) (peers r).

(* RemovePeer{store, id} while the store holds a peer with another id *)
Definition remove_names_other_peer (r : region) (s : step) : bool :=
  match s with
  | RemovePeer st id => negb (id =? 0) && negb (oid (get_store_peer r st) =? id)
  | _ => false
  end.

Lemma region_pid_nonzero r st p : region_ids_nonzero r = true -> get_store_peer r st = Some p -> pid p <> 0.
Proof.
  unfold region_ids_nonzero, get_store_peer. intros H E. apply find_some in E as [E _].
  rewrite forallb_forall in H. specialize (H p E). apply negb_true_iff, Z.eqb_neq in H. exact H.
Qed.

Lemma joint_verdict_all_in r n dl : joint_verdict r n (true, false, dl) = None -> count_joint r = Z.of_nat n.
Proof.
  unfold joint_verdict. cbn [andb]. destruct (count_joint r =? Z.of_nat n) eqn:E; [intros _; apply Z.eqb_eq; exact E|discriminate].
Qed.

Lemma b2z_le b : 0 <= b2z b <= 1.
Proof. destruct b; cbn; lia. Qed.

Lemma cvc_le_nominal r s : 0 <= conf_ver_changed r s <= nominal s.
Proof.
  destruct s; cbn [conf_ver_changed nominal]; try lia; try apply b2z_le.
  - match goal with |- context [if ?c then _ else _] => destruct c end; lia.
  - match goal with |- context [if ?c then _ else _] => destruct c end; lia.
Qed.

(* GetId() of a nil peer is 0: for a non-zero id, "the peer found has this id" needs no nil case *)
Lemma oid_eqb_some (o : option peer) id : id <> 0 -> (oid o =? id) = match o with Some p => pid p =? id | None => false end.
Proof. intros H. destruct o; cbn [oid]; [reflexivity|]. apply Z.eqb_neq. auto. Qed.

Section Count.
  Variable r : region.
  Hypothesis Hnd : ND (peers r).
  Hypothesis Hids : region_ids_nonzero r = true.

  (* What CheckSafety establishes of an entry x = (store, id) of a joint step: a peer with that id sits on the store, in
     one of two roles.  That peer decides the three lookups every test of the count and of IsFinish on x goes through. *)
  Lemma entry_peer x ok : entry_is r ok x = true ->
    exists p, pid p = snd x /\ ok (prole p) = true /\ get_store_peer r (fst x) = Some p
              /\ get_store_voter r (fst x) = (if is_learner p then None else Some p)
              /\ get_store_learner r (fst x) = (if is_learner p then Some p else None).
  Proof.
    unfold entry_is. rewrite (get_store_voter_lk r _ Hnd), (get_store_learner_lk r _ Hnd), get_store_peer_lk.
    destruct (lk (peers r) (fst x)) as [p|]; [|discriminate]. intros H. apply andb_true_iff in H as [H1 H2].
    apply Z.eqb_eq in H1. exists p. auto.
  Qed.

  Lemma enter_counted_finished pl dv :
    pair_ids_nonzero pl = true -> pair_ids_nonzero dv = true ->
    check_safety r (ChangePeerV2Enter pl dv) = None ->
    conf_ver_changed r (ChangePeerV2Enter pl dv) <> 0 -> is_finish r (ChangePeerV2Enter pl dv) = true.
  Proof.
    intros Hpl Hdv Hs Hc.
    assert (Hz : step_ids_nonzero (ChangePeerV2Enter pl dv) = true) by (cbn; rewrite Hpl, Hdv; reflexivity).
    pose proof (check_safety_sound r _ Hnd Hz Hs) as Sp. cbn [spec_safe] in Sp.
    apply andb_true_iff in Sp as [Sp _]. apply andb_true_iff in Sp as [S1 S2]. rewrite forallb_forall in S1, S2.
    cbn [conf_ver_changed] in Hc. cbn [is_finish].
    match type of Hc with context [if ?c then _ else _] => destruct c eqn:Ec end; [|congruence].
    apply andb_true_iff in Ec as [Ea Eb]. rewrite forallb_forall in Ea, Eb.
    apply andb_true_iff. split; apply forallb_forall; intros x Hx.
    - (* promoted: a learner has no voter lookup and the id is not 0, so the peer is the incoming voter *)
      destruct (entry_peer x _ (S1 x Hx)) as ([ps pi pr] & Hid & Hok & _ & Ev & _). specialize (Ea x Hx). cbn zeta in *.
      cbn [pid] in Hid. subst pi. rewrite Ev in *. unfold is_learner in *.
      destruct pr; cbn in *; rewrite ?andb_false_r in *; try discriminate; exact Ea.
    - (* demoted: a voter would fail the count's test, so the peer is the demoting voter *)
      destruct (entry_peer x _ (S2 x Hx)) as ([ps pi pr] & Hid & Hok & _ & Ev & _). specialize (Eb x Hx). cbn zeta in *.
      cbn [pid] in Hid. subst pi. rewrite Ev in *. unfold is_learner in *.
      destruct pr; cbn in *; rewrite ?Z.eqb_refl, ?orb_true_r in *; try discriminate; reflexivity.
  Qed.

  Lemma leave_counted_finished pl dv :
    pair_ids_nonzero pl = true -> pair_ids_nonzero dv = true ->
    check_safety r (ChangePeerV2Leave pl dv) = None ->
    conf_ver_changed r (ChangePeerV2Leave pl dv) <> 0 -> is_finish r (ChangePeerV2Leave pl dv) = true.
  Proof.
    intros Hpl Hdv Hs Hc.
    assert (Hz : step_ids_nonzero (ChangePeerV2Leave pl dv) = true) by (cbn; rewrite Hpl, Hdv; reflexivity).
    pose proof (check_safety_sound r _ Hnd Hz Hs) as Sp. cbn [spec_safe] in Sp.
    apply andb_true_iff in Sp as [Sp S3]. apply andb_true_iff in Sp as [S1 S2]. rewrite forallb_forall in S1, S2.
    cbn [conf_ver_changed] in Hc. cbn [is_finish].
    match type of Hc with context [if ?c then _ else _] => destruct c eqn:Ec end; [|congruence].
    apply andb_true_iff in Ec as [Ea Eb]. rewrite Ea. rewrite forallb_forall in Ea, Eb.
    assert (F2 : forall x, In x dv -> dv_finished r x = true).
    { intros x Hx. pose proof (pairs_nonzero dv x Hdv Hx) as Nz.
      destruct (entry_peer x _ (S2 x Hx)) as ([ps pi pr] & Hid & Hok & Ep & _ & El). specialize (Eb x Hx).
      rewrite leave_lookup_is_store in Eb. unfold dv_finished, dv_changed in *. cbn [pid] in Hid. subst pi.
      rewrite Ep, El in *. unfold is_learner in *. destruct pr; cbn in *; rewrite ?Z.eqb_refl in *; try discriminate; try reflexivity.
      (* a demoting voter is not counted: its learner lookup is nil, and the id is not 0 *)
      destruct (snd x); [congruence|discriminate Eb..]. }
    rewrite (proj2 (forallb_forall _ _) F2). cbn [andb]. apply negb_true_iff.
    (* the entries are voters and learners, so of CheckSafety's three cases only "no joint state" is left *)
    apply orb_true_iff in S3 as [S3|S3]; [apply orb_true_iff in S3 as [S3|S3]|].
    - destruct pl, dv; try discriminate S3. cbn in Hc. congruence.
    - apply andb_true_iff in S3 as [_ S3]. apply Z.eqb_eq in S3. apply count_joint_zero, S3.
    - exfalso. apply andb_true_iff in S3 as [S3 _]. apply andb_true_iff in S3 as [S3 _]. apply andb_true_iff in S3 as [I3 D3].
      rewrite forallb_forall in I3, D3. destruct pl as [|x pl']; [destruct dv as [|x dv']; [cbn in Hc; congruence|]|].
      + (* a demoting voter is no finished demotion *)
        destruct (entry_peer x _ (D3 x (or_introl eq_refl))) as ([ps pi pr] & _ & Hok & _ & _ & El).
        specialize (F2 x (or_introl eq_refl)). unfold dv_finished in F2. rewrite El in F2.
        unfold is_learner in *. destruct pr; cbn in *; discriminate.
      + (* an incoming voter is not counted as promoted *)
        destruct (entry_peer x _ (I3 x (or_introl eq_refl))) as ([ps pi pr] & _ & Hok & _ & Ev & _).
        specialize (Ea x (or_introl eq_refl)). cbn zeta in Ea. rewrite Ev in Ea.
        unfold is_learner in *. destruct pr; cbn in *; rewrite ?andb_false_r in *; discriminate.
  Qed.

  (* a learner add (light or not): a peer that is there is, by CheckSafety, this learner *)
  Lemma add_learner_unfinished st id :
    id <> 0 -> is_finish r (AddLearner st id) = false -> check_safety r (AddLearner st id) = None ->
    conf_ver_changed r (AddLearner st id) = 0.
  Proof.
    intros Hz Hf Hs. cbn [conf_ver_changed is_finish check_safety] in *. rewrite (oid_eqb_some _ _ Hz).
    destruct (get_store_peer r st) as [p|] eqn:Ep; [|reflexivity].
    destruct (negb (pid p =? id)); [discriminate|]. destruct (negb (is_learner p)) eqn:E2; [discriminate|].
    apply negb_false_iff in E2. rewrite (peer_learner r Hnd _ _ Ep E2) in Hf. rewrite Hf. reflexivity.
  Qed.

  Lemma unfinished_safe_counts_nothing s :
    step_ids_nonzero s = true -> remove_names_other_peer r s = false ->
    is_finish r s = false -> check_safety r s = None -> conf_ver_changed r s = 0.
  Proof.
    intros Hz Hx Hf Hs.
    destruct s as [f t|st id|st id|st id|st id|st id|st id|st id|pl dv|pl dv|pa tr|fr]; cbn [step_ids_nonzero] in Hz;
      try (apply negb_true_iff, Z.eqb_neq in Hz); try reflexivity;
      (* AddPeer, AddLightPeer, PromoteLearner, DemoteFollower count exactly when finished *)
      try (cbn [conf_ver_changed is_finish] in *; rewrite (oid_eqb_some _ _ Hz), Hf; reflexivity).
    - exact (add_learner_unfinished st id Hz Hf Hs).
    - exact (add_learner_unfinished st id Hz Hf Hs).
    - cbn [conf_ver_changed is_finish remove_names_other_peer] in *.
      destruct (get_store_peer r st) as [p|] eqn:Ep; [|discriminate]. cbn [oid] in *.
      pose proof (region_pid_nonzero r st p Hids Ep) as Hp. apply Z.eqb_neq in Hp. rewrite Hp. cbn [orb].
      rewrite Hx. reflexivity.
    - apply andb_true_iff in Hz as [Z1 Z2].
      destruct (Z.eq_dec (conf_ver_changed r (ChangePeerV2Enter pl dv)) 0) as [E|E]; [exact E|].
      rewrite (enter_counted_finished pl dv Z1 Z2 Hs E) in Hf. discriminate.
    - apply andb_true_iff in Hz as [Z1 Z2].
      destruct (Z.eq_dec (conf_ver_changed r (ChangePeerV2Leave pl dv)) 0) as [E|E]; [exact E|].
      rewrite (leave_counted_finished pl dv Z1 Z2 Hs E) in Hf. discriminate.
  Qed.
End Count.

Lemma finished_prefix_stop r : forall ss s, nth_error ss (finished_prefix r ss) = Some s -> is_finish r s = false.
Proof.
  induction ss as [|x rest IH]; intros s H; cbn [finished_prefix] in H; [discriminate|].
  destruct (is_finish r x) eqn:E; cbn [nth_error] in H; [apply IH; exact H|inversion H; subst; exact E].
Qed.

Lemma nth_error_skipn {A} (l : list A) : forall n k, nth_error l (n + k) = nth_error (skipn n l) k.
Proof.
  induction l as [|x r IH]; intros [|n] k; cbn; try reflexivity; [destruct k; reflexivity|apply IH].
Qed.

Lemma op_check_unfinished o r s : snd (op_check o r) = Some s -> is_finish r s = false.
Proof.
  unfold op_check. destruct (op_is_end o); [discriminate|]. cbn [snd]. rewrite nth_error_skipn.
  apply finished_prefix_stop.
Qed.
