(* C09 — Operator lifecycle: one per region, epoch-checked, stale ones cancelled.
   Statements with short derivations from the lemmas of proof/C09_*.v (status matrix: C09_StatusProof; controller:
   C09_CtlProof, C09_LeftProof; stale test: C09_CountProof, C09_StaleProof, C09_OwnGeneral; plans: C09_Tidy,
   C09_BuilderMono, C09_NjMono; closed loop: C09_OwnProof, C09_ClosedLoop; translated skeletons: C09_Skel).
   The model (model/C09_OpCtl.v) is a state machine over events: create / AddOperator /
   AddWaitingOperator / Promote / heartbeat dispatch / push dispatch / RemoveOperator / a command reaches
   the store or is lost / foreign change / time passes; `run_state ctl_step c es` is the state after the
   history es, so quantifying over es quantifies over all orders of these events. *)
From Coq Require Import String.
From PDV Require Import lib.Base gen.Gen_C08 gen.Gen_C09 model.C08_Steps model.C08_Builder model.C09_OpCtl
     proof.C08_BuilderProof proof.C08_SimPhases proof.C08_JointMain proof.C08_NjMain proof.C09_StatusProof proof.C09_CtlProof proof.C09_LeftProof proof.C08_ListFacts proof.C08_PlanProof proof.C09_CountProof proof.C09_StaleProof proof.C09_OwnGeneral proof.C09_Tidy proof.C09_BuilderMono proof.C09_NjMono
     proof.C09_OwnProof proof.C09_Skel.
From PDV Require Import proof.C09_ClosedLoop.
Local Open Scope Z_scope.

(* ---- status_paths: on the matrix regenerated from status.go ---- *)
Theorem C09_status_matrix_exact : forall a b, valid_trans a b = true <-> allowed a b.
Proof. destruct a, b; vm_compute; split; intros H; try reflexivity; try discriminate; try exact I; try contradiction. Qed.

Theorem C09_end_status_absorbing : forall a b, is_end_status a = true -> valid_trans a b = false.
Proof. exact end_status_absorbing. Qed.

Theorem C09_end_status_exact : forall s, is_end_status s = true <-> end_status s.
Proof.
  unfold end_status. destruct s; vm_compute; split; intros H; try reflexivity; try discriminate; auto 6;
    repeat (destruct H as [H|H]; try discriminate H).
Qed.

(* ---- status_paths: every operator, every history: its status after any continuation of the history is
        reachable from its status now along the matrix (reach = identity, one allowed move, or
        CREATED -> STARTED -> an allowed move), and its identity (region, epoch, steps, priority) never changes ---- *)
Theorem C09_status_paths :
  forall es c id x, get_op c id = Some x ->
    exists x', get_op (run_state ctl_step c es) id = Some x' /\ rel x x'.
Proof.
  intros es c. apply (run_state_inv ctl_step (ops_fwd c)); [|apply ops_fwd_same; reflexivity].
  intros s e H. apply (ops_fwd_trans _ _ _ H), ctl_step_fwd.
Qed.

Theorem C09_reach_spec :
  forall a b, reach a b = true <-> (a = b \/ allowed a b \/ (a = CREATED /\ allowed STARTED b)).
Proof.
  destruct a, b; vm_compute; split; intros H; try reflexivity; try discriminate; auto;
    try (right; left; exact I); try (right; right; split; [reflexivity|exact I]);
    try (destruct H as [H|[H|[H1 H2]]]; try discriminate; try contradiction).
Qed.

Theorem C09_ended_stays : forall a b, is_end_status a = true -> reach a b = true -> a = b.
Proof. exact reach_from_end. Qed.

(* ---- one_op_per_region: for every history ---- *)
Theorem C09_one_op_per_region :
  forall maxw es, NoDup (map fst (running (run_state ctl_step (init maxw) es))).
Proof. intros maxw es. exact (wf_rinv _ (proj1 (CtlInv_history maxw es))). Qed.

(* ---- admitted_epoch_equal: whatever the event, an operator that is in the running set afterwards and was not
        before carries exactly the epoch of the region PD has cached at that moment ---- *)
Theorem C09_admitted_epoch_equal :
  forall c e rid id,
    In (rid, id) (running (fst (ctl_step c e))) ->
    In (rid, id) (running c) \/
    exists o r, get_op (fst (ctl_step c e)) id = Some o /\ o_rid o = rid /\
                alist_get (cache (fst (ctl_step c e))) rid = Some r /\ conf_ver r = o_cv o /\ rng r = o_ver o.
Proof.
  intros c e rid id H. destruct (ctl_step_shape c e) as (c1 & _ & E & _ & S).
  destruct (fr_adm _ _ (st_frame S) _ _ H) as [H1|H1]; [left; rewrite <- E; exact H1|right].
  apply (epoch_ok_fwd _ _ _ _ (st_frame S) H1).
Qed.

(* ---- own_steps_never_stale, bounded: every plan of the builder model for <= 3 stores, executed by the
        controller model against the store model with nothing else touching the region: every command is
        accepted (addressed to the leader, current epoch), the operator is never cancelled and ends in SUCCESS.
        An instance of the general theorems of proof/C09_ClosedLoop.v: closed_loop_runs (any plan the C08 checker
        accepts whose heartbeats are fine and whose leader is known runs to SUCCESS) and closed_loop_builder (every
        plan of the builder, any number of stores) ---- *)
Theorem C09_own_steps_never_stale_bounded :
  forall n, (1 <= n <= 3)%nat ->
  forall ov ol tv tl lok m force,
    In ov (vectors role_opts n) -> In ol (voters_of (origin_of ov)) ->
    In tv (vectors role_opts n) -> In tl (0 :: voters_of (target_of tv)) ->
    In lok (vectors [true; false] n) -> In m modes ->
  forall b ss kl kr,
    prepared (mk_input n ov ol tv tl lok m force) = Some b ->
    build (mk_input n ov ol tv tl lok m force) = Built ss kl kr ->
    plan_runs_ok (i_region (mk_input n ov ol tv tl lok m force)) ss = true.
Proof.
  intros n Hn ov ol tv tl lok m force Hov Hol Htv _ _ _ b ss kl kr Hp Hb.
  destruct (mk_input_wf n ov ol tv tl lok m force ltac:(lia) Hov Hol Htv) as (H1 & H2 & H3 & H4 & _ & H6).
  destruct (H6 b Hp) as [H7 H8].
  apply (closed_loop_builder _ b ss kl kr); auto. apply region_ids_nonzero_all, H4.
Qed.

(* ---- the input for which a plan re-adding the removed peer under its old id is judged stale on its own steps
        (stale_plan): the builder's plan gives the re-added peer a new id and runs to SUCCESS ---- *)
Theorem C09_readded_peer_repaired :
  build stale_input = Built fresh_plan false true /\ plan_runs_ok stale_region fresh_plan = true.
Proof. split; vm_compute; reflexivity. Qed.

(* ---- own_steps_never_stale for ARBITRARY accepted plans needs the hypothesis "no peer is removed and re-added with
        the same id": stale_plan is accepted by the C08 checker and still cancelled ---- *)
Definition C09_own_steps_never_stale_any_plan : Prop :=
  forall r0 g ss, plan_ok g r0 ss = true -> plan_runs_ok r0 ss = true.

Theorem C09_own_steps_never_stale_needs_fresh_ids : ~ C09_own_steps_never_stale_any_plan.
Proof.
  intros F. destruct stale_plan_accepted_by_checker as (b & _ & Hok).
  specialize (F stale_region (goal_of b) stale_plan Hok).
  assert (E : plan_runs_ok stale_region stale_plan = false) by (vm_compute; reflexivity).
  rewrite E in F. clear Hok. discriminate F.
Qed.

(* ---- step accounting: a step that is neither finished nor unsafe in a region counts nothing in ConfVerChanged - every
        step kind, any region with one peer per store and non-zero peer ids; the one exception (RemovePeer whose store
        holds a peer with another id) is part of the statement.  It fails for a pending leave step if
        ChangePeerV2Leave.ConfVerChanged looks the demoted peer up by PEER id (defect S2). ---- *)
Theorem C09_unapplied_step_counts_nothing :
  forall r s, nodup_stores (peers r) = true -> region_ids_nonzero r = true -> step_ids_nonzero s = true ->
    remove_names_other_peer r s = false ->
    is_finish r s = false -> check_safety r s = None -> conf_ver_changed r s = 0.
Proof.
  intros r s Hn Hi Hz Hx Hf Hs. apply unfinished_safe_counts_nothing; auto. apply nodup_stores_ND. exact Hn.
Qed.

(* the S2 state: two demotions pending, nothing counted *)
Theorem C09_s2_repaired :
  is_finish s2_region s2_step = false /\ check_safety s2_region s2_step = None /\ conf_ver_changed s2_region s2_step = 0.
Proof. vm_compute. repeat split; reflexivity. Qed.

(* in a joint state the stores accept nothing but the leave command *)
Theorem C09_joint_state_admits_only_leave :
  forall r, is_in_joint r = true ->
    (forall t p, apply_cmd r (CChangePeer t p) = None) /\ (forall c cs, apply_cmd r (CChangePeerV2 (c :: cs)) = None).
Proof. intros r H. unfold apply_cmd. split; [intros t [p|]|intros c cs]; rewrite ?H; reflexivity. Qed.

(* ---- left_running_is_ended: every history, every next event: an operator that was in the running set and is
        not any more is in an end status (and, by C09_status_paths / C09_ended_stays, keeps it) ---- *)
Theorem C09_left_running_is_ended :
  forall maxw es e rid id,
    In (rid, id) (running (run_state ctl_step (init maxw) es)) ->
    ~ In (rid, id) (running (fst (ctl_step (run_state ctl_step (init maxw) es) e))) ->
    exists o, get_op (fst (ctl_step (run_state ctl_step (init maxw) es) e)) id = Some o /\ is_end_status (o_st o) = true.
Proof.
  intros maxw es e rid id Hin Hout.
  destruct (ctl_step_left _ e (proj1 (CtlInv_history maxw es)) _ _ Hin) as [X|[X _]]; [contradiction|exact X].
Qed.

(* the running set is keyed by the operator's own region, in every reachable state *)
Theorem C09_running_keyed_by_own_region :
  forall maxw es rid id o,
    In (rid, id) (running (run_state ctl_step (init maxw) es)) ->
    get_op (run_state ctl_step (init maxw) es) id = Some o -> o_rid o = rid.
Proof. intros maxw es. exact (wf_key _ (proj1 (CtlInv_history maxw es))). Qed.

(* an operator that left the running set in an event has a record under its region afterwards (every removal path
   buries, records are never deleted); with C09_records_truthful the record names an ended operator of that region *)
Theorem C09_left_running_has_record :
  forall maxw es e rid id,
    In (rid, id) (running (run_state ctl_step (init maxw) es)) ->
    ~ In (rid, id) (running (fst (ctl_step (run_state ctl_step (init maxw) es) e))) ->
    alist_get (records (fst (ctl_step (run_state ctl_step (init maxw) es) e))) rid <> None.
Proof.
  intros maxw es e rid id Hin Hout.
  destruct (ctl_step_left _ e (proj1 (CtlInv_history maxw es)) _ _ Hin) as [X|[_ X]]; [contradiction|exact X].
Qed.

(* ---- remembered as such: in every reachable state every record (what GetOperatorStatus reports for a region without
        running operator) names an existing operator of that region, with exactly the end status that operator has ---- *)
Theorem C09_records_truthful :
  forall maxw es rid id st,
    alist_get (records (run_state ctl_step (init maxw) es)) rid = Some (id, st) ->
    exists o, get_op (run_state ctl_step (init maxw) es) id = Some o /\ o_st o = st /\ is_end_status st = true /\ o_rid o = rid.
Proof. intros maxw es. exact (proj2 (CtlInv_history maxw es)). Qed.

(* ---- foreign_change_cancels ---- *)
(* Operator.ConfVerChanged never exceeds what the passed steps account for plus what the current step counts *)
Theorem C09_conf_ver_changed_bound :
  forall o r s, nth_error (o_steps o) (o_cur o) = Some s ->
    op_conf_ver_changed o r <= accounted (o_steps o) (o_cur o) + conf_ver_changed r s.
Proof. exact op_cvc_bound. Qed.

(* core form: whenever the current (unfinished) step counts nothing while its precondition holds, a heartbeat in which
   the step's precondition fails, or conf_ver is ahead of what the passed steps account for, ends the operator *)
Theorem C09_foreign_change_cancels_core :
  forall c rid id o r,
    NoDup (map fst (running c)) ->
    alist_get (running c) rid = Some id -> get_op c id = Some o -> o_rid o = rid ->
    alist_get (truth c) rid = Some r ->
    0 <= conf_ver r - o_cv o < two64 ->
    o_st (fst (op_check o r)) = STARTED ->
    forall s, snd (op_check o r) = Some s ->
    (check_safety r s = None -> conf_ver_changed r s = 0) ->
    (is_some (check_safety r s) = true \/ accounted (o_steps o) (o_cur (fst (op_check o r))) < conf_ver r - o_cv o) ->
    forall c', c' = fst (ctl_step c (EHeartbeat rid)) ->
    alist_get (running c') rid <> Some id \/ exists o', get_op c' id = Some o' /\ is_end_status (o_st o') = true.
Proof.
  intros c rid id o r _ Hrun Ho Hrid Htruth Hrange Hst s Hs Hzero Hcause c' ->. right.
  exact (foreign_change_ends c rid id o r Hrun Ho Hrid Htruth Hrange Hst s Hs Hzero Hcause).
Qed.

(* foreign_change_cancels: the proviso discharged for every step kind (C09_unapplied_step_counts_nothing) *)
Theorem C09_foreign_change_cancels :
  forall c rid id o r,
    NoDup (map fst (running c)) ->
    alist_get (running c) rid = Some id -> get_op c id = Some o -> o_rid o = rid ->
    alist_get (truth c) rid = Some r ->
    0 <= conf_ver r - o_cv o < two64 ->
    nodup_stores (peers r) = true -> region_ids_nonzero r = true ->
    o_st (fst (op_check o r)) = STARTED ->
    forall s, snd (op_check o r) = Some s ->
    step_ids_nonzero s = true ->
    remove_names_other_peer r s = false ->      (* not: RemovePeer{store, id} while the store holds a peer with another id *)
    (is_some (check_safety r s) = true \/ accounted (o_steps o) (o_cur (fst (op_check o r))) < conf_ver r - o_cv o) ->
    forall c', c' = fst (ctl_step c (EHeartbeat rid)) ->
    alist_get (running c') rid <> Some id \/ exists o', get_op c' id = Some o' /\ is_end_status (o_st o') = true.
Proof.
  intros c rid id o r Hnd Hrun Ho Hrid Htruth Hrange Hnds Hids Hst s Hs Hz Hx Hcause.
  apply (C09_foreign_change_cancels_core c rid id o r Hnd Hrun Ho Hrid Htruth Hrange Hst s Hs); [|exact Hcause].
  intros Hsafe. apply unfinished_safe_counts_nothing; auto.
  - apply nodup_stores_ND. exact Hnds.
  - apply op_check_unfinished with (o := o). exact Hs.
Qed.

(* without the exception the statement is false: a RemovePeer naming peer 12 while the store holds peer 99 counts the
   removal as done (a state that takes two configuration changes to reach, so no single change hides behind it) *)
Definition C09_foreign_change_cancels_any_state : Prop :=
  forall c rid id o r s,
    alist_get (running c) rid = Some id -> get_op c id = Some o -> alist_get (truth c) rid = Some r ->
    o_st (fst (op_check o r)) = STARTED -> snd (op_check o r) = Some s ->
    accounted (o_steps o) (o_cur (fst (op_check o r))) < conf_ver r - o_cv o ->
    alist_get (running (fst (ctl_step c (EHeartbeat rid)))) rid <> Some id.

Theorem C09_foreign_change_cancels_needs_matching_remove_id : ~ C09_foreign_change_cancels_any_state.
Proof.
  intros F. destruct rm_not_cancelled as (H1 & _ & _ & H4 & _).
  apply (F rm_ctl 1 1 (Opr 1 1 6 1 [rm_step] 0 STARTED 1 false 1 false false) rm_region rm_step); try reflexivity; try exact H4; try exact H1.
Qed.

(* RemoveOperator cancels the operator and then buries it; buryOperator cancels a non-ended operator itself: the two
   are the same state transformer (so dropping either Cancel alone is not observable) *)
Theorem C09_cancel_before_bury_redundant : forall c id, bury (cancel c id) id = bury c id.
Proof. exact cancel_before_bury_redundant. Qed.

(* ---- own_steps_never_stale, in general: ANY plan the C08 checker accepts, ANY region with one peer per store. Along
        its execution by the stores (finished steps are passed over) every heartbeat sees: the current step's CheckSafety
        holds and conf_ver(region) - conf_ver(operator) <= Operator.ConfVerChanged, i.e. checkStaleOperator keeps the operator.
        Hypothesis (necessary, witness below): no step lowers what an EARLIER step counts in ConfVerChanged
        (monotone_from; applied steps name non-zero peer ids and, for joint steps, at least one peer).
        Core lemma: an applied step raises conf_ver by exactly its nominal amount and counts exactly that afterwards. ---- *)
Theorem C09_step_accounting :
  forall r s c r', nodup_stores (peers r) = true -> nodup_stores (peers r') = true -> wf_step s = true ->
    exec_step r s = RDone c r' -> is_finish r' s = true ->
    conf_ver r' = conf_ver r + nominal s /\ conf_ver_changed r' s = nominal s.
Proof.
  intros r s c r' H1 H2. apply step_accounting; apply nodup_stores_ND; assumption.
Qed.

Theorem C09_own_steps_never_stale :
  forall g r0 ss,
    nodup_stores (peers r0) = true ->
    plan_ok g r0 ss = true ->
    monotone_from [] r0 ss = true ->
    heartbeats_fine (conf_ver r0) [] r0 ss = true.
Proof. exact heartbeats_fine_accepted. Qed.

(* what "heartbeats_fine" means for the controller: with the current step safe and conf_ver not ahead of
   Operator.ConfVerChanged, checkStaleOperator does nothing *)
Theorem C09_stale_test_keeps_operator :
  forall c o s r, check_safety r s = None -> 0 <= conf_ver r - o_cv o -> conf_ver r - o_cv o <= op_conf_ver_changed o r ->
    check_stale c o s r = (c, false).
Proof. exact check_stale_keeps. Qed.

Theorem C09_op_conf_ver_changed_is_sum :
  forall o r (done : list step) s rest, o_steps o = (done ++ s :: rest)%list -> o_cur o = length done ->
    op_conf_ver_changed o r = cvc_sum r (done ++ [s])%list.
Proof. exact op_cvc_split. Qed.

(* ---- a syntactic criterion for the hypothesis, for ANY plan: every later step is compatible with every earlier one
        (compat: other store; or role changes after a learner add / a removal; the matching leave after an enter; removal of
        a store a joint step did not promote; a re-add under another id after a removal), joint steps come in matching
        enter / leave pairs with only leadership moving in between, and the steps name non-zero peer ids ---- *)
Theorem C09_tidy_plans_are_monotone :
  forall g ss r,
    plan_ok g r ss = true -> nodup_stores (peers r) = true -> is_in_joint r = false ->
    bracketed None ss = true -> forallb step_ids_nonzero ss = true -> tidy_from nil ss = true ->
    monotone_from nil r ss = true.
Proof.
  intros g ss r Hok Hnd Hnj Hb Hz Ht. apply (tidy_monotone g ss nil r None); auto.
  - apply plan_ok_check. exact Hok.
  - apply NJ_of_not_joint. exact Hnj.
Qed.

(* ---- the builder's JOINT path (the default configuration) satisfies it in general: any region, any call sequence, any
        cluster; peer ids of the origin and of the added peers non-zero.  So own_steps_never_stale is unconditional for
        every plan built with joint consensus ---- *)
Theorem C09_builder_joint_plans_monotone :
  forall i b ss kl kr,
    nodup_stores (peers (i_region i)) = true ->
    is_in_joint (i_region i) = false ->
    (exists lp, get_store_peer (i_region i) (leader (i_region i)) = Some lp /\ prole lp = Voter) ->
    region_ids_nonzero (i_region i) = true -> (forall a, In a (b_add b) -> pid a <> 0) ->
    prepared i = Some b -> b_use_joint b = true -> build i = Built ss kl kr ->
    monotone_from nil (i_region i) ss = true.
Proof. exact builder_joint_monotone_pf. Qed.

Theorem C09_own_steps_never_stale_joint_builder :
  forall i b ss kl kr,
    nodup_stores (peers (i_region i)) = true ->
    is_in_joint (i_region i) = false ->
    (exists lp, get_store_peer (i_region i) (leader (i_region i)) = Some lp /\ prole lp = Voter) ->
    region_ids_nonzero (i_region i) = true -> (forall a, In a (b_add b) -> pid a <> 0) ->
    prepared i = Some b -> b_use_joint b = true -> build i = Built ss kl kr ->
    heartbeats_fine (conf_ver (i_region i)) nil (i_region i) ss = true.
Proof.
  intros i b ss kl kr H1 H2 H3 H4 H5 H6 H7 H8.
  apply (C09_own_steps_never_stale (goal_of b)); auto.
  - eapply builder_joint_plan_ok_general_pf; eauto.
  - eapply builder_joint_monotone_pf; eauto.
Qed.

(* ---- the builder's NON-joint path (joint consensus disabled or unsupported) satisfies it in general as well: invariant
        of the loop of buildStepsWithoutJointConsensus - the store of every step emitted so far has nothing pending that
        a later step could undo (after a removal only a learner with another id may still be added there) ---- *)
Theorem C09_builder_nonjoint_plans_monotone :
  forall i b ss kl kr,
    nodup_stores (peers (i_region i)) = true ->
    is_in_joint (i_region i) = false ->
    (exists lp, get_store_peer (i_region i) (leader (i_region i)) = Some lp /\ prole lp = Voter) ->
    region_ids_nonzero (i_region i) = true -> (forall a, In a (b_add b) -> pid a <> 0) ->
    prepared i = Some b -> b_use_joint b = false ->
    NoDup (map pid (peers (i_region i)) ++ map pid (b_add b)) ->
    build i = Built ss kl kr ->
    monotone_from nil (i_region i) ss = true.
Proof. exact builder_nonjoint_monotone_pf. Qed.

(* ---- both paths: every plan of the builder is monotone, hence (own_steps_never_stale, builder_plan_ok) along the
        execution of EVERY builder plan every heartbeat finds the current step safe and conf_ver not ahead of what the
        passed steps account for.  No hypothesis on the plan is left; on the input: one peer per store, not in a joint
        state, leader a voter, peer ids of origin and added peers non-zero and pairwise distinct (id allocator, C08) ---- *)
Theorem C09_builder_plans_monotone :
  forall i b ss kl kr,
    nodup_stores (peers (i_region i)) = true ->
    is_in_joint (i_region i) = false ->
    (exists lp, get_store_peer (i_region i) (leader (i_region i)) = Some lp /\ prole lp = Voter) ->
    region_ids_nonzero (i_region i) = true -> (forall a, In a (b_add b) -> pid a <> 0) ->
    prepared i = Some b ->
    NoDup (map pid (peers (i_region i)) ++ map pid (b_add b)) ->
    build i = Built ss kl kr ->
    monotone_from nil (i_region i) ss = true.
Proof.
  intros i b ss kl kr H1 H2 H3 H4 H5 H6 H7 H8. destruct (b_use_joint b) eqn:E.
  - eapply builder_joint_monotone_pf; eauto.
  - eapply builder_nonjoint_monotone_pf; eauto.
Qed.

Theorem C09_own_steps_never_stale_builder :
  forall i b ss kl kr,
    nodup_stores (peers (i_region i)) = true ->
    is_in_joint (i_region i) = false ->
    (exists lp, get_store_peer (i_region i) (leader (i_region i)) = Some lp /\ prole lp = Voter) ->
    region_ids_nonzero (i_region i) = true -> (forall a, In a (b_add b) -> pid a <> 0) ->
    prepared i = Some b ->
    NoDup (map pid (peers (i_region i)) ++ map pid (b_add b)) ->
    build i = Built ss kl kr ->
    heartbeats_fine (conf_ver (i_region i)) nil (i_region i) ss = true.
Proof.
  intros i b ss kl kr H1 H2 H3 H4 H5 H6 H7 H8.
  apply (C09_own_steps_never_stale (goal_of b)); auto.
  - destruct (b_use_joint b) eqn:E.
    + eapply builder_joint_plan_ok_general_pf; eauto.
    + eapply builder_nonjoint_plan_ok_general_pf; eauto.
  - eapply C09_builder_plans_monotone; eauto.
Qed.

(* the builder's plans satisfy the hypothesis (bounded: exhaustive for <= 3 stores; together with
   C09_own_steps_never_stale_bounded, which runs the whole controller + store loop on the same domain) *)
Theorem C09_builder_plans_monotone_bounded :
  forall n, (1 <= n <= 3)%nat ->
  forall ov ol tv tl lok m force,
    In ov (vectors role_opts n) -> In ol (voters_of (origin_of ov)) ->
    In tv (vectors role_opts n) -> In tl (0 :: voters_of (target_of tv)) ->
    In lok (vectors [true; false] n) -> In m modes ->
  forall ss kl kr,
    build (mk_input n ov ol tv tl lok m force) = Built ss kl kr ->
    monotone_from [] (i_region (mk_input n ov ol tv tl lok m force)) ss = true.
Proof.
  intros n Hn ov ol tv tl lok m force Hov Hol Htv _ _ _ ss kl kr Hb.
  destruct (build_prepared _ _ _ _ Hb) as (b & Hp).
  destruct (mk_input_wf n ov ol tv tl lok m force ltac:(lia) Hov Hol Htv) as (H1 & H2 & H3 & H4 & _ & H6).
  destruct (H6 b Hp) as [H7 H8].
  apply (C09_builder_plans_monotone _ b ss kl kr); auto. apply region_ids_nonzero_all, H4.
Qed.

(* the hypothesis is needed, also when no peer is re-added under its old id: a plan that undoes its own step
   ([add learner 44 on store 4; remove it again; transfer leader]) is accepted by the C08 checker and cancelled by the
   controller on its own steps - the AddLearner no longer counts once the peer is gone *)
Definition C09_own_steps_never_stale_without_monotonicity : Prop :=
  forall r0 g ss, nodup_stores (peers r0) = true -> plan_ok g r0 ss = true -> readded_same_id ss = false ->
                  plan_runs_ok r0 ss = true.

Theorem C09_own_steps_never_stale_needs_monotonicity : ~ C09_own_steps_never_stale_without_monotonicity.
Proof.
  intros F. destruct undo_plan_facts as (H1 & H2 & H3 & _).
  specialize (F undo_region undo_goal undo_plan eq_refl H1 H2). rewrite H3 in F. discriminate F.
Qed.

(* non-vacuity: a joint plan runs to SUCCESS through the controller; a higher-priority operator replaces a running one *)
Example C09_nonvacuous :
  plan_runs_ok (Region [Peer 1 11 Voter; Peer 2 12 Voter; Peer 3 13 Learner] 1 5 0)
               [AddLearner 4 44; ChangePeerV2Enter [(4, 44)] [(1, 11)]; TransferLeader 1 4;
                ChangePeerV2Leave [(4, 44)] [(1, 11)]; RemovePeer 1 11] = true
  /\ map b_status (run ctl_step (init 5)
        [ERegion 1 (Region [Peer 1 11 Voter; Peer 2 12 Voter] 1 5 0);
         ECreate 1 1 5 0 [TransferLeader 1 2] 1 false 1; ECreate 2 1 5 0 [AddLearner 3 33] 2 true 1;
         EAdd [1]; EAdd [2]])
     = [[]; [(1, CREATED)]; [(1, CREATED); (2, CREATED)]; [(1, STARTED); (2, CREATED)]; [(1, REPLACED); (2, STARTED)]].
Proof. split; vm_compute; reflexivity. Qed.

(* ---- heartbeat streams that break: a command pushed while the target store has no working stream is lost for good - it
        never reaches a store later; a store that binds a new stream receives nothing on its own.  (The real
        HeartbeatStreams is driven with failing streams and re-binding and everything any stream receives is observed;
        monitor clauses command-delivered-without-running-operator / command-not-stamped-with-cached-epoch-and-leader.) ---- *)
Theorem C09_unbound_store_receives_nothing :
  forall c ms m, In m (inbox (send c ms)) ->
    In m (inbox c) \/ (In m ms /\ existsb (Z.eqb (m_target_store m)) (unbound c) = false).
Proof.
  intros c ms m H. unfold send, upd in H. cbn [inbox] in H. apply in_app_or in H as [H|H]; [left; exact H|right].
  apply filter_In in H as [H1 H2]. split; [exact H1|]. apply negb_true_iff in H2. exact H2.
Qed.

Theorem C09_rebind_delivers_nothing :
  forall c st, b_sent (snd (ctl_step c (ERebind st))) = nil /\ inbox (fst (ctl_step c (ERebind st))) = inbox c
               /\ running (fst (ctl_step c (ERebind st))) = running c.
Proof. intros c st. repeat split. Qed.

Print Assumptions C09_status_matrix_exact.
Print Assumptions C09_end_status_absorbing.
Print Assumptions C09_end_status_exact.
Print Assumptions C09_status_paths.
Print Assumptions C09_reach_spec.
Print Assumptions C09_ended_stays.
Print Assumptions C09_one_op_per_region.
Print Assumptions C09_admitted_epoch_equal.
Print Assumptions C09_own_steps_never_stale_bounded.
Print Assumptions C09_readded_peer_repaired.
Print Assumptions C09_own_steps_never_stale_needs_fresh_ids.
Print Assumptions C09_unapplied_step_counts_nothing.
Print Assumptions C09_s2_repaired.
Print Assumptions C09_joint_state_admits_only_leave.
Print Assumptions C09_left_running_is_ended.
Print Assumptions C09_left_running_has_record.
Print Assumptions C09_records_truthful.
Print Assumptions C09_running_keyed_by_own_region.
Print Assumptions C09_conf_ver_changed_bound.
Print Assumptions C09_foreign_change_cancels_core.
Print Assumptions C09_foreign_change_cancels.
Print Assumptions C09_foreign_change_cancels_needs_matching_remove_id.
Print Assumptions C09_cancel_before_bury_redundant.
Print Assumptions C09_step_accounting.
Print Assumptions C09_own_steps_never_stale.
Print Assumptions C09_stale_test_keeps_operator.
Print Assumptions C09_op_conf_ver_changed_is_sum.
Print Assumptions C09_unbound_store_receives_nothing.
Print Assumptions C09_rebind_delivers_nothing.
Print Assumptions C09_tidy_plans_are_monotone.
Print Assumptions C09_builder_joint_plans_monotone.
Print Assumptions C09_own_steps_never_stale_joint_builder.
Print Assumptions C09_builder_nonjoint_plans_monotone.
Print Assumptions C09_builder_plans_monotone.
Print Assumptions C09_own_steps_never_stale_builder.
Print Assumptions C09_builder_plans_monotone_bounded.
Print Assumptions C09_own_steps_never_stale_needs_monotonicity.
