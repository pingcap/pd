(* C07 — order facts for an arbitrary Item.Less that is a strict weak order, and the compositional
   behaviour of the list specification L0: an operation on P ++ C ++ Q with everything in P below the key and
   everything in Q above it is the operation on C. *)
From Coq Require Import List Bool Lia Sorting.Sorted.
From PDV Require Import lib.C07_List model.C07_BTreeSpec.
Import ListNotations.

Section Order.
  Context {A : Type} (ltb : A -> A -> bool).
  Hypothesis lt_irrefl : forall a, ltb a a = false.
  Hypothesis lt_trans : forall a b c, ltb a b = true -> ltb b c = true -> ltb a c = true.
  Hypothesis lt_negtrans : forall a b c, ltb a b = false -> ltb b c = false -> ltb a c = false.

  Definition lt (a b : A) : Prop := ltb a b = true.
  Definition eqv (a b : A) : Prop := ltb a b = false /\ ltb b a = false.
  Definition all_lt (l : list A) (x : A) : Prop := forall y, In y l -> lt y x.
  Definition lt_all (x : A) (l : list A) : Prop := forall y, In y l -> lt x y.
  Definition sorted (l : list A) : Prop := StronglySorted lt l.

  Lemma lt_asym a b : lt a b -> ltb b a = false.
  Proof.
    intros H. destruct (ltb b a) eqn:E; [|reflexivity]. pose proof (lt_trans _ _ _ H E) as C. rewrite lt_irrefl in C. discriminate.
  Qed.
  Lemma lt_eqv_r a b c : lt a b -> eqv b c -> lt a c.
  Proof.
    intros H [E1 E2]. unfold lt. destruct (ltb a c) eqn:E; [reflexivity|]. pose proof (lt_negtrans _ _ _ E E2) as C.
    unfold lt in H. congruence.
  Qed.
  Lemma lt_eqv_l a b c : eqv a b -> lt b c -> lt a c.
  Proof.
    intros [E1 E2] H. unfold lt. destruct (ltb a c) eqn:E; [reflexivity|]. pose proof (lt_negtrans _ _ _ E2 E) as C.
    unfold lt in H. congruence.
  Qed.
  Lemma eqv_sym a b : eqv a b -> eqv b a.
  Proof. intros [E1 E2]. split; assumption. Qed.
  Lemma eqv_refl a : eqv a a.
  Proof. split; apply lt_irrefl. Qed.
  Lemma all_lt_app l1 l2 x : all_lt (l1 ++ l2) x <-> all_lt l1 x /\ all_lt l2 x.
  Proof.
    unfold all_lt. split.
    - intros H. split; intros y Hy; apply H, in_or_app; auto.
    - intros [H1 H2] y Hy. apply in_app_or in Hy as [Hy|Hy]; auto.
  Qed.
  Lemma lt_all_app x l1 l2 : lt_all x (l1 ++ l2) <-> lt_all x l1 /\ lt_all x l2.
  Proof.
    unfold lt_all. split.
    - intros H. split; intros y Hy; apply H, in_or_app; auto.
    - intros [H1 H2] y Hy. apply in_app_or in Hy as [Hy|Hy]; auto.
  Qed.
  Lemma all_lt_cons a l x : all_lt (a :: l) x <-> lt a x /\ all_lt l x.
  Proof. unfold all_lt. split; [intros H; split; [apply H; left; reflexivity|intros y Hy; apply H; right; exact Hy]|intros [H1 H2] y [<-|Hy]; auto]. Qed.
  Lemma lt_all_cons x a l : lt_all x (a :: l) <-> lt x a /\ lt_all x l.
  Proof. unfold lt_all. split; [intros H; split; [apply H; left; reflexivity|intros y Hy; apply H; right; exact Hy]|intros [H1 H2] y [<-|Hy]; auto]. Qed.
  Lemma all_lt_nil x : all_lt [] x. Proof. intros y []. Qed.
  Lemma lt_all_nil x : lt_all x []. Proof. intros y []. Qed.
  Lemma all_lt_trans l x y : all_lt l x -> lt x y -> all_lt l y.
  Proof. intros H L z Hz. eapply lt_trans; [apply H, Hz|exact L]. Qed.
  Lemma lt_all_trans x y l : lt x y -> lt_all y l -> lt_all x l.
  Proof. intros L H z Hz. eapply lt_trans; [exact L|apply H, Hz]. Qed.

  Lemma sorted_app l1 l2 : sorted (l1 ++ l2) <-> sorted l1 /\ sorted l2 /\ (forall a b, In a l1 -> In b l2 -> lt a b).
  Proof.
    induction l1 as [|x l1 IH]; cbn.
    - split; [intros H; split; [constructor|split; [exact H|intros a b []]]|intros (_ & H & _); exact H].
    - split.
      + intros H. inversion H as [|? ? S F]; subst. apply IH in S as (S1 & S2 & C). rewrite Forall_forall in F.
        split; [|split; [exact S2|]].
        * constructor; [exact S1|]. rewrite Forall_forall. intros y Hy. apply F, in_or_app. left; exact Hy.
        * intros a b [<-|Ha] Hb; [apply F, in_or_app; right; exact Hb|apply C; assumption].
      + intros (S1 & S2 & C). inversion S1 as [|? ? S F]; subst. rewrite Forall_forall in F. constructor.
        * apply IH. split; [exact S|split; [exact S2|]]. intros a b Ha Hb. apply C; [right; exact Ha|exact Hb].
        * rewrite Forall_forall. intros y Hy. apply in_app_or in Hy as [Hy|Hy]; [apply F, Hy|apply C; [left; reflexivity|exact Hy]].
  Qed.

  Lemma sorted_cons_inv x l : sorted (x :: l) -> sorted l /\ lt_all x l.
  Proof. intros H. inversion H as [|? ? S F]; subst. rewrite Forall_forall in F. split; [exact S|exact F]. Qed.
  Lemma sorted_cons x l : sorted l -> lt_all x l -> sorted (x :: l).
  Proof. intros S F. constructor; [exact S|rewrite Forall_forall; exact F]. Qed.
  Lemma sorted_nil : sorted []. Proof. constructor. Qed.
  Lemma sorted_one x : sorted [x]. Proof. constructor; constructor. Qed.

  (* sorted (P ++ x :: Q): everything in P is below x, everything in Q above *)
  Lemma sorted_mid P x Q : sorted (P ++ x :: Q) -> all_lt P x /\ lt_all x Q /\ sorted P /\ sorted Q.
  Proof.
    intros H. apply sorted_app in H as (S1 & S2 & C). apply sorted_cons_inv in S2 as [S2 F].
    repeat split; auto. intros y Hy. apply C; [exact Hy|left; reflexivity].
  Qed.

  Lemma l0_insert_below P L x : all_lt P x ->
    l0_insert ltb x (P ++ L) = (P ++ fst (l0_insert ltb x L), snd (l0_insert ltb x L)).
  Proof.
    induction P as [|p P IH]; intros H; cbn [app]; [destruct (l0_insert ltb x L); reflexivity|].
    apply all_lt_cons in H as [Hp H]. cbn [l0_insert]. rewrite (lt_asym _ _ Hp), Hp. rewrite (IH H). reflexivity.
  Qed.

  Lemma l0_insert_above C Q x : lt_all x Q ->
    l0_insert ltb x (C ++ Q) = (fst (l0_insert ltb x C) ++ Q, snd (l0_insert ltb x C)).
  Proof.
    intros H. induction C as [|c C IH]; cbn [app l0_insert].
    - destruct Q as [|q Q]; [reflexivity|]. cbn [l0_insert]. rewrite (H q (or_introl eq_refl)). reflexivity.
    - destruct (ltb x c); [reflexivity|]. destruct (ltb c x); [|reflexivity].
      rewrite IH. destruct (l0_insert ltb x C). reflexivity.
  Qed.

  Theorem l0_insert_comp P C Q x C' o : all_lt P x -> lt_all x Q -> l0_insert ltb x C = (C', o) ->
    l0_insert ltb x (P ++ C ++ Q) = (P ++ C' ++ Q, o).
  Proof. intros HP HQ E. rewrite (l0_insert_below _ _ _ HP), (l0_insert_above _ _ _ HQ), E. reflexivity. Qed.

  Lemma l0_delete_below P L x : all_lt P x ->
    l0_delete ltb x (P ++ L) = (P ++ fst (l0_delete ltb x L), snd (l0_delete ltb x L)).
  Proof.
    induction P as [|p P IH]; intros H; cbn [app]; [destruct (l0_delete ltb x L); reflexivity|].
    apply all_lt_cons in H as [Hp H]. cbn [l0_delete]. rewrite Hp. rewrite (IH H). reflexivity.
  Qed.

  Lemma l0_delete_above C Q x : lt_all x Q ->
    l0_delete ltb x (C ++ Q) = (fst (l0_delete ltb x C) ++ Q, snd (l0_delete ltb x C)).
  Proof.
    intros H. induction C as [|c C IH]; cbn [app l0_delete].
    - destruct Q as [|q Q]; [reflexivity|]. cbn [l0_delete].
      rewrite (lt_asym _ _ (H q (or_introl eq_refl))), (H q (or_introl eq_refl)). reflexivity.
    - destruct (ltb c x); [|destruct (ltb x c); reflexivity]. rewrite IH. destruct (l0_delete ltb x C). reflexivity.
  Qed.

  Theorem l0_delete_comp P C Q x C' o : all_lt P x -> lt_all x Q -> l0_delete ltb x C = (C', o) ->
    l0_delete ltb x (P ++ C ++ Q) = (P ++ C' ++ Q, o).
  Proof. intros HP HQ E. rewrite (l0_delete_below _ _ _ HP), (l0_delete_above _ _ _ HQ), E. reflexivity. Qed.

  Lemma l0_get_below P L x : all_lt P x -> l0_get ltb x (P ++ L) = l0_get ltb x L.
  Proof.
    induction P as [|p P IH]; intros H; cbn [app]; [reflexivity|].
    apply all_lt_cons in H as [Hp H]. cbn [l0_get]. rewrite Hp. apply IH, H.
  Qed.
  Lemma l0_get_above C Q x : lt_all x Q -> l0_get ltb x (C ++ Q) = l0_get ltb x C.
  Proof.
    intros H. induction C as [|c C IH]; cbn [app l0_get].
    - destruct Q as [|q Q]; [reflexivity|]. cbn [l0_get].
      rewrite (lt_asym _ _ (H q (or_introl eq_refl))), (H q (or_introl eq_refl)). reflexivity.
    - destruct (ltb c x); [exact IH|reflexivity].
  Qed.

  Lemma l0_rank_below P L x : all_lt P x -> l0_rank ltb x (P ++ L) = (length P + l0_rank ltb x L)%nat.
  Proof.
    induction P as [|p P IH]; intros H; cbn [app length]; [reflexivity|].
    apply all_lt_cons in H as [Hp H]. cbn [l0_rank]. rewrite Hp, (IH H). reflexivity.
  Qed.
  (* everything in Q is not below x *)
  Definition none_lt (Q : list A) (x : A) : Prop := forall y, In y Q -> ltb y x = false.
  Lemma l0_rank_above C Q x : none_lt Q x -> sorted (C ++ Q) -> l0_rank ltb x (C ++ Q) = l0_rank ltb x C.
  Proof.
    intros H S. induction C as [|c C IH]; cbn [app l0_rank].
    - destruct Q as [|q Q]; [reflexivity|]. cbn [l0_rank]. rewrite (H q (or_introl eq_refl)). reflexivity.
    - cbn [app] in S. apply sorted_cons_inv in S as [S _]. destruct (ltb c x); [rewrite (IH S); reflexivity|reflexivity].
  Qed.
  Lemma l0_rank_all P x : all_lt P x -> l0_rank ltb x P = length P.
  Proof. intros H. rewrite <- (app_nil_r P) at 1. rewrite (l0_rank_below _ _ _ H). cbn. lia. Qed.

  Lemma l0_ascend_below P L x : all_lt P x -> l0_ascend_ge ltb x (P ++ L) = l0_ascend_ge ltb x L.
  Proof.
    induction P as [|p P IH]; intros H; cbn [app]; [reflexivity|].
    apply all_lt_cons in H as [Hp H]. cbn [l0_ascend_ge]. rewrite Hp. apply IH, H.
  Qed.
  Lemma l0_ascend_ge_all P x : all_lt P x -> l0_ascend_ge ltb x P = [].
  Proof. intros H. rewrite <- (app_nil_r P). rewrite (l0_ascend_below _ _ _ H). reflexivity. Qed.
  Lemma l0_ascend_ge_none Q x : none_lt Q x -> l0_ascend_ge ltb x Q = Q.
  Proof. intros H. destruct Q as [|q Q]; [reflexivity|]. cbn. rewrite (H q (or_introl eq_refl)). reflexivity. Qed.

  Lemma descend_acc_app p l1 l2 acc : (forall y, In y l1 -> ltb p y = false) ->
    l0_descend_le_acc ltb p (l1 ++ l2) acc = l0_descend_le_acc ltb p l2 (rev l1 ++ acc).
  Proof.
    revert acc. induction l1 as [|a l1 IH]; intros acc H; cbn [app rev]; [reflexivity|].
    cbn [l0_descend_le_acc]. rewrite (H a (or_introl eq_refl)). rewrite IH by (intros y Hy; apply H; right; exact Hy).
    rewrite <- app_assoc. reflexivity.
  Qed.
  Lemma descend_acc_stop p l acc : lt_all p l -> l0_descend_le_acc ltb p l acc = acc.
  Proof. intros H. destruct l as [|a l]; [reflexivity|]. cbn. rewrite (H a (or_introl eq_refl)). reflexivity. Qed.
  Lemma l0_descend_spec p L G : (forall y, In y L -> ltb p y = false) -> lt_all p G ->
    l0_descend_le ltb p (L ++ G) = rev L.
  Proof.
    intros HL HG. unfold l0_descend_le. rewrite (descend_acc_app _ _ _ _ HL), (descend_acc_stop _ _ _ HG). apply app_nil_r.
  Qed.
  (* on a sorted list the items <= x are a prefix: DescendLessOrEqual is a reversed filter *)
  Definition le_x (x y : A) : bool := negb (ltb x y).
  Lemma l0_descend_filter x L : sorted L -> l0_descend_le ltb x L = rev (filter (le_x x) L).
  Proof.
    intros Hs. unfold l0_descend_le.
    assert (G : forall acc, l0_descend_le_acc ltb x L acc = rev (filter (le_x x) L) ++ acc).
    { induction L as [|a L IH]; intros acc; cbn [l0_descend_le_acc filter]; [reflexivity|].
      apply sorted_cons_inv in Hs as [Hs' F]. unfold le_x at 1. destruct (ltb x a) eqn:E; cbn [negb].
      - rewrite filter_false_nil; [reflexivity|]. intros y Hy. unfold le_x. rewrite (lt_trans _ _ _ E (F y Hy)). reflexivity.
      - rewrite (IH Hs'). cbn [rev]. rewrite <- app_assoc. reflexivity. }
    rewrite G. apply app_nil_r.
  Qed.
End Order.
