(* C08 — the joint build path as a script on the store model: learners first, one enter / leave pair
   with the leader moved before, inside or after it, removals last.  If the parameters of the script satisfy
   the listed conditions, the checker accepts it (general in the number of peers). *)
From Coq Require Import String.
From PDV Require Import lib.Base gen.Gen_C08 model.C08_Steps model.C08_Builder
     proof.C08_ListFacts proof.C08_SimPhases.
Local Open Scope list_scope.
Local Open Scope Z_scope.

Definition learner_of (a : peer) : peer := Peer (pstore a) (pid a) Learner.
Definition add_steps (light : bool) (A : list peer) : list step := map (fun a => add_step light (pstore a) (pid a)) A.
Definition remove_steps (R : list peer) : list step := map (fun p => RemovePeer (pstore p) (pid p)) R.

(* plan_check does not look at conf_ver *)
Definition same_conf (r r' : region) : Prop := peers r' = peers r /\ leader r' = leader r /\ rng r' = rng r.

Lemma scan_pairs_cv ps l cv cv' rg cls tl : forall pairs acc,
  scan_pairs (Region ps l cv' rg) cls tl pairs acc = scan_pairs (Region ps l cv rg) cls tl pairs acc.
Proof.
  induction pairs as [|x rest IH]; intros acc; cbn [scan_pairs]; [reflexivity|].
  unfold get_store_peer; cbn [peers leader].
  destruct (negb (oid (find (on_store (fst x)) ps) =? snd x)); [reflexivity|].
  destruct (cls (orole (find (on_store (fst x)) ps))); [reflexivity| |]; destruct acc as [[ij nj] dl]; apply IH.
Qed.

Lemma check_safety_cv ps l cv cv' rg s : check_safety (Region ps l cv' rg) s = check_safety (Region ps l cv rg) s.
Proof.
  destruct s; try reflexivity; cbn [check_safety]; rewrite (scan_pairs_cv ps l cv cv' rg);
    match goal with |- context [scan_pairs ?r ?c ?t ?p ?a] => destruct (scan_pairs r c t p a) as [e|acc] end; try reflexivity;
    rewrite (scan_pairs_cv ps l cv cv' rg);
    match goal with |- context [scan_pairs ?r ?c ?t ?p ?a] => destruct (scan_pairs r c t p a) as [e|acc'] end; reflexivity.
Qed.

Lemma exec_step_same_conf r r' s : same_conf r r' ->
  match exec_step r s, exec_step r' s with
  | RSkip, RSkip => True
  | RUnsafe _, RUnsafe _ => True
  | RNoCmd, RNoCmd => True
  | RRejected _, RRejected _ => True
  | RDone _ a, RDone _ b => same_conf a b
  | _, _ => False
  end.
Proof.
  intros (Hp & Hl & Hr). destruct r as [ps l cv rg], r' as [ps' l' cv' rg']. cbn in Hp, Hl, Hr. subst ps' l' rg'.
  assert (Hf : is_finish (Region ps l cv' rg) s = is_finish (Region ps l cv rg) s) by (destruct s; reflexivity).
  pose proof (check_safety_cv ps l cv cv' rg s) as Hs.
  assert (Hc : cmd_of_step (Region ps l cv' rg) s = cmd_of_step (Region ps l cv rg) s) by (destruct s; reflexivity).
  unfold exec_step. rewrite Hf, Hs, Hc.
  destruct (is_finish (Region ps l cv rg) s); [exact I|].
  destruct (check_safety (Region ps l cv rg) s); [exact I|].
  destruct (cmd_of_step (Region ps l cv rg) s) as [c|]; [|exact I].
  destruct c as [o|t o|cs| |]; unfold apply_cmd, is_in_joint, get_store_peer; cbn [peers leader conf_ver rng].
  - destruct o as [p|]; [|exact I].
    destruct (find (on_store (pstore p)) ps) as [q|]; [|exact I]. destruct (negb (pid q =? pid p) || is_learner q); [exact I|].
    repeat split.
  - destruct o as [p|]; [|exact I]. destruct (existsb in_joint ps); [exact I|].
    destruct (apply_change false l ps (t, p)); [repeat split|exact I].
  - destruct cs as [|c cs].
    + destruct (negb (existsb in_joint ps)); [exact I|].
      destruct (role_eqb (orole (find (on_store l) ps)) Demoting && is_some (find (on_store l) ps)); [exact I|].
      repeat split.
    + destruct (existsb in_joint ps); [exact I|].
      destruct (apply_changes true l ps (c :: cs)); [repeat split|exact I].
  - repeat split.
  - repeat split.
Qed.

Lemma trans_violation_same_conf g a b a' b' : same_conf a a' -> same_conf b b' -> trans_violation g a' b' = trans_violation g a b.
Proof.
  intros (H1 & H2 & H3) (H4 & H5 & H6). unfold trans_violation, leader_kept, leader_to_valid, get_store_peer. rewrite H1, H2, H4, H5. reflexivity.
Qed.

Lemma plan_check_same_conf g ss : forall r r', same_conf r r' -> plan_check g r' ss = plan_check g r ss.
Proof.
  induction ss as [|s rest IH]; intros r r' H; cbn [plan_check].
  - destruct H as (H1 & H2 & H3). unfold final_violation, get_store_peer. rewrite H1, H2. reflexivity.
  - pose proof (exec_step_same_conf r r' s H) as E.
    destruct (exec_step r s) as [|e| |c|c a], (exec_step r' s) as [|e'| |c'|c' a']; try contradiction; try reflexivity.
    + apply IH. exact H.
    + rewrite (trans_violation_same_conf g r a r' a' H E).
      destruct (trans_violation g r a); [reflexivity|].
      assert (Hf : is_finish a' s = is_finish a s).
      { destruct E as (E1 & E2 & E3). destruct a as [ps l cv rg], a' as [ps' l' cv' rg']. cbn in E1, E2, E3. subst. destruct s; reflexivity. }
      rewrite Hf. destruct (is_finish a s); [apply IH; exact E|reflexivity].
Qed.

Lemma same_conf_refl r : same_conf r r.
Proof. repeat split. Qed.

Definition reg (ps : list peer) (l rg : Z) (cv : Z) : region := Region ps l cv rg.

Lemma plan_check_cv g ps l rg cv cv' ss : plan_check g (reg ps l rg cv') ss = plan_check g (reg ps l rg cv) ss.
Proof. apply plan_check_same_conf. repeat split. Qed.

Lemma pc_adds g light : forall A ps l rg cv rest,
  Inv g (reg ps l rg cv) -> NJ ps ->
  ND (map learner_of A) -> (forall a, In a A -> lk ps (pstore a) = None) ->
  exists cv', plan_check g (reg ps l rg cv) (add_steps light A ++ rest) = plan_check g (reg (ps ++ map learner_of A) l rg cv') rest
              /\ Inv g (reg (ps ++ map learner_of A) l rg cv') /\ NJ (ps ++ map learner_of A).
Proof.
  induction A as [|a A IH]; intros ps l rg cv rest I Hnj Hnd Hfresh; cbn [add_steps map app].
  - exists cv. rewrite app_nil_r. auto.
  - destruct (pc_add_learner g (reg ps l rg cv) light (pstore a) (pid a) I Hnj (Hfresh a (or_introl eq_refl)))
      as (E & I' & Hnj').
    cbn [reg set_peers peers leader conf_ver rng] in E, I', Hnj'.
    unfold ND in Hnd. cbn [map] in Hnd. inversion Hnd as [|? ? Hn Hd]; subst.
    destruct (IH (ps ++ [learner_of a]) l rg (cv + 1) rest I' Hnj' Hd) as (cv' & E2 & I2 & Hnj2).
    { intros b Hb. rewrite lk_app. rewrite (Hfresh b (or_intror Hb)). unfold lk; cbn. unfold on_store; cbn.
      destruct (pstore a =? pstore b) eqn:Eq; [|reflexivity].
      apply Z.eqb_eq in Eq. exfalso. apply Hn. cbn. rewrite Eq. apply in_map_iff. exists (learner_of b). split; [reflexivity|apply in_map; exact Hb]. }
    exists cv'. rewrite <- app_assoc in E2, I2, Hnj2. cbn [app] in E2, I2, Hnj2.
    split; [|split; assumption]. etransitivity; [apply E|exact E2].
Qed.

Definition remove_all (ps : list peer) (R : list peer) : list peer := fold_left (fun acc p => remove_store acc (pstore p)) R ps.

Lemma pc_removes g : forall R ps l rg cv rest,
  Inv g (reg ps l rg cv) -> NJ ps ->
  NoDup (map pstore R) -> (forall p, In p R -> lk ps (pstore p) = Some (Peer (pstore p) (pid p) Learner)) ->
  (forall p, In p R -> pstore p <> l) ->
  exists cv', plan_check g (reg ps l rg cv) (remove_steps R ++ rest) = plan_check g (reg (remove_all ps R) l rg cv') rest
              /\ Inv g (reg (remove_all ps R) l rg cv') /\ NJ (remove_all ps R).
Proof.
  induction R as [|p R IH]; intros ps l rg cv rest I Hnj Hnd HR Hl; cbn [remove_steps map app remove_all fold_left].
  - exists cv. auto.
  - destruct (pc_remove g (reg ps l rg cv) (pstore p) (pid p) Learner I Hnj (HR p (or_introl eq_refl)))
      as (E & I' & Hnj' & _).
    { cbn. intros C. apply (Hl p (or_introl eq_refl)). auto. }
    { cbn [new_voter prole b2z]. pose proof (inv_new _ _ I). lia. }
    cbn [reg set_peers peers leader conf_ver rng] in E, I', Hnj'.
    inversion Hnd as [|? ? Hn Hd]; subst.
    destruct (IH (remove_store ps (pstore p)) l rg (cv + 1) rest I' Hnj' Hd) as (cv' & E2 & I2 & Hnj2).
    { intros q Hq. rewrite lk_remove_store by (apply (inv_nd _ _ I)).
      destruct (pstore q =? pstore p) eqn:Eq; [apply Z.eqb_eq in Eq; exfalso; apply Hn; rewrite <- Eq; apply in_map; exact Hq|].
      apply HR. right. exact Hq. }
    { intros q Hq. apply Hl. right. exact Hq. }
    exists cv'. split; [|split; assumption]. etransitivity; [apply E|exact E2].
Qed.

Lemma enter_role_nil ps : map (enter_role [] []) ps = ps.
Proof. erewrite map_ext; [apply map_id|]. intros p. reflexivity. Qed.

Lemma leave_role_NJ ps : NJ ps -> map leave_role ps = ps.
Proof.
  intros H. erewrite map_ext_in; [apply map_id|]. intros p Hp. unfold leave_role. destruct (H p Hp) as [E|E]; rewrite E; reflexivity.
Qed.

Definition post_joint (P D : list (Z * Z)) (ps : list peer) : list peer := map leave_role (map (enter_role P D) ps).

Lemma count_joint_enter P D ps :
  ND ps -> NJ ps ->
  (forall x, In x P -> lk ps (fst x) = Some (Peer (fst x) (snd x) Learner)) ->
  (forall x, In x D -> lk ps (fst x) = Some (Peer (fst x) (snd x) Voter)) ->
  NoDup (map fst P) -> NoDup (map fst D) -> (forall x, In x D -> ~ In (fst x) (map fst P)) ->
  countb in_joint (map (enter_role P D) ps) = Z.of_nat (length P + length D).
Proof.
  intros Hnd Hnj HP HD HnP HnD Hdisj. rewrite countb_map.
  (* joint after entering = listed in P or in D *)
  rewrite (countb_ext _ (fun q => memst (pstore q) P || memst (pstore q) D)).
  2:{ intros q Hq. unfold enter_role. destruct (memst (pstore q) P); [reflexivity|]. destruct (memst (pstore q) D); [reflexivity|].
      unfold in_joint. destruct (Hnj q Hq) as [E|E]; rewrite E; reflexivity. }
  (* one peer per listed store *)
  assert (G : forall L, NoDup (map fst L) -> (forall x, In x L -> exists p, lk ps (fst x) = Some p) ->
                        countb (fun q => memst (pstore q) L) ps = Z.of_nat (length L)).
  { induction L as [|x L IH]; intros HnL HL.
    - apply countb_zero. reflexivity.
    - inversion HnL as [|? ? Hn Hd]; subst. cbn [length]. rewrite Nat2Z.inj_succ.
      rewrite <- (IH Hd (fun y Hy => HL y (or_intror Hy))).
      rewrite (countb_split (fun q => memst (pstore q) (x :: L)) (fun q => pstore q =? fst x)).
      destruct (HL x (or_introl eq_refl)) as (p & Hp).
      assert (E1 : countb (fun q => memst (pstore q) (x :: L) && (pstore q =? fst x)) ps = 1).
      { rewrite (countb_ext _ (on_store (fst x))).
        - clear - Hnd Hp. unfold countb. revert Hnd Hp. unfold ND, lk. induction ps as [|q r IHr]; cbn [map find filter]; intros Hnd Hp; [discriminate|].
          inversion Hnd as [|? ? Hn Hd]; subst. destruct (on_store (fst x) q) eqn:E.
          + cbn [length]. replace (filter (on_store (fst x)) r) with (@nil peer); [reflexivity|].
            symmetry. apply on_store_true in E. clear - Hn E. induction r as [|y r IH]; cbn [filter]; [reflexivity|].
            destruct (on_store (fst x) y) eqn:E2.
            * apply on_store_true in E2. exfalso. apply Hn. cbn. left. congruence.
            * apply IH. intros C. apply Hn. right. exact C.
          + apply IHr; assumption.
        - intros q _. unfold on_store, memst. cbn [existsb]. rewrite (Z.eqb_sym (fst x) (pstore q)).
          destruct (pstore q =? fst x); destruct (existsb (fun x0 : Z * Z => fst x0 =? pstore q) L); reflexivity. }
      assert (E2 : countb (fun q => memst (pstore q) (x :: L) && negb (pstore q =? fst x)) ps = countb (fun q => memst (pstore q) L) ps).
      { apply countb_ext. intros q _. unfold memst at 1. cbn [existsb]. fold (memst (pstore q) L). rewrite (Z.eqb_sym (fst x) (pstore q)).
        destruct (pstore q =? fst x) eqn:E; cbn [orb negb andb].
        - apply Z.eqb_eq in E. symmetry. apply memst_false. rewrite E. exact Hn.
        - rewrite andb_true_r. reflexivity. }
      rewrite E1, E2. lia. }
  rewrite (countb_split _ (fun q => memst (pstore q) P)).
  rewrite (countb_ext (fun q => (memst (pstore q) P || memst (pstore q) D) && memst (pstore q) P) (fun q => memst (pstore q) P)).
  2:{ intros q _. destruct (memst (pstore q) P), (memst (pstore q) D); reflexivity. }
  rewrite (countb_ext (fun q => (memst (pstore q) P || memst (pstore q) D) && negb (memst (pstore q) P)) (fun q => memst (pstore q) D)).
  2:{ intros q _. destruct (memst (pstore q) P) eqn:E1, (memst (pstore q) D) eqn:E2; cbn; try reflexivity.
      unfold memst in E1, E2. apply existsb_exists in E1 as (x & Hx & Hs1). apply existsb_exists in E2 as (y & Hy & Hs2).
      apply Z.eqb_eq in Hs1, Hs2. exfalso. apply (Hdisj y Hy). rewrite Hs2, <- Hs1. apply in_map. exact Hx. }
  rewrite (G P HnP), (G D HnD); [rewrite Nat2Z.inj_add; reflexivity| |]; intros x Hx; eexists; [apply HD|apply HP]; exact Hx.
Qed.

(* mid = None: no transfer inside; mid = Some tl: leadership goes to tl between enter and leave *)
Lemma pc_joint_mid g ps l rg cv P D (mid : option (Z * Z)) rest :
  Inv g (reg ps l rg cv) -> NJ ps ->
  (forall x, In x P -> lk ps (fst x) = Some (Peer (fst x) (snd x) Learner)) ->
  (forall x, In x D -> lk ps (fst x) = Some (Peer (fst x) (snd x) Voter)) ->
  NoDup (map fst P) -> NoDup (map fst D) -> (forall x, In x D -> ~ In (fst x) (map fst P)) ->
  g_min_voters g <= voters_new (map (enter_role P D) ps) ->
  match mid with
  | None => ~ In l (map fst D)
  | Some (from, tl) => In tl (map fst P) /\ tl <> l
  end ->
  let l' := match mid with None => l | Some (_, tl) => tl end in
  exists cv',
    plan_check g (reg ps l rg cv)
      (ChangePeerV2Enter P D :: (match mid with None => [] | Some (from, tl) => [TransferLeader from tl] end) ++ ChangePeerV2Leave P D :: rest)
    = plan_check g (reg (post_joint P D ps) l' rg cv') rest
    /\ Inv g (reg (post_joint P D ps) l' rg cv') /\ NJ (post_joint P D ps).
Proof.
  intros I Hnj HP HD HnP HnD Hdisj Hvn Hmid l'.
  assert (Hcase : P ++ D = [] \/ P ++ D <> []).
  { destruct P; [destruct D; [left; reflexivity|right; discriminate]|right; discriminate]. }
  destruct Hcase as [Hemp|Hne].
  - (* nothing to promote or demote: both steps are already finished *)
    apply app_eq_nil in Hemp as [-> ->].
    destruct mid as [[from tl]|]; [destruct Hmid as [[] _]|].
    exists cv. cbn [app]. rewrite pc_enter_empty, (pc_leave_empty g (reg ps l rg cv) rest Hnj).
    unfold post_joint. rewrite enter_role_nil, (leave_role_NJ _ Hnj). auto.
  - pose proof (pc_enter g (reg ps l rg cv) P D) as E.
    cbn [reg peers leader conf_ver rng set_peers] in E.
    set (ps3 := map (enter_role P D) ps) in *.
    assert (Hnd : ND ps) by (apply (inv_nd _ _ I)).
    assert (Hnd3 : ND ps3) by (apply ND_map; [intros q; apply enter_role_store|exact Hnd]).
    assert (Hlk3 : forall s, lk ps3 s = option_map (enter_role P D) (lk ps s)) by (intros s; apply lk_map; intros q; apply enter_role_store).
    assert (HP3 : forall x, In x P -> lk ps3 (fst x) = Some (Peer (fst x) (snd x) Incoming)).
    { intros x Hx. rewrite Hlk3, (HP x Hx). cbn [option_map]. unfold enter_role; cbn [pstore pid]. rewrite (memst_true _ P x Hx eq_refl). reflexivity. }
    assert (HD3 : forall x, In x D -> lk ps3 (fst x) = Some (Peer (fst x) (snd x) Demoting)).
    { intros x Hx. rewrite Hlk3, (HD x Hx). cbn [option_map]. unfold enter_role; cbn [pstore pid].
      rewrite (memst_false _ P (Hdisj x Hx)), (memst_true _ D x Hx eq_refl). reflexivity. }
    assert (Hcount : countb in_joint ps3 = Z.of_nat (length P + length D)) by (apply count_joint_enter; auto).
    destruct mid as [[from tl]|].
    + destruct Hmid as [HtlP Htl]. apply in_map_iff in HtlP as (x & Hxs & Hx).
      destruct (E I Hnj HP HD HnP HnD Hdisj Hne Hvn) as (E1 & I3).
      destruct (pc_transfer g _ from tl (Peer (fst x) (snd x) Incoming) I3) as (E2 & I3').
      { cbn [peers]. rewrite <- Hxs. apply HP3. exact Hx. }
      { right. reflexivity. }
      { cbn. auto. }
      cbn [set_leader peers leader conf_ver rng] in E2, I3'.
      destruct (pc_leave g _ P D I3') as (E3 & I4 & Hnj4).
      { cbn [peers]. exact HP3. }
      { cbn [peers]. exact HD3. }
      { unfold count_joint. cbn [peers]. exact Hcount. }
      { exact Hne. }
      { cbn [peers leader]. eexists. split; [rewrite <- Hxs; apply HP3; exact Hx|]. right. reflexivity. }
      cbn [set_peers peers leader conf_ver rng] in E3, I4, Hnj4.
      eexists. split; [|split; [exact I4|exact Hnj4]].
      cbn [app]. etransitivity; [apply E1|]. etransitivity; [apply E2|apply E3].
    + destruct (E I Hnj HP HD HnP HnD Hdisj Hne Hvn) as (E1 & I3).
      destruct (pc_leave g _ P D I3) as (E3 & I4 & Hnj4).
      { cbn [peers]. exact HP3. }
      { cbn [peers]. exact HD3. }
      { unfold count_joint. cbn [peers]. exact Hcount. }
      { exact Hne. }
      { unfold reg, set_peers; cbn [peers leader]. destruct (inv_leader _ _ I) as (lp & Hlp & Hll). unfold reg in Hlp; cbn [peers leader] in Hlp.
        exists (enter_role P D lp). split; [rewrite Hlk3, Hlp; reflexivity|].
        assert (Hs : pstore lp = l) by (apply lk_Some in Hlp; tauto).
        unfold enter_role. rewrite Hs. rewrite (memst_false _ D Hmid).
        destruct (memst l P) eqn:EP.
        - right. reflexivity.
        - left. destruct (Hnj lp (proj1 (lk_Some _ _ _ Hlp))) as [R|R]; [exact R|]. unfold is_learner in Hll. rewrite R in Hll. discriminate. }
      cbn [set_peers peers leader conf_ver rng] in E3, I4, Hnj4.
      eexists. split; [|split; [exact I4|exact Hnj4]].
      cbn [app]. etransitivity; [apply E1|apply E3].
Qed.

Inductive tmode := TBefore | TAfter | TInside | TStay.

Definition joint_plan (light : bool) (A : list peer) (P D : list (Z * Z)) (R : list peer) (m : tmode) (ol tl : Z) : list step :=
  add_steps light A
  ++ (match m with TBefore => [TransferLeader ol tl] | _ => [] end)
  ++ ChangePeerV2Enter P D
  :: (match m with TInside => [TransferLeader ol tl] | _ => [] end)
  ++ ChangePeerV2Leave P D
  :: (match m with TAfter => [TransferLeader ol tl] | _ => [] end)
  ++ remove_steps R.

Lemma final_ok g ps l rg cv :
  Inv g (reg ps l rg cv) -> NJ ps ->
  same_placement (placement ps) (g_target g) = true -> (g_leader g = 0 \/ g_leader g = l) ->
  plan_check g (reg ps l rg cv) [] = None.
Proof.
  intros I Hnj Hsp Hl. cbn [plan_check]. unfold final_violation, reg. cbn [peers leader]. rewrite Hsp. cbn [negb].
  assert (E : negb (g_leader g =? 0) && negb (l =? g_leader g) = false).
  { destruct Hl as [-> | ->]; [reflexivity|]. rewrite Z.eqb_refl. apply andb_false_r. }
  rewrite E. destruct (inv_leader _ _ I) as (p & Hp & Hlr). unfold reg in Hp; cbn [peers leader] in Hp.
  unfold get_store_peer; cbn [peers]. fold (lk ps l). rewrite Hp.
  destruct (Hnj p (proj1 (lk_Some _ _ _ Hp))) as [R|R]; unfold new_voter; rewrite R; [reflexivity|].
  unfold is_learner in Hlr. rewrite R in Hlr. discriminate.
Qed.

(* what the script needs of its parameters, whichever way the leader moves: the adds go to free stores; the promoted are
   learners and the demoted voters once the adds are there, on pairwise different stores; the removed are origin peers
   outside the target T, learners by the time they are removed *)
Record JointParams (ps0 : list peer) (T : pmap) (A : list peer) (P D : list (Z * Z)) (R : list peer) : Prop := {
  jp_A_nd : ND A;
  jp_A_fresh : forall a, In a A -> lk ps0 (pstore a) = None;
  jp_P : forall x, In x P -> lk (ps0 ++ map learner_of A) (fst x) = Some (Peer (fst x) (snd x) Learner);
  jp_D : forall x, In x D -> lk (ps0 ++ map learner_of A) (fst x) = Some (Peer (fst x) (snd x) Voter);
  jp_P_nd : NoDup (map fst P);
  jp_D_nd : NoDup (map fst D);
  jp_PD : forall x, In x D -> ~ In (fst x) (map fst P);
  jp_R_nd : ND R;
  jp_R : forall p, In p R -> lk (post_joint P D (ps0 ++ map learner_of A)) (pstore p) = Some (Peer (pstore p) (pid p) Learner);
  jp_R_origin : forall p, In p R -> lk ps0 (pstore p) = Some p /\ pm_get T (pstore p) = None
}.

Theorem joint_script_ok g ps0 T l0 rg cv light A P D R m tl :
  let ps1 := ps0 ++ map learner_of A in
  let ps4 := post_joint P D ps1 in
  let psF := remove_all ps4 R in
  ND ps0 -> NJ ps0 ->
  (exists lp, lk ps0 l0 = Some lp /\ prole lp = Voter) ->
  JointParams ps0 T A P D R ->
  (forall p, In p R -> pstore p <> tl) ->
  match m with
  | TStay => tl = l0 /\ ~ In l0 (map fst D)
  | TBefore => tl <> l0 /\ (exists q, lk ps1 tl = Some q /\ prole q = Voter) /\ ~ In tl (map fst D)
  | TAfter => tl <> l0 /\ ~ In l0 (map fst D) /\ (exists q, lk ps4 tl = Some q /\ prole q = Voter)
  | TInside => tl <> l0 /\ In tl (map fst P)
  end ->
  g_min_voters g <= voters_old ps0 -> g_min_voters g <= voters_new ps0 ->
  g_min_voters g <= voters_new (map (enter_role P D) ps1) ->
  same_placement (placement psF) (g_target g) = true ->
  (g_leader g = 0 \/ g_leader g = tl) ->
  forall ol, plan_check g (reg ps0 l0 rg cv) (joint_plan light A P D R m ol tl) = None.
Proof.
  intros ps1 ps4 psF Hnd0 Hnj0 (lp & Hlp & Hlrole) [HndA0 HA HP HD HnP HnD Hdisj HnR HR _] HRl Hmode Hvo Hvn Hvn3 Hsp Hgl ol.
  assert (HndA : ND (map learner_of A)) by (apply ND_map; [reflexivity|exact HndA0]).
  assert (I0 : Inv g (reg ps0 l0 rg cv)).
  { constructor; cbn [reg peers leader]; auto. exists lp. split; [exact Hlp|]. unfold is_learner. rewrite Hlrole. reflexivity. }
  unfold joint_plan.
  destruct (pc_adds g light A ps0 l0 rg cv
              ((match m with TBefore => [TransferLeader ol tl] | _ => [] end)
               ++ ChangePeerV2Enter P D :: (match m with TInside => [TransferLeader ol tl] | _ => [] end)
               ++ ChangePeerV2Leave P D :: (match m with TAfter => [TransferLeader ol tl] | _ => [] end) ++ remove_steps R)
              I0 Hnj0 HndA HA) as (cv1 & E1 & I1 & Hnj1).
  fold ps1 in E1, I1, Hnj1. rewrite E1. clear E1.
  assert (Fin : forall cvx, Inv g (reg ps4 tl rg cvx) -> NJ ps4 ->
                 plan_check g (reg ps4 tl rg cvx) (remove_steps R) = None).
  { intros cvx I4 Hnj4.
    destruct (pc_removes g R ps4 tl rg cvx [] I4 Hnj4 HnR HR HRl) as (cvF & EF & IF & HnjF).
    rewrite app_nil_r in EF. rewrite EF. fold psF. apply final_ok; auto. }
  destruct m.
  - destruct Hmode as (Hne & (q & Hq & Hqr) & HtlD).
    destruct (pc_transfer g (reg ps1 l0 rg cv1) ol tl q I1) as (E2 & I2).
    { exact Hq. } { left. exact Hqr. } { cbn. auto. }
    cbn [app]. rewrite E2. clear E2. unfold reg, set_leader in I2 |- *. cbn [peers leader conf_ver rng] in I2 |- *.
    destruct (pc_joint_mid g ps1 tl rg cv1 P D None (remove_steps R) I2 Hnj1 HP HD HnP HnD Hdisj Hvn3 HtlD) as (cv4 & E3 & I4 & Hnj4).
    cbn [app] in E3. unfold reg in E3. rewrite E3. apply Fin; auto.
  - destruct Hmode as (Hne & Hl0D & (q & Hq & Hqr)).
    destruct (pc_joint_mid g ps1 l0 rg cv1 P D None ([TransferLeader ol tl] ++ remove_steps R) I1 Hnj1 HP HD HnP HnD Hdisj Hvn3 Hl0D)
      as (cv4 & E3 & I4 & Hnj4).
    cbn [app] in E3 |- *. rewrite E3. clear E3. fold ps4 in I4, Hnj4 |- *.
    destruct (pc_transfer g (reg ps4 l0 rg cv4) ol tl q I4) as (E4 & I5).
    { exact Hq. } { left. exact Hqr. } { cbn. auto. }
    rewrite E4. unfold reg, set_leader in I5 |- *. cbn [peers leader conf_ver rng] in I5 |- *. apply (Fin cv4); auto.
  - destruct Hmode as (Hne & HtlP).
    destruct (pc_joint_mid g ps1 l0 rg cv1 P D (Some (ol, tl)) (remove_steps R) I1 Hnj1 HP HD HnP HnD Hdisj Hvn3 (conj HtlP Hne))
      as (cv4 & E3 & I4 & Hnj4).
    cbn [app] in E3 |- *. rewrite E3. apply Fin; auto.
  - destruct Hmode as (-> & Hl0D).
    destruct (pc_joint_mid g ps1 l0 rg cv1 P D None (remove_steps R) I1 Hnj1 HP HD HnP HnD Hdisj Hvn3 Hl0D) as (cv4 & E3 & I4 & Hnj4).
    cbn [app] in E3 |- *. rewrite E3. apply Fin; auto.
Qed.
