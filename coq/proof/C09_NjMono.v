(* C09 — the plans of the builder's NON-joint path (buildStepsWithoutJointConsensus) never lower what an earlier
   step counts in ConfVerChanged, in general: an invariant of the loop (every emitted step's store has no work left
   that could undo it) gives the syntactic criterion of proof/C09_Tidy.v. *)
From PDV Require Import lib.Base model.C08_Steps model.C08_Builder proof.C08_ListFacts proof.C08_PlanProof proof.C08_PmapFacts
     proof.C08_JointMain proof.C08_NjSteps proof.C08_NjApply proof.C08_NjMain proof.C09_CountProof
     proof.C09_OwnGeneral proof.C09_Tidy proof.C09_BuilderMono.
Local Open Scope list_scope.
Local Open Scope Z_scope.

Definition Quiet (b : bstate) (st : Z) : Prop :=
  pm_get (b_add b) st = None /\ pm_get (b_remove b) st = None /\ pm_get (b_promote b) st = None /\ pm_get (b_demote b) st = None.

(* an emitted step is settled: what is still pending cannot touch what it counts *)
Definition Settled (b : bstate) (x : step) : Prop :=
  match x with
  | TransferLeader _ _ => True
  | AddLearner st _ | AddLightLearner st _ | PromoteLearner st _ | DemoteFollower st _ => Quiet b st
  | RemovePeer st id =>
      id <> 0 /\ pm_get (b_remove b) st = None /\ pm_get (b_promote b) st = None /\ pm_get (b_demote b) st = None
      /\ forall a, pm_get (b_add b) st = Some a -> is_learner a = true /\ pid a <> id
  | _ => False
  end.

(* the next step works on something that is pending *)
Definition Busy (b : bstate) (s : step) : Prop :=
  match s with
  | TransferLeader _ _ => True
  | AddLearner st id | AddLightLearner st id => exists a, pm_get (b_add b) st = Some a /\ pid a = id
  | PromoteLearner st _ => pm_get (b_promote b) st <> None
  | DemoteFollower st _ => pm_get (b_demote b) st <> None
  | RemovePeer st _ => pm_get (b_remove b) st <> None
  | _ => False
  end.

(* the invariant of the non-joint loop: what has been emitted is settled, names non-zero ids and is tidy *)
Record NjM (b : bstate) : Prop := {
  m_settled : forall x, In x (b_steps b) -> Settled b x;
  m_ids : forallb step_ids_nonzero (b_steps b) = true;
  m_tidy : tidy_from [] (b_steps b) = true;
  m_cur : forall st o, pm_get (b_cur b) st = Some o -> pid o <> 0;
  m_add : forall a, In a (b_add b) -> pid a <> 0
}.

Definition Shrink (b b' : bstate) : Prop := forall st,
  (pm_get (b_add b') st = None \/ pm_get (b_add b') st = pm_get (b_add b) st)
  /\ (pm_get (b_remove b') st = None \/ pm_get (b_remove b') st = pm_get (b_remove b) st)
  /\ (pm_get (b_promote b') st = None \/ pm_get (b_promote b') st = pm_get (b_promote b) st)
  /\ (pm_get (b_demote b') st = None \/ pm_get (b_demote b') st = pm_get (b_demote b) st).

Lemma quiet_shrink b b' st : Shrink b b' -> Quiet b st -> Quiet b' st.
Proof.
  intros H (A & R & P & D). destruct (H st) as ([A'|A'] & [R'|R'] & [P'|P'] & [D'|D']); unfold Quiet; repeat split; congruence.
Qed.

Lemma settled_shrink b b' x : Shrink b b' -> Settled b x -> Settled b' x.
Proof.
  intros H S. destruct x; cbn [Settled] in *; try exact S; try (eapply quiet_shrink; eassumption).
  destruct S as (Z0 & R & P & D & A).
  match type of R with pm_get _ ?st = None => destruct (H st) as (A' & [R'|R'] & [P'|P'] & [D'|D']) end.
  all: split; [exact Z0|split; [congruence|split; [congruence|split; [congruence|]]]].
  all: intros a Ha; destruct A' as [A'|A']; [congruence|apply A; congruence].
Qed.

Lemma shrink_same_pending b b' :
  b_add b' = b_add b -> b_remove b' = b_remove b -> b_promote b' = b_promote b -> b_demote b' = b_demote b -> Shrink b b'.
Proof. intros E1 E2 E3 E4 st. rewrite E1, E2, E3, E4. auto. Qed.

Lemma compat_other_store x s xs st : step_store x = Some xs -> step_store s = Some st -> xs <> st -> compat x s = true.
Proof.
  intros Hx Hs Hne. apply Z.eqb_neq in Hne.
  destruct x; cbn [step_store] in Hx; try discriminate Hx; inv Hx;
    destruct s; cbn [step_store] in Hs; try discriminate Hs; inv Hs; cbn [compat step_store]; rewrite Hne; reflexivity.
Qed.

(* a busy step has something pending on its store *)
Lemma busy_not_quiet b s st : Busy b s -> step_store s = Some st -> ~ Quiet b st.
Proof.
  intros B Hs (A & R & P & D).
  destruct s; cbn [step_store] in Hs; try discriminate Hs; inv Hs; cbn [Busy] in B; try contradiction;
    try (destruct B as (a & Ha & _)); congruence.
Qed.

Lemma compat_new b x s : Settled b x -> Busy b s -> compat x s = true.
Proof.
  intros S B.
  destruct (step_class s) as [(st & Hs)|[(pl & dv & [-> | ->])|Hs]]; [|contradiction B..|].
  2:{ (* of the steps without a store only a transfer is emitted *) destruct s; try contradiction. apply compat_transfer. }
  destruct (step_class x) as [(xs & Hx)|[(pl & dv & [-> | ->])|Hx]]; [|contradiction S..|].
  2:{ destruct x; try contradiction; reflexivity. }
  destruct (Z.eq_dec xs st) as [->|Ne]; [|apply (compat_other_store x s xs st Hx Hs Ne)].
  destruct x; cbn [step_store] in Hx; try discriminate Hx; inv Hx; cbn [Settled] in S; try contradiction;
    (* x an add, a promotion or a demotion: its store is quiet, so s has nothing pending there *)
    try (exfalso; exact (busy_not_quiet b s st B Hs S)).
  (* x a removal: all that can still be pending on its store is a learner with another id *)
  destruct S as (Z0 & R & P & D & A).
  destruct s; cbn [step_store] in Hs; try discriminate Hs; inv Hs; cbn [Busy] in B; try contradiction; try congruence;
    destruct B as (a & Ha & <-); destruct (A a Ha) as [_ Hne]; cbn [compat step_store]; rewrite Z.eqb_refl; cbn [negb orb];
    apply andb_true_iff; split; apply negb_true_iff, Z.eqb_neq; assumption.
Qed.

(* the promotion that completes the addition of a voter *)
Lemma compat_new_voter b x a :
  Settled b x -> pm_get (b_add b) (pstore a) = Some a -> is_learner a = false ->
  compat x (PromoteLearner (pstore a) (pid a)) = true.
Proof.
  intros S Ha Hl.
  destruct (step_class x) as [(xs & Hx)|[(pl & dv & [-> | ->])|Hx]]; [|contradiction S..|destruct x; try contradiction; reflexivity].
  destruct (Z.eq_dec xs (pstore a)) as [->|Ne]; [|apply (compat_other_store x (PromoteLearner (pstore a) (pid a)) xs (pstore a) Hx eq_refl Ne)].
  (* on a's store an add is pending, so it is not quiet; after a removal only a learner may be pending, and a is none *)
  destruct x; cbn [step_store] in Hx; try discriminate Hx; inv Hx; cbn [Settled] in S; try contradiction;
    try (destruct S as (A & _); congruence).
  destruct S as (_ & _ & _ & _ & A). destruct (A a Ha) as [C _]. congruence.
Qed.

Lemma NjM_same b b' :
  b_steps b' = b_steps b -> b_cur b' = b_cur b -> b_add b' = b_add b -> b_remove b' = b_remove b ->
  b_promote b' = b_promote b -> b_demote b' = b_demote b -> NjM b -> NjM b'.
Proof.
  intros E1 E2 E3 E4 E5 E6 [M1 M2 M3 M4 M5]. constructor; rewrite ?E1, ?E2, ?E3; try assumption.
  intros x Hx. apply (settled_shrink b b'); [apply shrink_same_pending; assumption|apply M1; exact Hx].
Qed.

Lemma njm_extend b b' ss :
  b_steps b' = b_steps b ++ ss -> Shrink b b' ->
  (forall s, In s ss -> Settled b' s) ->
  forallb step_ids_nonzero ss = true ->
  tidy_from (b_steps b) ss = true ->
  (forall st o, pm_get (b_cur b') st = Some o -> pid o <> 0) ->
  (forall a, In a (b_add b') -> pid a <> 0) ->
  NjM b -> NjM b'.
Proof.
  intros E Sh Hs Hz Ht Hc Ha [M1 M2 M3 M4 M5]. constructor; try assumption.
  - intros x Hx. rewrite E in Hx. apply in_app_or in Hx as [Hx|Hx]; [apply (settled_shrink b b' x Sh), M1; exact Hx|apply Hs; exact Hx].
  - rewrite E, forallb_app, M2, Hz. reflexivity.
  - rewrite E, tidy_from_app, M3. cbn [app andb]. exact Ht.
Qed.

Lemma njm_transfer b to : NjM b -> NjM (exec_transfer b to).
Proof.
  intros M. apply (njm_extend b _ [TransferLeader (b_cur_leader b) to]); try reflexivity; try exact M.
  - apply shrink_same_pending; reflexivity.
  - intros s [<-|[]]. exact I.
  - rewrite tidy_from_one. apply forallb_forall. intros x _. apply compat_transfer.
  - apply (m_cur _ M).
  - apply (m_add _ M).
Qed.

Lemma NoDup_app_disjoint {A} (l m : list A) x : NoDup (l ++ m) -> In x l -> In x m -> False.
Proof.
  induction l as [|y l IH]; intros H Hl Hm; [contradiction|]. cbn [app] in H. inversion H as [|? ? Hn Hd]; subst.
  destruct Hl as [->|Hl]; [apply Hn, in_or_app; right; exact Hm|exact (IH Hd Hl Hm)].
Qed.

Lemma pm_del_In (m : pmap) st a : In a (pm_del m st) -> In a m.
Proof. unfold pm_del. intros H. apply filter_In in H. tauto. Qed.

Section Steps.
  Variables (T : pmap) (g : goal) (r0 : region).

  Lemma njm_add b a :
    PInv T b -> pm_get (b_add b) (pstore a) = Some a -> pm_get (b_cur b) (pstore a) = None ->
    NjM b -> NjM (exec_add b a).
  Proof.
    intros P Ha Hc M. destruct P as [P1 P2 P3 P4 P5 P6].
    set (st := pstore a) in *.
    pose proof (P6 st) as Q. unfold look, PIat in Q. rewrite Hc, Ha in Q.
    destruct Q as (Qp & Qd & Qr & Qa & Qf & Qc).
    destruct (Qa a eq_refl) as (_ & Hnz & Hro & Hp0 & Hd0 & _).
    assert (Hr0 : pm_get (b_remove b) st = None).
    { destruct (pm_get (b_remove b) st) as [x|] eqn:E; [|reflexivity]. destruct (Qr x eq_refl) as (C & _). discriminate. }
    assert (Hin : In a (b_add b)) by (apply (lk_Some _ _ _ Ha)).
    assert (Hida : pid a <> 0) by (apply (m_add _ M); exact Hin).
    assert (Hq : Quiet (exec_add b a) st).
    { unfold Quiet. cbn [exec_add upd_exec b_add b_remove b_promote b_demote]. rewrite (get_del _ _ _ P2). fold st.
      rewrite Z.eqb_refl. auto. }
    assert (Hsh : Shrink b (exec_add b a)).
    { intros s. cbn [exec_add upd_exec b_add b_remove b_promote b_demote]. rewrite (get_del _ _ _ P2). fold st.
      destruct (s =? st); auto. }
    assert (Hz : negb (pid a =? 0) = true) by (apply negb_true_iff, Z.eqb_neq; exact Hida).
    set (s1 := if b_light b then AddLightLearner st (pid a) else AddLearner st (pid a)).
    assert (Hc1 : forallb (fun x => compat x s1) (b_steps b) = true).
    { apply forallb_forall. intros x Hx. apply (compat_new b); [apply (m_settled _ M); exact Hx|].
      unfold s1. destruct (b_light b); cbn [Busy]; exists a; auto. }
    apply (njm_extend b _ (if is_learner a then [s1] else [s1; PromoteLearner st (pid a)])); try exact M; try exact Hsh.
    - cbn [exec_add upd_exec b_steps]. fold st. fold s1. reflexivity.
    - intros s Hs. destruct (is_learner a); unfold s1 in Hs; destruct (b_light b); cbn [In] in Hs;
        repeat match goal with H : _ \/ _ |- _ => destruct H as [H|H] end; try contradiction; subst s; exact Hq.
    - destruct (is_learner a); unfold s1; destruct (b_light b); cbn [forallb step_ids_nonzero]; rewrite Hz; reflexivity.
    - destruct (is_learner a) eqn:El.
      + rewrite tidy_from_one. exact Hc1.
      + cbn [tidy_from]. rewrite Hc1. cbn [andb]. rewrite andb_true_r.
        rewrite forallb_app. apply andb_true_iff. split.
        * apply forallb_forall. intros x Hx. apply (compat_new_voter b); [apply (m_settled _ M); exact Hx|exact Ha|exact El].
        * unfold s1. destruct (b_light b); cbn [forallb compat step_store]; rewrite Z.eqb_refl; reflexivity.
    - intros s o. cbn [exec_add upd_exec b_cur]. rewrite get_set. fold st. destruct (s =? st).
      + intros H; inversion H; subst o. exact Hida.
      + apply (m_cur _ M).
    - intros a' H'. cbn [exec_add upd_exec b_add] in H'. apply pm_del_In in H'. apply (m_add _ M). exact H'.
  Qed.

  Lemma njm_promote b n :
    PInv T b -> pm_get (b_promote b) (pstore n) = Some n -> NjM b -> NjM (exec_promote b n).
  Proof.
    intros P Hn M. destruct P as [P1 P2 P3 P4 P5 P6].
    set (st := pstore n) in *.
    pose proof (P6 st) as Q. unfold look in Q.
    destruct (PIat_promote _ _ _ _ _ _ _ _ Q Hn) as (Ha0 & Hr0 & Hd0 & o & Ho & Hro & En).
    assert (Hid : pid n <> 0) by (rewrite En; cbn [pid]; apply (m_cur _ M st o Ho)).
    apply (njm_extend b _ [PromoteLearner st (pid n)]); try exact M; try reflexivity.
    - intros s. cbn [exec_promote upd_exec b_add b_remove b_promote b_demote]. rewrite (get_del _ _ _ P4). fold st. destruct (s =? st); auto.
    - intros s [<-|[]]. unfold Settled, Quiet. cbn [exec_promote upd_exec b_add b_remove b_promote b_demote].
      rewrite (get_del _ _ _ P4). fold st. rewrite Z.eqb_refl. auto.
    - cbn [forallb step_ids_nonzero]. rewrite (proj2 (Z.eqb_neq _ _) Hid). reflexivity.
    - rewrite tidy_from_one. apply forallb_forall. intros x Hx. apply (compat_new b); [apply (m_settled _ M); exact Hx|].
      cbn [Busy]. congruence.
    - intros s o'. cbn [exec_promote upd_exec b_cur]. rewrite get_set. fold st. destruct (s =? st).
      + intros H; inversion H; subst o'. exact Hid.
      + apply (m_cur _ M).
    - apply (m_add _ M).
  Qed.

  Lemma njm_demote b n :
    PInv T b -> pm_get (b_demote b) (pstore n) = Some n -> NjM b -> NjM (exec_demote b n).
  Proof.
    intros P Hn M. destruct P as [P1 P2 P3 P4 P5 P6].
    set (st := pstore n) in *.
    pose proof (P6 st) as Q. unfold look in Q.
    destruct (PIat_demote _ _ _ _ _ _ _ _ Q Hn) as (Ha0 & Hr0 & Hp0 & o & Ho & Hro & En).
    assert (Hid : pid n <> 0) by (rewrite En; cbn [pid]; apply (m_cur _ M st o Ho)).
    apply (njm_extend b _ [DemoteFollower st (pid n)]); try exact M; try reflexivity.
    - intros s. cbn [exec_demote upd_exec b_add b_remove b_promote b_demote]. rewrite (get_del _ _ _ P5). fold st. destruct (s =? st); auto.
    - intros s [<-|[]]. unfold Settled, Quiet. cbn [exec_demote upd_exec b_add b_remove b_promote b_demote].
      rewrite (get_del _ _ _ P5). fold st. rewrite Z.eqb_refl. auto.
    - cbn [forallb step_ids_nonzero]. rewrite (proj2 (Z.eqb_neq _ _) Hid). reflexivity.
    - rewrite tidy_from_one. apply forallb_forall. intros x Hx. apply (compat_new b); [apply (m_settled _ M); exact Hx|].
      cbn [Busy]. congruence.
    - intros s o'. cbn [exec_demote upd_exec b_cur]. rewrite get_set. fold st. destruct (s =? st).
      + intros H; inversion H; subst o'. exact Hid.
      + apply (m_cur _ M).
    - apply (m_add _ M).
  Qed.

  Lemma njm_remove b r x :
    Sim g r0 b r -> PInv T b -> pm_get (b_remove b) (pstore x) = Some x -> NjM b -> NjM (exec_remove b x).
  Proof.
    intros S P Hx M. destruct S as [S1 S2 S3 S4 S5 S6]. destruct P as [P1 P2 P3 P4 P5 P6].
    set (st := pstore x) in *.
    pose proof (P6 st) as Q. unfold look, PIat in Q. rewrite Hx in Q.
    destruct Q as (Qp & Qd & Qr & Qa & Qf & Qc).
    destruct (Qr x eq_refl) as (Hc & Hp0 & Hd0). rewrite Hc, Hp0, Hd0 in *.
    assert (Hid : pid x <> 0) by (apply (m_cur _ M st x Hc)).
    apply (njm_extend b _ [RemovePeer st (pid x)]); try exact M; try reflexivity.
    - intros s. cbn [exec_remove upd_exec b_add b_remove b_promote b_demote]. rewrite (get_del _ _ _ P3). fold st. destruct (s =? st); auto.
    - intros s [<-|[]]. cbn [Settled exec_remove upd_exec b_add b_remove b_promote b_demote].
      rewrite (get_del _ _ _ P3). fold st. rewrite Z.eqb_refl.
      split; [exact Hid|split; [reflexivity|split; [exact Hp0|split; [exact Hd0|]]]].
      intros a Ha. destruct (Qa a Ha) as (_ & _ & _ & _ & _ & [C|[_ Hl]]); [discriminate|].
      split; [unfold is_learner; rewrite Hl; reflexivity|].
      intros E. assert (Hinx : In (pid x) (map pid (peers r))).
      { apply in_map. apply (lk_Some (peers r) st x). rewrite S4. exact Hc. }
      assert (Hina : In (pid a) (map pid (b_add b))) by (apply in_map; apply (lk_Some _ _ _ Ha)).
      rewrite E in Hina. exact (NoDup_app_disjoint _ _ _ S6 Hinx Hina).
    - rewrite tidy_from_one. apply forallb_forall. intros y Hy. apply (compat_new b); [apply (m_settled _ M); exact Hy|].
      cbn [Busy]. congruence.
    - intros s o'. cbn [exec_remove upd_exec b_cur]. rewrite (get_del _ _ _ P1). fold st. destruct (s =? st); [discriminate|apply (m_cur _ M)].
    - apply (m_add _ M).
  Qed.
End Steps.

Lemma njm_kinds b kl kr : NjM b -> NjM (set_kinds b kl kr).
Proof. apply NjM_same; reflexivity. Qed.

Lemma NjM_closed T g r0 : NjClosed T g r0 NjM.
Proof.
  constructor.
  - apply njm_kinds.
  - apply njm_transfer.
  - intros b r a _. apply njm_add.
  - intros b r n _. apply njm_promote.
  - intros b r n _. apply njm_demote.
  - intros b r x. apply njm_remove.
Qed.

Lemma settled_bracketed b : forall l, (forall x, In x l -> Settled b x) -> bracketed None l = true.
Proof.
  induction l as [|s l IH]; intros H; [reflexivity|]. cbn [bracketed].
  assert (Hs : Settled b s) by (apply H; left; reflexivity).
  destruct s; cbn [Settled] in Hs; try contradiction; cbn [br_ok br_next andb]; apply IH; intros x Hx; apply H; right; exact Hx.
Qed.

Theorem builder_nonjoint_monotone_pf i b ss kl kr :
  nodup_stores (peers (i_region i)) = true ->
  is_in_joint (i_region i) = false ->
  (exists lp, get_store_peer (i_region i) (leader (i_region i)) = Some lp /\ prole lp = Voter) ->
  region_ids_nonzero (i_region i) = true -> (forall a, In a (b_add b) -> pid a <> 0) ->
  prepared i = Some b -> b_use_joint b = false ->
  NoDup (map pid (peers (i_region i)) ++ map pid (b_add b)) ->
  build i = Built ss kl kr ->
  monotone_from [] (i_region i) ss = true.
Proof.
  intros Hnd Hnj Hlead Hidz Haz Hprep Huj Hids Hbuild.
  pose proof (plan_ok_check _ _ _ (builder_nonjoint_plan_ok_general_pf i b ss kl kr Hnd Hnj Hlead Hprep Huj Hids Hbuild)) as Hpc.
  pose proof (prepared_prep i b Hnd Hnj Hlead Hprep) as P.
  pose proof (build_of_prepared _ _ _ _ _ Hprep Hbuild) as B. rewrite Huj in B. destruct B as (bF & Eloop & ->).
  destruct (nonjoint_initial i b P Hids) as [S0 P0].
  set (g := goal_of b) in *. set (r0 := i_region i) in *.
  assert (HTv : g_min_voters g <= voters_new (b_target b)) by (unfold g, goal_of; cbn [g_min_voters]; lia).
  assert (M0 : NjM b).
  { constructor.
    - rewrite (pp_steps _ _ P). intros x [].
    - rewrite (pp_steps _ _ P). reflexivity.
    - rewrite (pp_steps _ _ P). reflexivity.
    - intros st o Ho. rewrite (pp_cur _ _ P), (pp_origin _ _ P), (pm_of_list_get _ _ (pp_nd _ _ P)) in Ho.
      unfold region_ids_nonzero in Hidz. rewrite forallb_forall in Hidz.
      specialize (Hidz o (proj1 (lk_Some _ _ _ Ho))). apply negb_true_iff, Z.eqb_neq in Hidz. exact Hidz.
    - exact Haz. }
  destruct (loop_ok (b_target b) g r0 NjM (NjM_closed _ _ _) (pp_Ts _ _ P) (pp_Tnj _ _ P) HTv _ _ _ _ S0 P0 M0 Eloop) as (rF & _ & _ & MF & _).
  assert (M3 : NjM (nj_finish bF)).
  { unfold nj_finish.
    assert (M2 : NjM (set_target_leader_if_not_exist bF)).
    { unfold set_target_leader_if_not_exist. destruct (negb (b_tleader bF =? 0)); [exact MF|].
      eapply NjM_same; [..|exact MF]; reflexivity. }
    match goal with |- NjM (if ?c then _ else _) => destruct c end; [|exact M2].
    apply njm_kinds, njm_transfer. exact M2. }
  set (b3 := nj_finish bF) in *.
  apply (tidy_monotone g _ [] r0 None); auto.
  - apply (pp_nj _ _ P).
  - apply (settled_bracketed b3). apply (m_settled _ M3).
  - apply (m_ids _ M3).
  - apply (m_tidy _ M3).
Qed.
