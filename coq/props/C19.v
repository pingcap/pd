(* C19 — DR auto-sync only declares 'sync' when every region is in sync.
   Statements with short derivations from proof/C19_DrSyncProof.v (the cases of `switch`, which state a tick can enter, the
   scan invariant, the invariants of ids and files along histories); structural obligations in proof/C19_Skel.v.
   Quantification: `s` is ANY model state, `f` ANY fault (a failing SaveReplicationStatus, not applied or
   applied-but-error, at the 1st, 2nd, ... save of the operation; a failing FileReplicater); the history statements
   quantify over every list of operations (ticks, UpdateConfig calls, region layouts and status reports of any shape
   — gaps, stale ids, any number of regions — store up/down events) from every boot situation and every scan batch size.

   Our reading of the statement (DESIGN.md 5/C19): the three clauses about *when* a transition happens are about
   the store-status-driven transitions of tickDR.  UpdateConfig has two transitions of its own with their own
   guards (majority -> dr-auto-sync enters sync_recover; a new label key enters async); they are in the model
   (update_config), they go through the same `switch` (fresh id, persisted and offered before served, failed persist
   keeps the state), and they can only make the state MORE conservative (never declare sync). *)
From Coq Require Import String.
From PDV Require Import lib.Base gen.Gen_C19 model.C19_DrSync proof.C19_DrSyncProof proof.C19_Skel.
Local Open Scope string_scope.
Local Open Scope Z_scope.

(* to async only when the failed stores of one datacenter reached its replica count (not can_sync) while a majority
   of all replicas can still be up, and the wait timeout has passed *)
Theorem C19_async_only_when :
  forall s f, in_state s Async = false -> in_state (tick s f) Async = true ->
    cs_of s = false /\ hm_of s = true /\ async_ok s = true.
Proof. intros s f. exact (tick_enters s f Async). Qed.

(* to sync_recover only from async and only when both datacenters have fewer failed stores than replicas *)
Theorem C19_recover_only_when :
  forall s f, in_state s SyncRecover = false -> in_state (tick s f) SyncRecover = true ->
    cs_of s = true /\ in_state s Async = true.
Proof. intros s f. exact (tick_enters s f SyncRecover). Qed.

(* sync_recover -> sync only after every region, contiguous over the whole key space, reported integrity under the
   current state id: at the tick that declares sync (from any state reachable in any history) the regions the
   cursor has passed (ghost `chain`) are non-empty, lead from "" to "" without a gap, each carries integrity under
   one and the same id sid — the id of the sync_recover status — and each was taken from the region cache of the
   tick that passed it (C19_chain_from_cache) *)
Theorem C19_sync_only_after_full_scan :
  forall b ops f,
    let s := reach b ops in
    in_state s Sync = false -> in_state (tick s f) Sync = true ->
    exists sid, let ch := chain (tick s f) in
      ch <> [] /\ path (rev ch) "" "" /\ Forall (good sid) ch /\
      (forall r, In r ch -> In r (chain s) \/ In r (regions s)) /\
      (in_state s SyncRecover = true -> sid = cur_id s).
Proof. intros b ops f s. apply sync_only_after_full_scan, scan_inv_reach. Qed.

Theorem C19_chain_from_cache :
  forall s o s' r0 r, run_cmd s o = (s', r0) -> scan_inv s -> In r (chain s') ->
    In r (chain s) \/ (In r (regions s) /\ exists f, o = OTick f).
Proof.
  intros s o s' r0 r.
  destruct o as [f|c f|l|rid sid integ|id down|dt|mid]; cbn [run_cmd]; intros H I Hin; try (inv H; left; exact Hin).
  - inv H. destruct (tick_chain _ _ _ I Hin); eauto.
  - left. destruct (update_config s c f) as [s2 ok] eqn:Eu. inv H.
    destruct (update_config_chain s c f) as [X|X]; rewrite Eu in X; cbn [fst] in X; rewrite X in Hin; [exact Hin|contradiction].
Qed.

(* every transition carries a fresh state id: the published ids of any history are pairwise distinct and all below
   the allocator's next id; a successful switch publishes an id larger than everything published before.
   Hypothesis boot_ok: the id stored at start-up is below the allocator's next id (that is C04). *)
Theorem C19_state_id_fresh :
  forall b ops, boot_ok (b_st b) (b_id0 b) ->
    NoDup (used (reach b ops)) /\ (forall x, served (reach b ops) = Some x -> In (st_id x) (used (reach b ops))) /\
    (forall i, In i (used (reach b ops)) -> i < next_id (reach b ops)).
Proof. intros b ops Hb. destruct (id_inv_reach b ops Hb) as [L N Sv _ _ _]. auto. Qed.
Theorem C19_switch_publishes_fresh_id :
  forall st0 s t f i s', id_inv st0 s -> switch s t f i = (s', true) ->
    exists x, served s' = Some x /\ ~ In (st_id x) (used s) /\ (forall y, served s = Some y -> st_id y < st_id x).
Proof.
  intros st0 s t f i s' [L N Sv _ _ _] H. destruct (switch_ok _ _ _ _ _ H) as [_ ->].
  eexists; split; [reflexivity|]. cbn. split.
  - intros Hin. specialize (L _ Hin). lia.
  - intros y Hy. apply L, Sv, Hy.
Qed.

(* persisted (and offered to all members) before it is served: at the one place where a status is published ... *)
Theorem C19_publish_after_persist_and_offer :
  forall s t f i s', switch s t f i = (s', true) ->
    exists st, served s' = Some st /\ stored s' = Some st /\ hd_error (files s') = Some st /\
               st = Status t (next_id s) /\ snd (wr f i) = true.
Proof.
  intros s t f i s' H. destruct (switch_ok _ _ _ _ _ H) as [W ->].
  exists (Status t (next_id s)). repeat split; assumption || reflexivity.
Qed.
(* ... and along every history: what is served is in storage (or storage holds a newer status whose save was applied
   but reported failed) and was handed to the file replicater, unless it is the status loaded at start-up *)
Theorem C19_persist_before_serve :
  forall b ops x, boot_ok (b_st b) (b_id0 b) -> served (reach b ops) = Some x ->
    (exists y, stored (reach b ops) = Some y /\ st_id x <= st_id y /\ (st_id x = st_id y -> x = y)) /\
    (In x (files (reach b ops)) \/ b_st b = Some x).
Proof. intros b ops x Hb Hx. destruct (id_inv_reach b ops Hb) as [_ _ _ _ P O]. auto. Qed.

(* a failed persist leaves the served state unchanged (every transition goes through `switch`: proof/C19_Skel.v) *)
Theorem C19_failed_persist_keeps_state :
  forall s t f i, snd (wr f i) = false -> served (fst (switch s t f i)) = served s.
Proof. intros s t f i H. destruct (switch_cases s t f i) as [E|[[W E]|(_&st'&_&E)]]; rewrite E; [reflexivity|congruence|reflexivity]. Qed.
Theorem C19_failed_config_switch_keeps_state_and_config :
  forall s c f s', update_config s c f = (s', false) -> served s' = served s /\ cfg s' = cfg s.
Proof. exact update_config_failed. Qed.

(* a failing AllocID ends the transition before anything happened: no id spent, no file, no save, nothing served *)
Theorem C19_failed_alloc_keeps_everything :
  forall s t f i, alloc_fails f i = true -> switch s t f i = (s, false).
Proof. intros s t f i H. unfold switch. rewrite H. reflexivity. Qed.

(* ---------- non-vacuity: dr datacenter lost, async, back, recovery over two ticks with a stale region, sync ---------- *)
Definition ex_boot : bootp :=
  Boot (Config true "zone" 2 1 0) None 10
       [Region 1 "" "k" 0 false; Region 2 "k" "" 0 false]
       [Store 1 "zone" Primary false false; Store 2 "zone" Primary false false; Store 3 "zone" Dr false false] 1.
Definition ex_ops : list op :=
  [OStore 3 true; OTick (Fault (Some (0%nat, FBefore)) false None); OTick no_fault;      (* async 12 (11 was spent on the failed save) *)
   OStore 3 false; OTick no_fault;                                                  (* sync_recover 13 *)
   OReport 1 13 true; OTick no_fault;                                               (* region 2 still stale *)
   OReport 2 12 true; OTick no_fault;                                               (* stale id *)
   OReport 2 13 true; OTick (Fault (Some (0%nat, FAfter)) true None); OTick no_fault].   (* sync: first attempt applied-but-error *)
Example C19_nonvacuous :
  map o_served (run run_op (boot_of ex_boot) ex_ops) =
    [Some (Status Sync 10); Some (Status Sync 10); Some (Status Async 12); Some (Status Async 12);
     Some (Status SyncRecover 13); Some (Status SyncRecover 13); Some (Status SyncRecover 13);
     Some (Status SyncRecover 13); Some (Status SyncRecover 13); Some (Status SyncRecover 13);
     Some (Status SyncRecover 13); Some (Status Sync 15)].
Proof. vm_compute. reflexivity. Qed.

(* ---------- what IS guaranteed about the DR_STATE files and the start-up rule ----------
   The DR_STATE file goes out before the storage save and its delivery error is dropped, so members can hold a file for a status the
   leader never served.  What the code guarantees nevertheless, for every history from every boot state: *)
(* a file never names a state id the allocator has not handed out (nor one from before this leader started) *)
Theorem C19_file_ids_allocated :
  forall b ops x, In x (files (reach b ops)) -> b_id0 b <= st_id x < next_id (reach b ops).
Proof. intros b ops x Hx. apply (fi_lt _ _ (file_inv_reach b ops)), Hx. Qed.
(* ids are never shared between files, and the file naming the id the leader serves under IS the served status: a member never holds
   a file for a state the leader serves under a different id / an id the leader serves a different state under *)
Theorem C19_files_have_distinct_ids :
  forall b ops x y, In x (files (reach b ops)) -> In y (files (reach b ops)) -> st_id y = st_id x -> y = x.
Proof. intros b ops x y. apply nodup_ids_eq, (fi_nodup _ _ (file_inv_reach b ops)). Qed.
Theorem C19_file_for_served_id_is_served :
  forall b ops x y, boot_ok (b_st b) (b_id0 b) ->
    served (reach b ops) = Some x -> In y (files (reach b ops)) -> st_id y = st_id x -> y = x.
Proof.
  intros b ops x y Hb Hx Hy He. destruct (file_inv_reach b ops) as [L N _]. destruct (id_inv_reach b ops Hb) as [_ _ _ _ _ O].
  destruct (O x Hx) as [Hin|Hb0]; [eapply nodup_ids_eq; eauto|].
  (* x is the status this leader loaded at start-up: its id is below every file id *)
  specialize (Hb x Hb0). specialize (L y Hy). lia.
Qed.
(* the start-up rule *)
Theorem C19_startup_rule :
  forall c st id0 rs ss b, cf_dr c = true ->
  match st with
  | Some x => served (boot c st id0 rs ss b) = Some x /\ stored (boot c st id0 rs ss b) = Some x /\
              files (boot c st id0 rs ss b) = [] /\ next_id (boot c st id0 rs ss b) = id0
  | None => served (boot c st id0 rs ss b) = Some (Status Sync id0) /\ stored (boot c st id0 rs ss b) = Some (Status Sync id0) /\
            files (boot c st id0 rs ss b) = [Status Sync id0] /\ next_id (boot c st id0 rs ss b) = id0 + 1
  end.
Proof. intros c st id0 rs ss b Hc. unfold boot. rewrite Hc. destruct st as [x|]; cbn; repeat split; reflexivity. Qed.
(* drCheckAsyncTimeout over its real inputs (wait-async-timeout, the manager's creation time, the members' confirmation times) *)
Theorem C19_async_timeout_spec :
  forall s, async_ok s = true <->
    cf_timeout (cfg s) = 0 \/
    ((forall id t, In (id, t) (c_members (clk s)) -> c_now (clk s) - t > cf_timeout (cfg s)) /\ c_now (clk s) - c_init (clk s) > cf_timeout (cfg s)).
Proof.
  intros s.
  unfold async_ok, async_ok_at. rewrite orb_true_iff, andb_true_iff, Z.eqb_eq, forallb_forall. split.
  - intros [H|[A B]]; [left; exact H|right]. split; [|lia]. intros id t Hin. specialize (A _ Hin). cbn in A. lia.
  - intros [H|[A B]]; [left; exact H|right]. split; [|lia]. intros [id t] Hin. specialize (A _ _ Hin). cbn. lia.
Qed.

(* ---------- a new manager on the same storage (leader change) with a storage fault at the status load ----------
   "a storage failure leaves served and persisted state unchanged" / "sync only after a full scan", for the start-up path:
   the self-initialisation of C19_startup_rule happens only when the load SUCCEEDED and found nothing (skel_LoadReplicationStatus_ok
   ties the error-before-empty order of core.Storage.LoadReplicationStatus) *)
Theorem C19_failed_status_load_keeps_everything :
  forall s f, cf_dr (cfg s) = true -> restart s true f = (s, RErr).
Proof. intros s f H. unfold restart. rewrite H. reflexivity. Qed.
Theorem C19_new_manager_serves_persisted_status :
  forall s f x s' r, cf_dr (cfg s) = true -> stored s = Some x -> restart s false f = (s', r) ->
    r = ROk /\ served s' = Some x /\ stored s' = Some x /\ files s' = files s /\ next_id s' = next_id s /\ cur_key s' = "" /\ cur_cnt s' = 0.
Proof. intros s f x s' r H E. unfold restart. rewrite H, E. cbn. intros R; inv R. cbn. repeat split; auto. Qed.
Theorem C19_new_manager_initialises_only_when_nothing_stored :
  forall s lf f s' r, restart s lf f = (s', r) -> (files s' <> files s \/ next_id s' <> next_id s \/ stored s' <> stored s) ->
    cf_dr (cfg s) = true /\ lf = false /\ stored s = None.
Proof. exact restart_initialises_only_when_nothing_stored. Qed.

Print Assumptions C19_async_only_when.
Print Assumptions C19_recover_only_when.
Print Assumptions C19_sync_only_after_full_scan.
Print Assumptions C19_chain_from_cache.
Print Assumptions C19_state_id_fresh.
Print Assumptions C19_switch_publishes_fresh_id.
Print Assumptions C19_publish_after_persist_and_offer.
Print Assumptions C19_persist_before_serve.
Print Assumptions C19_failed_persist_keeps_state.
Print Assumptions C19_failed_config_switch_keeps_state_and_config.
Print Assumptions C19_failed_alloc_keeps_everything.
Print Assumptions C19_file_ids_allocated.
Print Assumptions C19_files_have_distinct_ids.
Print Assumptions C19_file_for_served_id_is_served.
Print Assumptions C19_startup_rule.
Print Assumptions C19_async_timeout_spec.
Print Assumptions C19_failed_status_load_keeps_everything.
Print Assumptions C19_new_manager_serves_persisted_status.
Print Assumptions C19_new_manager_initialises_only_when_nothing_stored.
