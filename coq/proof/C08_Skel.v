(* C08 — structural obligations on builder.go / step.go / create_operator.go (regenerated gen/Gen_C08.v).  The model dispatches on plan_order / plan_prefs / leader_prefs /
   no_leader_roles; these lemmas pin the values the general proofs and the driver's helper table were
   written against. *)
From PDV Require Import lib.Skel gen.Gen_C08.

Lemma plan_order_ok : plan_order =
  ["planReplace"; "planPromotePeer"; "planDemotePeer"; "planRemovePeer"; "planAddPeer"].
Proof. reflexivity. Qed.

Lemma plan_prefs_ok : plan_prefs =
  ["planPreferReplaceByNearest"; "planPreferUpStoreAsLeader"; "planPreferOldPeerAsLeader"; "planPreferAddOrPromoteTargetLeader"; "planPreferTargetLeader"; "planPreferLessLeaderTransfer"].
Proof. reflexivity. Qed.

Lemma leader_prefs_ok : leader_prefs =
  ["preferLeaderRoleAsLeader"; "preferUpStoreAsLeader"; "preferCurrentLeader"; "preferKeepVoterAsLeader"; "preferOldPeerAsLeader"].
Proof. reflexivity. Qed.

(* learners and demoting voters are never leader candidates *)
Lemma no_leader_roles_ok : no_leader_roles =
  ["PeerRole_Learner"; "PeerRole_DemotingVoter"].
Proof. reflexivity. Qed.

Lemma skel_allowLeader_ok : skel_allowLeader =
  [SwitchE [[Ret]]; IfE "peer.GetStoreId() == b.currentLeaderStoreID" [Ret] []; Call "GetStore"; IfE "(b.cluster.GetStore(peer.GetStoreId())) == nil" [Ret] []; IfE "ignoreClusterLimit" [Ret] []; Call "Target"; IfE "!(&filter.StoreStateFilter{ActionScope: ""operator-builder"", TransferLeader: true}).Target(b.cluster.GetOpts(), (b.cluster.GetStore(peer.GetStoreId())))" [Ret] []; IfE "len(b.rules) == 0" [Ret] []; ForE [Call "MatchLabelConstraints"; IfE "(each#v(b.rules).Role == placement.Leader || each#v(b.rules).Role == placement.Voter) && placement.MatchLabelConstraints((b.cluster.GetStore(peer.GetStoreId())), each#v(b.rules).LabelConstraints)" [Ret] []]; Ret].
Proof. reflexivity. Qed.

(* joint path: learners first, target leader chosen, then the leader moved before, after or inside a single
   enter/leave pair (or not at all), removals last *)
Lemma skel_joint_ok : skel_buildStepsWithJointConsensus =
  [ForE [IfE "!core.IsLearner((b.toAdd[each#v(b.toAdd.IDs())]))" [Call "execAddPeer"] [Call "execAddPeer"]]; Call "setTargetLeaderIfNotExist"; IfE "b.targetLeaderStoreID == 0" [Ret] []; IfE "(b.originPeers[b.targetLeaderStoreID])#1 && !core.IsLearner((b.originPeers[b.targetLeaderStoreID])#0)" [IfE "b.originLeaderStoreID != b.targetLeaderStoreID" [Call "execTransferLeader"] []; Call "execChangePeerV2"] [IfE "b.originLeaderStoreID == 0 || ((b.targetPeers[b.originLeaderStoreID])#1 && !core.IsLearner((b.targetPeers[b.originLeaderStoreID])#0))" [Call "execChangePeerV2"; IfE "b.originLeaderStoreID != b.targetLeaderStoreID" [Call "execTransferLeader"] []] [Call "execChangePeerV2"]]; ForE [Call "execRemovePeer"]; Ret].
Proof. reflexivity. Qed.

(* leadership moves inside the joint state only in the third branch *)
Lemma joint_v2_args_ok : joint_v2_args =
  ["true, false"; "true, false"; "true, true"].
Proof. reflexivity. Qed.

Lemma skel_execChangePeerV2_ok : skel_execChangePeerV2 =
  [Assign "b.toPromote" "= newPeersMap()"; Assign "b.toDemote" "= newPeersMap()"; IfE "needEnter" [Assign "b.steps" "= append(b.steps, (ChangePeerV2Enter{ PromoteLearners: make([]PromoteLearner, 0, len(b.toPromote)), DemoteVoters: make([]DemoteVoter, 0, len(b.toDemote)), }))"] []; IfE "needTransferLeader && b.originLeaderStoreID != b.targetLeaderStoreID" [Call "execTransferLeader"] []; Assign "b.steps" "= append(b.steps, ChangePeerV2Leave((ChangePeerV2Enter{ PromoteLearners: make([]PromoteLearner, 0, len(b.toPromote)), DemoteVoters: make([]DemoteVoter, 0, len(b.toDemote)), })))"].
Proof. reflexivity. Qed.

(* non-joint path: per plan  transfer, add, promote, transfer, demote, remove — in this order *)
Lemma skel_nonjoint_ok : skel_buildStepsWithoutJointConsensus =
  [Call "initStepPlanPreferFuncs"; ForE [Call "peerPlan"; Call "IsEmpty"; IfE "(b.peerPlan()).IsEmpty()" [Ret] []; IfE "(b.peerPlan()).leaderBeforeAdd != 0 && (b.peerPlan()).leaderBeforeAdd != b.currentLeaderStoreID" [Call "execTransferLeader"] []; IfE "(b.peerPlan()).add != nil" [Call "execAddPeer"] []; IfE "(b.peerPlan()).promote != nil" [Call "execPromoteLearner"] []; IfE "(b.peerPlan()).leaderBeforeRemove != 0 && (b.peerPlan()).leaderBeforeRemove != b.currentLeaderStoreID" [Call "execTransferLeader"] []; IfE "(b.peerPlan()).demote != nil" [Call "execDemoteFollower"] []; IfE "(b.peerPlan()).remove != nil" [Call "execRemovePeer"] []]; Call "setTargetLeaderIfNotExist"; IfE "b.targetLeaderStoreID != 0 && b.currentLeaderStoreID != b.targetLeaderStoreID && b.currentPeers[b.targetLeaderStoreID] != nil" [Call "execTransferLeader"] []; IfE "len(b.steps) == 0" [Ret] []; Ret].
Proof. reflexivity. Qed.

(* planReplace: five alternatives (promote+demote, add voter+demote, add+remove of the same kind on a free store,
   add learner+promote+remove voter on a free store, add voter+demote+remove learner) *)
Lemma replace_guards_ok : replace_guards =
  ["!core.IsLearner((b.toAdd[each#v(b.toAdd.IDs())]))"; "(core.IsLearner((b.toRemove[each#v(b.toRemove.IDs())])) == core.IsLearner((b.toAdd[each#v(b.toAdd.IDs())])) || (len(b.toAdd) == 1 && len(b.toRemove) == 1 && len(b.toPromote) == 0 && len(b.toDemote) == 0)) && b.currentPeers[each#v(b.toAdd.IDs())] == nil"; "core.IsLearner((b.toAdd[each#v(b.toAdd.IDs())]))"; "!core.IsLearner((b.toRemove[each#v(b.toRemove.IDs())])) && b.currentPeers[each#v(b.toAdd.IDs())] == nil"; "core.IsLearner((b.toRemove[each#v(b.toRemove.IDs())]))"; "!core.IsLearner((b.toAdd[each#v(b.toAdd.IDs())])) && each#v(b.toRemove.IDs()) != each#v(b.toAdd.IDs())"].
Proof. reflexivity. Qed.

Lemma replace_defs_ok : replace_defs =
  ["(len(b.toAdd) == 1 && len(b.toRemove) == 1 && len(b.toPromote) == 0 && len(b.toDemote) == 0) := len(b.toAdd) == 1 && len(b.toRemove) == 1 && len(b.toPromote) == 0 && len(b.toDemote) == 0"].
Proof. reflexivity. Qed.

Lemma replace_candidates_ok : replace_candidates =
  ["local1, stepPlan{(b.toPromote[each#v(b.toPromote.IDs())]): (b.toPromote[each#v(b.toPromote.IDs())]), (b.toDemote[each#v(b.toDemote.IDs())]): (b.toDemote[each#v(b.toDemote.IDs())])}"; "local1, stepPlan{(b.toDemote[each#v(b.toDemote.IDs())]): (b.toDemote[each#v(b.toDemote.IDs())]), (b.toAdd[each#v(b.toAdd.IDs())]): (b.toAdd[each#v(b.toAdd.IDs())])}"; "local1, stepPlan{(b.toAdd[each#v(b.toAdd.IDs())]): (b.toAdd[each#v(b.toAdd.IDs())]), (b.toRemove[each#v(b.toRemove.IDs())]): (b.toRemove[each#v(b.toRemove.IDs())])}"; "local1, stepPlan{(b.toPromote[each#v(b.toPromote.IDs())]): (b.toPromote[each#v(b.toPromote.IDs())]), (b.toAdd[each#v(b.toAdd.IDs())]): (b.toAdd[each#v(b.toAdd.IDs())]), (b.toRemove[each#v(b.toRemove.IDs())]): (b.toRemove[each#v(b.toRemove.IDs())])}"; "local1, stepPlan{(b.toDemote[each#v(b.toDemote.IDs())]): (b.toDemote[each#v(b.toDemote.IDs())]), (b.toAdd[each#v(b.toAdd.IDs())]): (b.toAdd[each#v(b.toAdd.IDs())]), (b.toRemove[each#v(b.toRemove.IDs())]): (b.toRemove[each#v(b.toRemove.IDs())])}"].
Proof. reflexivity. Qed.

Lemma skel_peerPlan_ok : skel_peerPlan =
  [Call "planReplace"; Call "IsEmpty"; IfE "!(b.planReplace()).IsEmpty()" [Ret] []; Call "planPromotePeer"; Call "IsEmpty"; IfE "!(b.planPromotePeer()).IsEmpty()" [Ret] []; Call "planDemotePeer"; Call "IsEmpty"; IfE "!(b.planDemotePeer()).IsEmpty()" [Ret] []; Call "planRemovePeer"; Call "IsEmpty"; IfE "!(b.planRemovePeer()).IsEmpty()" [Ret] []; Call "planAddPeer"; Call "IsEmpty"; IfE "!(b.planAddPeer()).IsEmpty()" [Ret] []; Ret].
Proof. reflexivity. Qed.

Lemma skel_planReplace_ok : skel_planReplace =
  [ForE [ForE [Call "planReplaceLeaders"]]; ForE [ForE [IfE "!core.IsLearner((b.toAdd[each#v(b.toAdd.IDs())]))" [Call "planReplaceLeaders"] []]]; ForE [ForE [IfE "(core.IsLearner((b.toRemove[each#v(b.toRemove.IDs())])) == core.IsLearner((b.toAdd[each#v(b.toAdd.IDs())])) || (len(b.toAdd) == 1 && len(b.toRemove) == 1 && len(b.toPromote) == 0 && len(b.toDemote) == 0)) && b.currentPeers[each#v(b.toAdd.IDs())] == nil" [Call "planReplaceLeaders"] []]]; ForE [ForE [IfE "core.IsLearner((b.toAdd[each#v(b.toAdd.IDs())]))" [ForE [IfE "!core.IsLearner((b.toRemove[each#v(b.toRemove.IDs())])) && b.currentPeers[each#v(b.toAdd.IDs())] == nil" [Call "planReplaceLeaders"] []]] []]]; ForE [ForE [IfE "core.IsLearner((b.toRemove[each#v(b.toRemove.IDs())]))" [ForE [IfE "!core.IsLearner((b.toAdd[each#v(b.toAdd.IDs())])) && each#v(b.toRemove.IDs()) != each#v(b.toAdd.IDs())" [Call "planReplaceLeaders"] []]] []]]; Ret].
Proof. reflexivity. Qed.

(* allowLeaderAfter: allowLeader with the given store as current leader (set, restored on return) *)
Lemma skel_allowLeaderAfter_ok : skel_allowLeaderAfter =
  [Assign "b.currentLeaderStoreID" "= leader"; DeferE [Assign "b.currentLeaderStoreID" "= (b.currentLeaderStoreID)"]; Call "allowLeader"; Ret].
Proof. reflexivity. Qed.

(* leaderBeforeAdd: an allowed current peer; leaderBeforeRemove: an allowed current peer, the promoted or the added
   peer - never the store that is demoted or removed *)
Lemma skel_planReplaceLeaders_ok : skel_planReplaceLeaders =
  [ForE [Call "allowLeader"; IfE "!b.allowLeader(b.currentPeers[each#v(b.currentPeers.IDs())], false)" [Cont] []; ForE [Call "allowLeaderAfter"; IfE "each#v2(b.currentPeers.IDs()) != next.demote.GetStoreId() && each#v2(b.currentPeers.IDs()) != next.remove.GetStoreId() && b.allowLeaderAfter(b.currentPeers[each#v2(b.currentPeers.IDs())], each#v(b.currentPeers.IDs()))" [Call "comparePlan"] []]; Call "allowLeaderAfter"; IfE "next.promote != nil && next.promote.GetStoreId() != next.demote.GetStoreId() && next.promote.GetStoreId() != next.remove.GetStoreId() && b.allowLeaderAfter(next.promote, each#v(b.currentPeers.IDs()))" [Call "comparePlan"] []; Call "allowLeaderAfter"; IfE "next.add != nil && next.add.GetStoreId() != next.demote.GetStoreId() && next.add.GetStoreId() != next.remove.GetStoreId() && b.allowLeaderAfter(next.add, each#v(b.currentPeers.IDs()))" [Call "comparePlan"] []]; Ret].
Proof. reflexivity. Qed.

Lemma skel_plan_single_ok :
  skel_planPromotePeer = [ForE [Ret]; Ret]
  /\ skel_planDemotePeer =
       [ForE [ForE [Call "allowLeader"; IfE "b.allowLeader(b.currentPeers[each#v(b.currentPeers.IDs())], false) && each#v(b.currentPeers.IDs()) != (b.toDemote[each#v(b.toDemote.IDs())]).GetStoreId()" [Call "comparePlan"] []]]; Ret]
  /\ skel_planRemovePeer =
       [ForE [ForE [Call "allowLeader"; IfE "b.allowLeader(b.currentPeers[each#v(b.currentPeers.IDs())], false) && each#v(b.currentPeers.IDs()) != (b.toRemove[each#v(b.toRemove.IDs())]).GetStoreId()" [Call "comparePlan"] []]]; Ret]
  /\ skel_planAddPeer =
       [ForE [IfE "b.currentPeers[each#v(b.toAdd.IDs())] != nil" [Cont] []; ForE [Call "allowLeader"; IfE "b.allowLeader(b.currentPeers[each#v(b.currentPeers.IDs())], false)" [Call "comparePlan"] []]]; Ret].
Proof. repeat split; reflexivity. Qed.

Lemma prepare_guards_ok : prepare_guards =
  ["!core.IsLearner(each#v(b.targetPeers))"; "local1 == 0"; "local2 == nil"; "each#v(b.originPeers).GetId() != local2.GetId()"; "core.IsLearner(each#v(b.originPeers))"; "!core.IsLearner(local2)"; "core.IsLearner(local2)"; "b.allowDemote"; "(b.originPeers[local3.GetStoreId()]) == nil || (!b.allowDemote && !core.IsLearner((b.originPeers[local3.GetStoreId()])) && core.IsLearner(local3))"; "local3.GetId() == 0 || (b.originPeers[local3.GetStoreId()]) != nil"; "(b.cluster.AllocID())#1 != nil"; "!(b.targetPeers[b.targetLeaderStoreID])#1 || core.IsLearner((b.targetPeers[b.targetLeaderStoreID])#0)"; "b.targetLeaderStoreID != 0"; "!b.allowLeader((b.targetPeers[b.targetLeaderStoreID]), b.forceTargetLeader)"; "len(b.toAdd)+len(b.toRemove)+len(b.toPromote)+len(b.toDemote) <= 1"].
Proof. reflexivity. Qed.

(* every step kind of step.go has a constructor in model/C08_Steps.v *)
Lemma step_kinds_ok : step_kinds =
  ["TransferLeader"; "AddPeer"; "AddLearner"; "PromoteLearner"; "RemovePeer"; "MergeRegion"; "SplitRegion"; "AddLightPeer"; "AddLightLearner"; "DemoteFollower"; "ChangePeerV2Enter"; "ChangePeerV2Leave"].
Proof. reflexivity. Qed.

(* the call sequences of the Create*Operator helpers, as the driver's modelOps table assumes them *)
Lemma helper_calls_ok : helper_calls =
  [("CreateAddPeerOperator", ["NewBuilder"; "AddPeer"; "Build"]);
   ("CreatePromoteLearnerOperator", ["NewBuilder"; "PromoteLearner"; "Build"]);
   ("CreateRemovePeerOperator", ["NewBuilder"; "RemovePeer"; "Build"]);
   ("CreateTransferLeaderOperator", ["NewBuilder"; "SkipOriginJointStateCheck"; "SetLeader"; "Build"]);
   ("CreateForceTransferLeaderOperator", ["NewBuilder"; "SkipOriginJointStateCheck"; "SetLeader"; "EnableForceTargetLeader"; "Build"]);
   ("CreateMoveRegionOperator", ["NewBuilder"; "SetPeers"; "SetExpectedRoles"; "Build"]);
   ("CreateMovePeerOperator", ["NewBuilder"; "RemovePeer"; "AddPeer"; "Build"]);
   ("CreateReplaceLeaderPeerOperator", ["NewBuilder"; "RemovePeer"; "AddPeer"; "SetLeader"; "Build"]);
   ("CreateMoveLeaderOperator", ["NewBuilder"; "RemovePeer"; "AddPeer"; "SetLeader"; "Build"]);
   ("CreateMergeRegionOperator", ["NewBuilder"; "SetPeers"; "Build"]);
   ("CreateScatterRegionOperator", ["NewBuilder"; "SetPeers"; "SetLeader"; "EnableLightWeight"; "EnableForceTargetLeader"; "Build"]);
   ("CreateLeaveJointStateOperator", ["NewBuilder"; "SkipOriginJointStateCheck"])].
Proof. reflexivity. Qed.

(* where peer ids come from: outside tests and mocks every metapb.Peer literal under server/ that sets Id copies the id of
   an existing peer - the only new id is the one prepareBuild takes from b.cluster.AllocID(); every other new peer
   (schedulers, checkers, handlers) reaches the builder with Id 0 *)
Lemma peer_ids_ok : peer_literals_with_id =
  ["server/core/region_option.go: WithLearners: each#v(learners).GetId()"; "server/schedule/filter/filters.go: createRegionForRuleFit: each#v(peers).Id"; "server/schedule/operator/builder.go: DemoteVoter: (b.targetPeers[storeID])#0.GetId()"; "server/schedule/operator/builder.go: PromoteLearner: (b.targetPeers[storeID])#0.GetId()"; "server/schedule/operator/builder.go: buildStepsWithJointConsensus: (b.toAdd[each#v(b.toAdd.IDs())]).GetId()"; "server/schedule/operator/builder.go: buildStepsWithJointConsensus: (b.toRemove[each#v(b.toRemove.IDs())]).GetId()"; "server/schedule/operator/builder.go: prepareBuild: (b.cluster.AllocID())#0"; "server/schedule/operator/builder.go: prepareBuild: each#v(b.originPeers).GetId()"; "server/schedule/operator/step.go: GetRequest: each#v(cpe.DemoteVoters).PeerID"; "server/schedule/operator/step.go: GetRequest: each#v(cpe.PromoteLearners).PeerID"; "server/schedule/operator_controller.go: addLearnerNode: id"; "server/schedule/operator_controller.go: addNode: id"].
Proof. reflexivity. Qed.

(* who may build on a region that is in a joint state: only the two leader-transfer helpers and the leave-joint helper name
   the option SkipOriginJointStateCheck, and no helper of create_operator.go lets its caller pass builder options.  The
   planner (prepareBuild and both build paths) is written for - and proved on - origins without IncomingVoter /
   DemotingVoter peers; an admin or recovery entry point that hands it a joint origin is a new way into the planner *)
Lemma skip_joint_check_sites_ok : skip_joint_check_sites =
  ["server/schedule/operator/create_operator.go:CreateForceTransferLeaderOperator"; "server/schedule/operator/create_operator.go:CreateLeaveJointStateOperator"; "server/schedule/operator/create_operator.go:CreateTransferLeaderOperator"].
Proof. reflexivity. Qed.
Lemma helpers_taking_builder_options_ok : helpers_taking_builder_options = [].
Proof. reflexivity. Qed.

(* the gRPC layer above the builder: Server.ScatterRegion hands the scatterer - and so the builder - the region PD learnt
   from heartbeats (leader, pending and down peers); the copy in the request is used only for a region PD does not know at
   all.  A plan is only as good as the leader it was built for: a leader taken from the request can be behind an election,
   which does not change the epoch *)
Lemma skel_grpc_ScatterRegion_ok : skel_grpc_ScatterRegion =
  [IfE "!s.isLocalRequest((getForwardedHost(ctx)))" [IfE "(s.getDelegateClient(ctx, (getForwardedHost(ctx))))#1 != nil" [Ret] []; Ret] []; IfE "(s.validateRequest(request.GetHeader())) != nil" [Ret] []; IfE "(s.GetRaftCluster()) == nil" [Ret] []; IfE "len(request.GetRegionsId()) > 0" [IfE "((s.GetRaftCluster()).GetRegionScatter().ScatterRegionsByID(request.GetRegionsId(), request.GetGroup(), int(request.GetRetryLimit())))#2 != nil" [Ret] []; IfE "len(((s.GetRaftCluster()).GetRegionScatter().ScatterRegionsByID(request.GetRegionsId(), request.GetGroup(), int(request.GetRetryLimit())))#1) > 0" [DeferE [Ret]] []; Ret] []; Call "GetRegion"; IfE "local3 == nil" [Call "GetRegion"; IfE "request.GetRegion() == nil" [Ret] []; Call "GetRegion"; Call "NewRegionInfo"] []; Call "Scatter"; IfE "((s.GetRaftCluster()).GetRegionScatter().Scatter(local3, request.GetGroup()))#1 != nil" [Ret] []; Ret].
Proof. reflexivity. Qed.
