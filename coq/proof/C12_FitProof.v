(* C12 — proofs about model/C12_Fit.v: the comparisons are those of total preorders; fit_rule (the transcription of the
   backtracking search) computes fit_spec (rule by rule the first lexicographic maximum over all k-subsets); fit_spec is a
   valid assignment, every valid assignment is a partition of the peers, and none is better; IsSatisfied; what the
   unstable sort, float64 and the monitor's brute-force oracle need. *)
From Coq Require Import String Permutation Sorting.Sorted.
From PDV Require Import lib.Base lib.C07_List lib.C12_Order gen.Gen_C12 model.C12_Fit.
Local Open Scope list_scope.

(* side condition on the regenerated constant: scores of different levels do not collide *)
Lemma base_gt_1 : (1 < replicaBaseScore)%Z.
Proof. reflexivity. Qed.

Lemma good_crf : good compare_rule_fit.
Proof.
  unfold compare_rule_fit, lex. apply good_lex; [|apply good_lex].
  - exact (good_pull (fun a => length (rf_peers a)) _ good_nat).
  - exact (good_flip _ (good_pull (fun a => length (rf_diff a)) _ good_nat)).
  - exact (good_pull rf_score _ good_Z).
Qed.

Lemma good_lexcmp : good lexcmp.
Proof. apply good_lexlist, good_crf. Qed.

Lemma good_cmp_res : good cmp_res.
Proof. apply (good_pull (@fst (list rulefit) (list fpeer)) lexcmp good_lexcmp). Qed.

Lemma crf_gt_iff a b :
  compare_rule_fit a b = Gt <->
  (length (rf_peers a) > length (rf_peers b))%nat \/
  (length (rf_peers a) = length (rf_peers b) /\
   ((length (rf_diff a) < length (rf_diff b))%nat \/
    (length (rf_diff a) = length (rf_diff b) /\ (rf_score a > rf_score b)%Z))).
Proof.
  unfold compare_rule_fit, lex. rewrite !lexc_gt, !Nat.compare_gt_iff, !Nat.compare_eq_iff, Z.compare_gt_iff. lia.
Qed.

Lemma crf_eq_iff a b :
  compare_rule_fit a b = Eq <->
  length (rf_peers a) = length (rf_peers b) /\ length (rf_diff a) = length (rf_diff b) /\ rf_score a = rf_score b.
Proof.
  unfold compare_rule_fit, lex. split.
  - intros H. apply lexc_eq in H as [H1 H]. apply lexc_eq in H as [H2 H3].
    apply Nat.compare_eq_iff in H1, H2. apply Z.compare_eq_iff in H3. auto.
  - intros (H1 & H2 & H3). rewrite H1, H2, H3, !Nat.compare_refl, Z.compare_refl. reflexivity.
Qed.

Lemma compare_prefix_lexcmp a : forall b, length a = length b -> compare_prefix a b = lexcmp a b.
Proof.
  induction a as [|x a IH]; intros [|y b] H; cbn in *; try discriminate; [reflexivity|].
  unfold lexcmp in *. cbn. rewrite IH by lia. reflexivity.
Qed.

Definition region_key (f : list rulefit * list fpeer) := f.
Lemma good_region_full :
  good (fun a b : list rulefit * list fpeer => lexc (lexcmp (fst a) (fst b)) (Nat.compare (length (snd b)) (length (snd a)))).
Proof.
  apply good_lex; [exact good_cmp_res|].
  exact (good_flip _ (good_pull (fun a : list rulefit * list fpeer => length (snd a)) _ good_nat)).
Qed.

Lemma compare_region_fit_same_len a b :
  length (fst a) = length (fst b) ->
  compare_region_fit a b = lexc (lexcmp (fst a) (fst b)) (Nat.compare (length (snd b)) (length (snd a))).
Proof. intros H. unfold compare_region_fit, lex. rewrite compare_prefix_lexcmp by exact H. reflexivity. Qed.

Lemma filter_nil {A} (f : A -> bool) l : filter f l = [] <-> forall x, In x l -> f x = false.
Proof.
  split; [|apply filter_false_nil]. intros E x Hx. destruct (f x) eqn:Fx; [|reflexivity].
  assert (X : In x (filter f l)) by (apply filter_In; auto). rewrite E in X. destruct X.
Qed.

Lemma map_const_len {A B C} (c : C) (a : list A) : forall b : list B,
  length a = length b -> map (fun _ => c) a = map (fun _ => c) b.
Proof. induction a as [|x a IH]; intros [|y b] H; cbn in *; try discriminate; [reflexivity|]. f_equal. apply IH; lia. Qed.

Inductive sublist {A} : list A -> list A -> Prop :=
| sl_nil l : sublist [] l
| sl_skip s x l : sublist s l -> sublist s (x :: l)
| sl_take s x l : sublist s l -> sublist (x :: s) (x :: l).

Lemma sublist_In {A} (s l : list A) : sublist s l -> forall x, In x s -> In x l.
Proof. induction 1; intros y Hy; cbn in *; try tauto; [right; auto | destruct Hy; auto]. Qed.

Lemma sublist_length {A} (s l : list A) : sublist s l -> (length s <= length l)%nat.
Proof. induction 1; cbn; lia. Qed.

Lemma sublist_refl {A} (l : list A) : sublist l l.
Proof. induction l as [|x l IH]; [constructor|apply sl_take; exact IH]. Qed.

Lemma sublist_filter {A} (f : A -> bool) l : sublist (filter f l) l.
Proof. induction l as [|x r IH]; cbn; [constructor|]. destruct (f x); constructor; exact IH. Qed.

Lemma sublist_trans {A} (a b : list A) : sublist a b -> forall c, sublist b c -> sublist a c.
Proof.
  intros Hab c Hbc; revert a Hab; induction Hbc as [l|s x l H IH|s x l H IH]; intros a Hab.
  - inversion Hab; constructor.
  - constructor. apply IH; exact Hab.
  - inversion Hab as [l'|s' x' l' H'|s' x' l' H']; subst.
    + apply sl_nil.
    + apply sl_skip. apply IH; exact H'.
    + apply sl_take. apply IH; exact H'.
Qed.

Lemma subsets_0 {A} (l : list A) : subsets 0 l = [[]].
Proof. destruct l; reflexivity. Qed.

Lemma subsets_spec {A} k : forall (l s : list A), In s (subsets k l) <-> sublist s l /\ length s = k.
Proof.
  induction k as [|k IHk]; intros l s.
  - rewrite subsets_0. cbn. split.
    + intros [H|[]]; subst; split; [constructor|reflexivity].
    + intros [_ H]. destruct s; [left; reflexivity|discriminate].
  - induction l as [|x r IHl]; cbn [subsets].
    + split; [intros []|]. intros [H1 H2]. inversion H1; subst; discriminate.
    + rewrite in_app_iff, in_map_iff. split.
      * intros [[s' [E H]]|H].
        -- subst s. apply IHk in H as [H1 H2]. split; [constructor; exact H1|cbn; lia].
        -- apply IHl in H as [H1 H2]. split; [constructor; exact H1|exact H2].
      * intros [H1 H2]. inversion H1 as [l'|s' x' l' H'|s' x' l' H']; subst.
        -- discriminate.
        -- right. apply IHl. split; assumption.
        -- left. exists s'. split; [reflexivity|]. apply IHk. cbn in H2. split; [assumption|lia].
Qed.

Lemma subsets_nonempty {A} k : forall l : list A, (k <= length l)%nat -> subsets k l <> [].
Proof.
  induction k as [|k IH]; intros l H; [destruct l; cbn; discriminate|].
  destruct l as [|x r]; cbn in H; [lia|]. cbn [subsets].
  intros E. apply app_eq_nil in E as [E _]. apply map_eq_nil in E. revert E. apply IH. lia.
Qed.

Section Search.
  Variables (stores : list store) (peers : list fpeer).
  (* GetStore resolves a peer's store to one of the listed stores (mk_fpeers_from_store for FitRegion's own peers) *)
  Hypothesis Hstores : forall p s, In p peers -> fstore p = Some s -> In s stores.

  Notation fit_rule := (fit_rule stores peers).
  Notation fit_spec := (fit_spec peers).
  Notation unselected := (unselected peers).
  Notation candidates := (candidates peers).

  (* checkRule only skips rules that no store of the set can satisfy *)
  Lemma candidates_imp_eq r sel : candidates_imp stores peers r sel = candidates r sel.
  Proof using Hstores.
    unfold candidates_imp, candidates. destruct (check_rule r stores) eqn:E; [reflexivity|].
    symmetry. apply filter_nil. intros p Hp. unfold cand_ok.
    destruct (fstore p) as [s|] eqn:Es; [|reflexivity].
    unfold check_rule in E.
    assert (H : match_label_constraints (Some s) (rcons r) = false).
    { destruct (match_label_constraints (Some s) (rcons r)) eqn:M; [|reflexivity].
      assert (X : existsb (fun s0 => match_label_constraints (Some s0) (rcons r)) stores = true).
      { apply existsb_exists. exists s. split; [eapply Hstores; eauto|exact M]. }
      congruence. }
    rewrite H. reflexivity.
  Qed.

  Lemma sel_with_snoc sel selected p : sel_with (selected ++ [p]) sel = fidx p :: sel_with selected sel.
  Proof. unfold sel_with. rewrite map_app, rev_app_distr. reflexivity. Qed.

  Definition cand (r : rule) (rest : list rule) (sel : list nat) (sub : list fpeer) : fitres :=
    let '(t, o) := fit_spec rest (sel_with sub sel) in (new_rule_fit r sub :: t, o).

  (* the candidate results of rule r, in the order of the search: one per k-subset of its candidates *)
  Definition level (r : rule) (rest : list rule) (sel : list nat) : list fitres :=
    map (cand r rest sel) (subsets (Nat.min (rcount r) (length (candidates r sel))) (candidates r sel)).

  Lemma fit_spec_cons r rest sel : fit_spec (r :: rest) sel = first_max (level r rest sel).
  Proof. reflexivity. Qed.

  Lemma level_nonempty r rest sel : level r rest sel <> [].
  Proof. intros E. apply map_eq_nil in E. revert E. apply subsets_nonempty. lia. Qed.

  Lemma level_spec r rest sel y :
    In y (level r rest sel) <->
    exists sub, sublist sub (candidates r sel) /\ length sub = Nat.min (rcount r) (length (candidates r sel))
                /\ cand r rest sel sub = y.
  Proof.
    unfold level. rewrite in_map_iff. split; intros (sub & H1 & H2).
    - apply subsets_spec in H2 as [Hs Hl]. exists sub. auto.
    - destruct H2 as [Hl E]. exists sub. split; [exact E|]. apply subsets_spec. auto.
  Qed.

  Lemma fit_spec_in r rest sel : In (fit_spec (r :: rest) sel) (level r rest sel).
  Proof.
    rewrite fit_spec_cons. pose proof (level_nonempty r rest sel) as N.
    destruct (level r rest sel) as [|x xs]; [congruence|]. apply fold_better_in.
  Qed.

  Lemma fit_spec_max r rest sel y : In y (level r rest sel) -> cmp_res (fit_spec (r :: rest) sel) y <> Lt.
  Proof.
    rewrite fit_spec_cons. destruct (level r rest sel) as [|x xs]; [intros []|]. apply (fold_better_max cmp_res good_cmp_res).
  Qed.

  Lemma fit_spec_length rules : forall sel, length (fst (fit_spec rules sel)) = length rules.
  Proof.
    induction rules as [|r rest IH]; intros sel; [reflexivity|].
    destruct (proj1 (level_spec r rest sel _) (fit_spec_in r rest sel)) as (sub & _ & _ & <-).
    unfold cand. specialize (IH (sel_with sub sel)). destruct (fit_spec rest (sel_with sub sel)) as [t o].
    cbn in *. lia.
  Qed.

  Lemma cmp_res_cons (x y : rulefit) (a b : list rulefit) (o1 o2 : list fpeer) :
    cmp_res (x :: a, o1) (y :: b, o2) = lexc (compare_rule_fit x y) (lexcmp a b).
  Proof. reflexivity. Qed.

  (* What the search holds for the rules from `index` on stands for `cur`: nothing yet (the entries reset to nil, the
     orphans of before) or a complete result.  Each function of the search feeds a list of candidate results, in order, to
     this best-so-far (`feeds`); feeding a non-empty list is offering its first maximum (lib/C12_Order.v). *)
  Notation nones l := (map (fun _ => @None rulefit) l).
  Definition as_vector (rules : list rule) (orph : list fpeer) (cur : option fitres) : list (option rulefit) * list fpeer :=
    match cur with None => (nones rules, orph) | Some t => (map Some (fst t), snd t) end.
  Definition sized (rules : list rule) (t : fitres) : Prop := length (fst t) = length rules.
  Definition osized rules (cur : option fitres) : Prop := match cur with Some t => sized rules t | None => True end.
  Definition feed (xs : list fitres) (cur : option fitres) := fold_left (step_optb cmp_res) xs (cur, false).

  Definition feeds (rules : list rule) (f : list (option rulefit) -> list fpeer -> bstate) (xs : list fitres) : Prop :=
    Forall (sized rules) xs /\
    forall cur orph, osized rules cur ->
      f (fst (as_vector rules orph cur)) (snd (as_vector rules orph cur)) = (as_vector rules orph (fst (feed xs cur)), snd (feed xs cur)).

  Lemma feed_sized rules xs : Forall (sized rules) xs -> forall cur, osized rules cur -> osized rules (fst (feed xs cur)).
  Proof.
    unfold feed. intros H cur. rewrite (fold_stepb_fst cmp_res). revert cur.
    induction H as [|x xs Hx _ IH]; intros cur Hc; [exact Hc|]. apply IH.
    destruct cur as [t|]; cbn; [|exact Hx]. unfold keep_better. destruct (cmp_res x t); assumption.
  Qed.

  Lemma feed_first xs cur :
    xs <> [] -> feed xs cur = (step_opt cmp_res cur (first_max xs), changed cmp_res cur (first_max xs)).
  Proof. destruct xs as [|x xs]; [congruence|]. intros _. apply (fold_stepb_first cmp_res good_cmp_res). Qed.

  Lemma feeds_nil rules : feeds rules (fun bs o => (bs, o, false)) [].
  Proof. split; [constructor|]. intros cur orph _. cbn. rewrite <- surjective_pairing. reflexivity. Qed.

  Lemma feeds_seq rules f g xs ys :
    feeds rules f xs -> feeds rules g ys ->
    feeds rules (fun bs o => let '(bs1, o1, b1) := f bs o in let '(bs2, o2, b2) := g bs1 o1 in (bs2, o2, b1 || b2)) (xs ++ ys).
  Proof.
    intros [Sx Hf] [Sy Hg]. split; [apply Forall_app; auto|]. intros cur orph Hc.
    rewrite Hf by exact Hc. unfold feed. rewrite fold_left_app.
    destruct (fold_left (step_optb cmp_res) xs (cur, false)) as [cur1 b1] eqn:E1. cbn [fst snd].
    assert (H1 : osized rules cur1). { pose proof (feed_sized rules xs Sx cur Hc) as X. unfold feed in X. rewrite E1 in X. exact X. }
    specialize (Hg cur1 orph H1). destruct (as_vector rules orph cur1) as [bs1 o1]. cbn [fst snd] in Hg. rewrite Hg.
    rewrite (fold_stepb_flag cmp_res ys cur1 b1). unfold feed. cbn [fst snd].
    destruct (as_vector rules orph (fst (fold_left (step_optb cmp_res) ys (cur1, false)))). reflexivity.
  Qed.

  Section Enum.
    Variables (rules : list rule) (count : nat) (cb : list fpeer -> list (option rulefit) -> list fpeer -> list nat -> bstate)
              (sel : list nat) (val : list fpeer -> fitres).
    Hypothesis Hcb : forall sub, feeds rules (fun bs o => cb sub bs o (sel_with sub sel)) [val sub].

    Lemma enum_loop_feeds cs : forall selected, (length selected < count)%nat ->
      feeds rules (fun bs o => enum_loop count cb cs selected bs o (sel_with selected sel))
            (map (fun s => val (selected ++ s)) (subsets (count - length selected) cs)).
    Proof.
      induction cs as [|p cs' IH]; intros selected Hlt;
        destruct (count - length selected)%nat as [|k] eqn:E; try lia.
      - apply feeds_nil.
      - cbn [enum_loop subsets]. rewrite map_app, map_map. rewrite <- (sel_with_snoc sel selected p).
        assert (Hlen : length (selected ++ [p]) = S (length selected)) by (rewrite app_length; cbn; lia).
        apply feeds_seq; [|rewrite <- E; apply IH; exact Hlt].
        destruct (Nat.eqb_spec (length (selected ++ [p])) count) as [Eq|Ne].
        + replace k with 0%nat by lia. rewrite subsets_0. apply Hcb.
        + assert (Ek : k = (count - length (selected ++ [p]))%nat) by (rewrite Hlen; lia). rewrite Ek.
          rewrite (map_ext (fun s => val (selected ++ p :: s)) (fun s => val ((selected ++ [p]) ++ s))).
          * apply IH. lia.
          * intros s. rewrite <- app_assoc. reflexivity.
    Qed.

    Lemma enum_peers_feeds cs :
      feeds rules (fun bs o => enum_peers count cb cs bs o sel) (map val (subsets count cs)).
    Proof.
      unfold enum_peers. destruct (Nat.eqb_spec 0 count) as [E|E].
      - rewrite <- E, subsets_0. apply (Hcb []).
      - pose proof (enum_loop_feeds cs [] ltac:(cbn; lia)) as H. cbn [length app] in H. rewrite Nat.sub_0_r in H. exact H.
    Qed.
  End Enum.

  (* fit_rule on the remaining rules: from entries reset to nil, followed by the orphan refresh of the last level, it
     yields the specification's answer; from a complete result it replaces it iff the specification's answer is better *)
  Definition rest_ok (rest : list rule) : Prop :=
    (forall orph sel,
       (let '(bt, o, _) := fit_rule rest (nones rest) orph sel in (bt, if is_nil rest then unselected sel else o))
       = (map Some (fst (fit_spec rest sel)), snd (fit_spec rest sel))) /\
    (forall T o sel, length T = length rest ->
       fit_rule rest (map Some T) o sel =
       (as_vector rest o (Some (keep_better cmp_res (T, o) (fit_spec rest sel))), gtb cmp_res (fit_spec rest sel) (T, o))).

  (* the first clause, whatever is done with the two results *)
  Lemma rest_ok_reset rest X (k : list (option rulefit) -> list fpeer -> X) orph sel :
    rest_ok rest ->
    (let '(bt, o, _) := fit_rule rest (nones rest) orph sel in k bt (if is_nil rest then unselected sel else o))
    = k (map Some (fst (fit_spec rest sel))) (snd (fit_spec rest sel)).
  Proof.
    intros [HA _]. specialize (HA orph sel). destruct (fit_rule rest (nones rest) orph sel) as [[bt o] b].
    injection HA as <- <-. reflexivity.
  Qed.

  Lemma compare_best_feeds r rest sel sub :
    rest_ok rest ->
    feeds (r :: rest) (fun bs o => compare_best peers r (fit_rule rest) (is_nil rest) sub bs o (sel_with sub sel)) [cand r rest sel sub].
  Proof.
    intros Hok. pose proof Hok as [_ HB]. pose proof (fit_spec_length rest (sel_with sub sel)) as Hlen. split.
    { constructor; [|constructor]. unfold sized, cand. destruct (fit_spec rest (sel_with sub sel)). cbn in *. lia. }
    intros cur orph Hc. unfold feed. cbn [fold_left step_optb fst snd orb]. unfold compare_best, cand.
    pose proof (fun o => rest_ok_reset rest _ (fun bt o' => (Some (new_rule_fit r sub) :: bt, o', true)) o (sel_with sub sel) Hok) as Reset.
    destruct (fit_spec rest (sel_with sub sel)) as [t o'] eqn:Esp. cbn [fst snd] in *.
    destruct cur as [[T o]|]; cbn [as_vector fst snd step_opt changed].
    - destruct T as [|tb T']; [discriminate|]. injection Hc as HT. cbn [map split_best].
      unfold gtb, keep_better. rewrite cmp_res_cons.
      destruct (compare_rule_fit (new_rule_fit r sub) tb); cbn [lexc].
      + rewrite (HB T' o (sel_with sub sel) HT), Esp. unfold gtb, keep_better, cmp_res. cbn [fst snd as_vector].
        destruct (lexcmp t T'); reflexivity.
      + reflexivity.
      + rewrite map_map, (map_const_len None T' rest HT). apply Reset.
    - cbn [map split_best]. rewrite map_map. apply Reset.
  Qed.

  Theorem fit_rule_spec rules : rest_ok rules.
  Proof.
    induction rules as [|r rest IH].
    { split; [reflexivity|]. intros [|? ?] o sel H; [reflexivity|discriminate]. }
    assert (P : forall sel, feeds (r :: rest) (fun bs o => fit_rule (r :: rest) bs o sel) (level r rest sel)).
    { intros sel. cbn [C12_Fit.fit_rule]. rewrite candidates_imp_eq.
      apply enum_peers_feeds. intros sub. apply compare_best_feeds. exact IH. }
    split.
    - intros orph sel. pose proof (proj2 (P sel) None orph I) as H. cbn [as_vector fst snd] in H.
      rewrite H, (feed_first _ _ (level_nonempty r rest sel)). reflexivity.
    - intros T o sel HT. pose proof (proj2 (P sel) (Some (T, o)) o HT) as H. cbn [as_vector fst snd] in H.
      rewrite H, (feed_first _ _ (level_nonempty r rest sel)). reflexivity.
  Qed.

  Theorem fit_imp_eq_spec rules :
    fit_imp stores peers rules = (map Some (fst (fit_spec rules [])), snd (fit_spec rules [])).
  Proof. exact (proj1 (fit_rule_spec rules) [] []). Qed.
End Search.

Lemma mem_nat_In x l : mem_nat x l = true <-> In x l.
Proof.
  induction l as [|y r IH]; cbn; [split; [discriminate|tauto]|].
  rewrite orb_true_iff, IH, Nat.eqb_eq. split; intros [H|H]; auto.
Qed.

Lemma sublist_filter_weaken {A} (f g : A -> bool) l :
  (forall x, f x = true -> g x = true) -> sublist (filter f l) (filter g l).
Proof.
  intros H; induction l as [|x r IH]; cbn; [constructor|].
  destruct (f x) eqn:Ef.
  - rewrite (H x Ef). apply sl_take; exact IH.
  - destruct (g x); [apply sl_skip|]; exact IH.
Qed.

(* taking a sub-sequence out of a list with distinct keys splits it *)
Lemma sublist_split {A} (f : A -> nat) (sub U : list A) :
  sublist sub U -> NoDup (map f U) ->
  Permutation (sub ++ filter (fun p => negb (mem_nat (f p) (map f sub))) U) U.
Proof.
  induction 1 as [l|s x l H IH|s x l H IH]; intros Hnd.
  - cbn. rewrite filter_true_id by reflexivity. apply Permutation_refl.
  - cbn [map] in Hnd. inversion Hnd as [|? ? Hn Hr]; subst.
    cbn [filter].
    assert (E : mem_nat (f x) (map f s) = false).
    { destruct (mem_nat (f x) (map f s)) eqn:E; [|reflexivity]. exfalso. apply Hn.
      apply mem_nat_In in E. apply in_map_iff in E as [y [Ey Hy]]. apply in_map_iff. exists y. split; [exact Ey|].
      eapply sublist_In; eauto. }
    rewrite E. cbn [negb]. apply Permutation_sym. eapply Permutation_trans; [|apply Permutation_middle].
    apply perm_skip. apply Permutation_sym. apply IH; exact Hr.
  - cbn [map] in Hnd. inversion Hnd as [|? ? Hn Hr]; subst.
    cbn [filter map mem_nat]. rewrite Nat.eqb_refl. cbn [orb negb app].
    apply perm_skip.
    rewrite (filter_ext_in (fun p => negb (Nat.eqb (f p) (f x) || mem_nat (f p) (map f s)))
                           (fun p => negb (mem_nat (f p) (map f s)))).
    + apply IH; exact Hr.
    + intros p Hp. destruct (Nat.eqb_spec (f p) (f x)) as [E|E]; [|reflexivity].
      exfalso. apply Hn. rewrite <- E. apply in_map; exact Hp.
Qed.

Section Spec.
  Variable peers : list fpeer.
  Hypothesis Hnodup : NoDup (map fidx peers).

  Notation fit_spec := (fit_spec peers).
  Notation unselected := (unselected peers).
  Notation candidates := (candidates peers).

  (* a valid assignment: rule by rule a sub-sequence (in peer-id order) of the peers that are not
     taken yet, satisfy the label constraints and can be converted to the role; at most Count of them *)
  Fixpoint valid (rules : list rule) (sel : list nat) (A : list (list fpeer)) : Prop :=
    match rules, A with
    | [], [] => True
    | r :: rest, sub :: A' =>
        sublist sub (candidates r sel) /\ (length sub <= rcount r)%nat /\ valid rest (sel_with sub sel) A'
    | _, _ => False
    end.
  Lemma unselected_sel_with sub sel :
    unselected (sel_with sub sel) = filter (fun p => negb (mem_nat (fidx p) (map fidx sub))) (unselected sel).
  Proof.
    unfold C12_Fit.unselected, sel_with. rewrite filter_filter. apply filter_ext. intros p. apply eq_true_iff_eq.
    rewrite andb_true_iff, !negb_true_iff, <- !not_true_iff_false, !mem_nat_In, in_app_iff, <- in_rev. tauto.
  Qed.

  Theorem valid_partition rules : forall sel A,
    valid rules sel A -> Permutation (concat A ++ unselected (final_sel sel A)) (unselected sel).
  Proof.
    induction rules as [|r rest IH]; intros sel [|sub A'] H; cbn in H; try contradiction.
    - cbn. apply Permutation_refl.
    - destruct H as (Hs & _ & Hv). cbn [concat final_sel]. rewrite <- app_assoc.
      eapply Permutation_trans; [apply Permutation_app_head; apply IH; exact Hv|].
      rewrite unselected_sel_with. apply sublist_split; [|apply NoDup_map_filter; exact Hnodup].
      apply (sublist_trans _ _ Hs). apply sublist_filter_weaken. intros p Hp. apply andb_true_iff in Hp. apply Hp.
  Qed.

  Lemma fits_of_length rules : forall sel A, valid rules sel A -> length (fits_of rules A) = length rules.
  Proof.
    induction rules as [|r rest IH]; intros sel [|sub A'] H; cbn in H; try contradiction; cbn; [reflexivity|].
    destruct H as (_ & _ & Hv). f_equal. eapply IH; exact Hv.
  Qed.

  Theorem spec_valid rules : forall sel,
    exists A, valid rules sel A /\ fit_spec rules sel = (fits_of rules A, unselected (final_sel sel A)).
  Proof.
    induction rules as [|r rest IH]; intros sel.
    - exists []. split; [exact I|reflexivity].
    - destruct (proj1 (level_spec peers r rest sel _) (fit_spec_in peers r rest sel)) as (sub & Hsl & Hlen & E).
      destruct (IH (sel_with sub sel)) as (A' & Hv & Esp).
      exists (sub :: A'). split.
      + cbn. split; [exact Hsl|]. split; [lia|exact Hv].
      + rewrite <- E. unfold cand. rewrite Esp. reflexivity.
  Qed.

  Lemma lexcmp_cons_same f a b : lexcmp (f :: a) (f :: b) = lexcmp a b.
  Proof. unfold lexcmp. cbn. rewrite (g_refl _ good_crf). reflexivity. Qed.

  Theorem spec_optimal rules : forall sel A,
    valid rules sel A -> lexcmp (fst (fit_spec rules sel)) (fits_of rules A) <> Lt.
  Proof.
    induction rules as [|r rest IH]; intros sel [|sub A'] H; cbn in H; try contradiction.
    - cbn. discriminate.
    - destruct H as (Hs & Hc & Hv). cbn [fits_of].
      (* it is enough to find a candidate result of r that is not worse *)
      assert (Hge : forall y, In y (level peers r rest sel) ->
                lexcmp (fst y) (new_rule_fit r sub :: fits_of rest A') <> Lt ->
                lexcmp (fst (fit_spec (r :: rest) sel)) (new_rule_fit r sub :: fits_of rest A') <> Lt).
      { intros y Hy. apply (g_ge_trans _ good_lexcmp). exact (fit_spec_max peers r rest sel y Hy). }
      set (k := Nat.min (rcount r) (length (candidates r sel))).
      assert (Hk : (length sub <= k)%nat) by (pose proof (sublist_length _ _ Hs); subst k; lia).
      destruct (Nat.eq_dec (length sub) k) as [Ek|Nk].
      + (* sub is full: its own candidate, by induction below it *)
        apply (Hge (cand peers r rest sel sub)); [apply level_spec; exists sub; auto|].
        unfold cand. specialize (IH (sel_with sub sel) A' Hv).
        destruct (C12_Fit.fit_spec peers rest (sel_with sub sel)) as [t o]. cbn [fst] in *.
        rewrite lexcmp_cons_same. exact IH.
      + (* sub is short: any candidate has more peers *)
        destruct (proj1 (level_spec peers r rest sel _) (fit_spec_in peers r rest sel)) as (sub0 & _ & Hl0 & E0).
        apply (Hge _ (fit_spec_in peers r rest sel)). rewrite <- E0. unfold cand.
        destruct (C12_Fit.fit_spec peers rest (sel_with sub0 sel)) as [t o]. cbn [fst]. unfold lexcmp. cbn [lexlist].
        assert (Hc' : compare_rule_fit (new_rule_fit r sub0) (new_rule_fit r sub) = Gt).
        { apply crf_gt_iff. left. cbn. fold k in Hl0. lia. }
        rewrite Hc'. discriminate.
  Qed.

  Lemma lexcmp_eq_counts rules : forall sel1 sel2 A1 A2,
    valid rules sel1 A1 -> valid rules sel2 A2 ->
    lexcmp (fits_of rules A1) (fits_of rules A2) = Eq -> length (concat A1) = length (concat A2).
  Proof.
    induction rules as [|r rest IH]; intros sel1 sel2 [|s1 A1] [|s2 A2] H1 H2 E; cbn in H1, H2; try contradiction.
    - reflexivity.
    - destruct H1 as (_ & _ & H1). destruct H2 as (_ & _ & H2).
      unfold lexcmp in E. cbn in E. apply lexc_eq in E as [E1 E2].
      apply crf_eq_iff in E1 as (E1 & _). cbn in E1.
      cbn [concat]. rewrite !app_length. rewrite E1. f_equal. eapply IH; eauto.
  Qed.

  Theorem spec_optimal_region rules sel A :
    valid rules sel A ->
    compare_region_fit (fit_spec rules sel) (fits_of rules A, unselected (final_sel sel A)) <> Lt.
  Proof.
    intros Hv. destruct (spec_valid rules sel) as (AS & HvS & ES).
    rewrite compare_region_fit_same_len.
    2:{ cbn [fst]. rewrite fit_spec_length. symmetry. eapply fits_of_length; exact Hv. }
    pose proof (spec_optimal rules sel A Hv) as Hopt. cbn [fst snd].
    destruct (lexcmp (fst (fit_spec rules sel)) (fits_of rules A)) eqn:El; try congruence; cbn [lexc]; [|discriminate].
    rewrite ES in El |- *. cbn [fst snd] in *.
    pose proof (lexcmp_eq_counts rules sel sel AS A HvS Hv El) as Hc.
    pose proof (Permutation_length (valid_partition rules sel A Hv)) as P1.
    pose proof (Permutation_length (valid_partition rules sel AS HvS)) as P2.
    rewrite app_length in P1, P2.
    rewrite Nat.compare_lt_iff. lia.
  Qed.
End Spec.

Lemma mk_fpeers_from_idx stores leader l : forall n,
  map fidx (mk_fpeers_from n stores leader l) = seq n (length l).
Proof. induction l as [|p r IH]; intros n; cbn; [reflexivity|]. f_equal. apply IH. Qed.

Lemma mk_fpeers_nodup stores leader ps : NoDup (map fidx (mk_fpeers stores leader ps)).
Proof. unfold mk_fpeers. rewrite mk_fpeers_from_idx. apply seq_NoDup. Qed.

Lemma mk_fpeers_from_store stores leader l : forall n p s,
  In p (mk_fpeers_from n stores leader l) -> fstore p = Some s -> In s stores.
Proof.
  induction l as [|q r IH]; intros n p s Hp Hs; cbn in Hp; [destruct Hp|].
  destruct Hp as [Hp|Hp]; [|eapply IH; eauto].
  subst p. cbn in Hs. unfold find_store in Hs. apply find_some in Hs. tauto.
Qed.

Lemma insert_peer_perm p l : Permutation (insert_peer p l) (p :: l).
Proof.
  induction l as [|q r IH]; cbn; [apply Permutation_refl|].
  destruct (pid q <? pid p)%Z; [|apply Permutation_refl].
  eapply Permutation_trans; [apply perm_skip; exact IH|apply perm_swap].
Qed.
Lemma sort_peers_perm l : Permutation (sort_peers l) l.
Proof.
  induction l as [|p r IH]; cbn; [constructor|].
  eapply Permutation_trans; [apply insert_peer_perm|apply perm_skip; exact IH].
Qed.
Lemma mk_fpeers_from_pids stores leader l : forall n, map fpid (mk_fpeers_from n stores leader l) = map pid l.
Proof. induction l as [|p r IH]; intros n; cbn; [reflexivity|]. f_equal. apply IH. Qed.

Theorem fit_region_eq_spec stores leader ps rules :
  fit_region stores leader ps rules =
  (map Some (fst (fit_region_spec stores leader ps rules)), snd (fit_region_spec stores leader ps rules)).
Proof.
  unfold fit_region, fit_region_spec. apply fit_imp_eq_spec. apply mk_fpeers_from_store.
Qed.

(* what a fit (rule fits + orphans) has to satisfy against its inputs *)
Definition rule_fit_ok (r : rule) (f : rulefit) : Prop :=
  (forall p, In p (rf_peers f) ->
     match_label_constraints (fstore p) (rcons r) = true /\ match_role_loose p (rrole r) = true) /\
  (length (rf_peers f) <= rcount r)%nat /\
  rf_diff f = filter (fun p => negb (match_role_strict p (rrole r))) (rf_peers f) /\
  rf_score f = isolation_score (rf_peers f) (rlocs r).

Lemma valid_fits peers rules : forall sel A,
  valid peers rules sel A ->
  concat (map rf_peers (fits_of rules A)) = concat A /\ Forall2 rule_fit_ok rules (fits_of rules A).
Proof.
  induction rules as [|r rest IH]; intros sel [|sub A'] H; cbn in H; try contradiction; [split; constructor|].
  destruct H as (Hs & Hc & Hv). destruct (IH _ _ Hv) as [C F]. cbn [fits_of map concat]. split.
  - cbn [rf_peers new_rule_fit]. f_equal. exact C.
  - constructor; [|exact F]. unfold rule_fit_ok. cbn. split; [|split; [exact Hc|split; reflexivity]].
    intros p Hp. pose proof (sublist_In _ _ Hs p Hp) as Hin. apply filter_In in Hin as [_ Hok].
    apply andb_true_iff in Hok as [Hok _]. apply andb_true_iff in Hok. exact Hok.
Qed.

Theorem fit_partition stores leader ps rules :
  exists fits orph,
    fit_region stores leader ps rules = (map Some fits, orph) /\
    length fits = length rules /\
    Permutation (concat (map rf_peers fits) ++ orph) (mk_fpeers stores leader ps) /\
    Forall2 rule_fit_ok rules fits.
Proof.
  rewrite fit_region_eq_spec. unfold fit_region_spec.
  set (peers := mk_fpeers stores leader ps).
  destruct (spec_valid peers rules []) as (A & Hv & E). rewrite E. cbn [fst snd].
  exists (fits_of rules A), (unselected peers (final_sel [] A)). split; [reflexivity|]. split; [|split].
  - eapply fits_of_length; exact Hv.
  - rewrite (proj1 (valid_fits peers rules [] A Hv)).
    assert (E0 : unselected peers [] = peers) by (apply filter_true_id; reflexivity).
    rewrite <- E0 at 2. apply (valid_partition peers (mk_fpeers_nodup stores leader ps) rules [] A Hv).
  - exact (proj2 (valid_fits peers rules [] A Hv)).
Qed.

Theorem fit_optimal stores leader ps rules :
  exists fits orph,
    fit_region stores leader ps rules = (map Some fits, orph) /\
    forall A, valid (mk_fpeers stores leader ps) rules [] A ->
      compare_region_fit (fits, orph)
        (fits_of rules A, unselected (mk_fpeers stores leader ps) (final_sel [] A)) <> Lt.
Proof.
  rewrite fit_region_eq_spec. unfold fit_region_spec.
  set (peers := mk_fpeers stores leader ps).
  exists (fst (fit_spec peers rules [])), (snd (fit_spec peers rules [])). split; [reflexivity|].
  intros A Hv. rewrite <- surjective_pairing. apply spec_optimal_region; [apply mk_fpeers_nodup|exact Hv].
Qed.

Lemma all_satisfied_iff rules : forall fits,
  Forall2 rule_fit_ok rules fits ->
  (all_satisfied rules fits = true <->
   Forall2 (fun r f => length (rf_peers f) = rcount r /\ forall p, In p (rf_peers f) -> match_role_strict p (rrole r) = true) rules fits).
Proof.
  intros fits H. induction H as [|r f rules' fits' Hok _ IH]; cbn [all_satisfied].
  - split; [constructor|reflexivity].
  - destruct Hok as (_ & _ & Hd & _).
    rewrite andb_true_iff, IH. unfold rule_satisfied.
    rewrite andb_true_iff, !Nat.eqb_eq, Hd, length_zero_iff_nil, filter_nil.
    split.
    + intros [[H1 H2] H3]. constructor; [|exact H3]. split; [exact H1|]. intros p Hp. apply negb_false_iff, H2, Hp.
    + intros H'. inversion H' as [|? ? ? ? [H1 H2] H3]; subst. split; [|exact H3]. split; [exact H1|].
      intros p Hp. apply negb_false_iff, H2, Hp.
Qed.

Theorem satisfied_iff stores leader ps rules :
  exists fits orph,
    fit_region stores leader ps rules = (map Some fits, orph) /\
    (is_satisfied rules (fits, orph) = true <->
     rules <> [] /\
     Forall2 (fun r f => length (rf_peers f) = rcount r /\
                         forall p, In p (rf_peers f) -> match_role_strict p (rrole r) = true) rules fits /\
     orph = []).
Proof.
  destruct (fit_partition stores leader ps rules) as (fits & orph & E & Hl & _ & Hok).
  exists fits, orph. split; [exact E|].
  unfold is_satisfied. cbn [fst snd].
  destruct fits as [|f fits'].
  - destruct rules; [|discriminate]. split; [discriminate|]. intros [H _]. congruence.
  - destruct rules as [|r rules']; [discriminate|].
    rewrite andb_true_iff, (all_satisfied_iff _ _ Hok), Nat.eqb_eq.
    split.
    + intros [H1 H2]. split; [discriminate|]. split; [exact H1|]. destruct orph; [reflexivity|discriminate].
    + intros (_ & H1 & H2). subst orph. split; [exact H1|reflexivity].
Qed.

Lemma all_some_map_Some {A} (l : list A) : all_some (map Some l) = Some l.
Proof. induction l as [|x r IH]; cbn; [reflexivity|]. rewrite IH. reflexivity. Qed.

(* the search leaves no nil RuleFit: split_best's default is never used and IsSatisfied cannot panic *)
Corollary fit_region_all_some stores leader ps rules :
  exists fits, all_some (fst (fit_region stores leader ps rules)) = Some fits /\ length fits = length rules.
Proof.
  destruct (fit_partition stores leader ps rules) as (fits & orph & E & Hl & _).
  exists fits. rewrite E. cbn [fst]. split; [apply all_some_map_Some|exact Hl].
Qed.

(* sort.Slice is not stable.  A list that is already ordered by peer id is a fixed point of
   sort_peers, so whichever order the unstable sort leaves among peers of equal id, FitRegion's behaviour
   is `fit_region` of that arrangement — and every theorem above holds for every arrangement. *)
Definition pid_le (a b : peer) : Prop := (pid a <= pid b)%Z.

Lemma insert_peer_head p l : (forall q, In q l -> pid_le p q) -> insert_peer p l = p :: l.
Proof.
  destruct l as [|q r]; intros H; [reflexivity|]. cbn.
  pose proof (H q (or_introl eq_refl)) as L. unfold pid_le in L.
  destruct (Z.ltb_spec (pid q) (pid p)); [lia|reflexivity].
Qed.

Theorem sort_peers_sorted l : StronglySorted pid_le l -> sort_peers l = l.
Proof.
  induction 1 as [|p r S IH F]; [reflexivity|]. cbn [sort_peers fold_right]. fold (sort_peers r). rewrite IH.
  apply insert_peer_head. rewrite Forall_forall in F. exact F.
Qed.

(* isolation scores are exact in float64: 0 <= score <= C(n,2) * base^(levels-1) *)
Lemma pair_score_bounds p1 p2 labels :
  (0 <= pair_score p1 p2 labels <= replicaBaseScore ^ (Z.of_nat (length labels) - 1))%Z.
Proof.
  unfold pair_score. pose proof base_gt_1 as B. destruct (compare_location p1 p2 labels) as [i|].
  - split; [apply Z.pow_nonneg; lia|apply Z.pow_le_mono_r; lia].
  - split; [lia|apply Z.pow_nonneg; lia].
Qed.

Lemma fold_pair_bounds p1 labels r : forall acc,
  (acc <= fold_left (fun a p2 => a + pair_score p1 p2 labels) r acc
       <= acc + Z.of_nat (length r) * replicaBaseScore ^ (Z.of_nat (length labels) - 1))%Z.
Proof.
  induction r as [|p2 r IH]; intros acc; cbn [fold_left length]; [lia|].
  pose proof (pair_score_bounds p1 p2 labels) as B. specialize (IH (acc + pair_score p1 p2 labels)%Z).
  rewrite Nat2Z.inj_succ. nia.
Qed.

(* the number of pairs among n + 1 peers *)
Lemma pairs_succ n : (S n * (S n - 1) / 2 = n + n * (n - 1) / 2)%nat.
Proof.
  replace (S n - 1)%nat with n by lia. destruct n as [|n]; [reflexivity|].
  replace (S (S n) * S n)%nat with (S n * 2 + S n * (S n - 1))%nat by nia.
  rewrite Nat.div_add_l by lia. reflexivity.
Qed.

Lemma score_pairs_bounds ps labels :
  (0 <= score_pairs ps labels
     <= Z.of_nat (length ps * (length ps - 1) / 2) * replicaBaseScore ^ (Z.of_nat (length labels) - 1))%Z.
Proof.
  induction ps as [|p r IH]; cbn [score_pairs length]; [cbn; lia|].
  pose proof (fold_pair_bounds p labels r 0%Z) as B. rewrite pairs_succ, Nat2Z.inj_add. nia.
Qed.

Theorem isolation_score_bounds ps labels :
  (0 <= isolation_score ps labels
     <= Z.of_nat (length ps * (length ps - 1) / 2) * replicaBaseScore ^ (Z.of_nat (length labels) - 1))%Z.
Proof.
  unfold isolation_score. pose proof (score_pairs_bounds ps labels) as B.
  destruct labels; [cbn; nia|]. destruct (length ps <=? 1)%nat; [nia|exact B].
Qed.

(* with at most 7 location labels and 6 peers per rule every score is an integer
   below 2^53, i.e. exactly representable: the float64 comparison of compareRuleFit is the comparison on Z *)
Corollary isolation_score_exact_in_float64 ps labels :
  (length ps <= 6)%nat -> (length labels <= 7)%nat -> (0 <= isolation_score ps labels < 2 ^ 53)%Z.
Proof.
  intros Hp Hl. pose proof (isolation_score_bounds ps labels) as [B1 B2]. split; [exact B1|].
  assert (E1 : (Z.of_nat (length ps * (length ps - 1) / 2) <= 15)%Z).
  { assert (length ps * (length ps - 1) / 2 <= 15)%nat; [|lia].
    apply Nat.div_le_upper_bound; [lia|]. nia. }
  pose proof base_gt_1 as B.
  assert (E2 : (replicaBaseScore ^ (Z.of_nat (length labels) - 1) <= replicaBaseScore ^ 6)%Z) by (apply Z.pow_le_mono_r; lia).
  assert (E3 : (0 <= replicaBaseScore ^ (Z.of_nat (length labels) - 1))%Z) by (apply Z.pow_nonneg; lia).
  assert (E4 : (15 * replicaBaseScore ^ 6 < 2 ^ 53)%Z) by reflexivity.
  nia.
Qed.

Lemma sublists_spec {A} (l : list A) : forall s, In s (sublists l) <-> sublist s l.
Proof.
  induction l as [|x r IH]; intros s; cbn [sublists].
  - split; [intros [<-|[]]; constructor|]. intros H. inversion H; subst. left; reflexivity.
  - rewrite in_app_iff, in_map_iff. split.
    + intros [[s' [<- H]]|H]; [apply sl_take; apply IH; exact H|apply sl_skip; apply IH; exact H].
    + intros H. inversion H as [l'|s' x' l' H'|s' x' l' H']; subst.
      * right. apply IH. constructor.
      * right. apply IH. exact H'.
      * left. exists s'. split; [reflexivity|apply IH; exact H'].
Qed.

Theorem all_valid_spec peers rules : forall sel A, In A (all_valid peers rules sel) <-> valid peers rules sel A.
Proof.
  induction rules as [|r rest IH]; intros sel A; cbn [all_valid valid].
  - destruct A as [|a A'].
    + split; intros _; [exact I|left; reflexivity].
    + split; [intros [H|[]]; discriminate|intros []].
  - rewrite in_flat_map. split.
    + intros [sub [Hs Hin]]. apply filter_In in Hs as [Hs Hl]. apply in_map_iff in Hin as [A' [<- HA']].
      split; [apply sublists_spec; exact Hs|]. split; [apply Nat.leb_le; exact Hl|apply IH; exact HA'].
    + destruct A as [|sub A']; [tauto|]. intros (Hs & Hl & Hv). exists sub. split.
      * apply filter_In. split; [apply sublists_spec; exact Hs|apply Nat.leb_le; exact Hl].
      * apply in_map. apply IH. exact Hv.
Qed.

