(* C10/C11 — facts about the step semantics of lib/C10_Cluster.v (TiKV's conf-change
   rules) that do not depend on any generated table: how an accepted step changes the peer list, and
   "at most one peer per store" as an invariant of every accepted step. *)
From Coq Require Import Permutation.
From PDV Require Import lib.C07_List lib.C10_Cluster.
Local Open Scope list_scope.
Local Open Scope Z_scope.

Lemma stores_set_role ps st r : stores_of (set_role ps st r) = stores_of ps.
Proof.
  unfold stores_of, set_role. rewrite map_map. apply map_ext. intros p.
  destruct (p_store p =? st); reflexivity.
Qed.

Lemma length_set_role ps st r : List.length (set_role ps st r) = List.length ps.
Proof. unfold set_role. apply map_length. Qed.

Lemma stores_fold_set_role (l : list (Z * Z)) r : forall ps,
  stores_of (fold_left (fun acc x => set_role acc (fst x) r) l ps) = stores_of ps.
Proof. induction l as [|x l IH]; intros ps; cbn [fold_left]; [reflexivity|]. rewrite IH. apply stores_set_role. Qed.

Lemma peer_on_None ps st : peer_on ps st = None -> ~ In st (stores_of ps).
Proof.
  unfold peer_on, stores_of. intros H Hin. apply in_map_iff in Hin as (p & Hp & Hin).
  eapply find_none in H; [|exact Hin]. cbn in H. rewrite Hp, Z.eqb_refl in H. discriminate.
Qed.

Lemma NoDup_app_one (l : list Z) x : NoDup l -> ~ In x l -> NoDup (l ++ [x]).
Proof. intros Hn Hx. exact (Permutation_NoDup (Permutation_cons_append l x) (NoDup_cons x Hx Hn)). Qed.

Definition leave_role (p : peer) : peer :=
  match p_role p with
  | Incoming => Peer (p_id p) (p_store p) Voter
  | Demoting => Peer (p_id p) (p_store p) Learner
  | _ => p
  end.
Lemma stores_leave ps : stores_of (map leave_role ps) = stores_of ps.
Proof.
  unfold stores_of. rewrite map_map. apply map_ext. intros p. unfold leave_role. destruct (p_role p); reflexivity.
Qed.

(* how a step changes the peer list: stores and length *)
Inductive step_effect (ps ps' : list peer) : Z -> Prop :=
| eff_same : stores_of ps' = stores_of ps -> step_effect ps ps' 0
| eff_add st p : ~ In st (stores_of ps) -> p_store p = st -> ps' = ps ++ [p] -> step_effect ps ps' 1
| eff_remove st : ps' = filter (fun p => negb (p_store p =? st)) ps -> step_effect ps ps' (-1).

Definition step_delta (x : step) : Z :=
  match x with AddPeerS _ _ | AddLearnerS _ _ => 1 | RemovePeerS _ => -1 | _ => 0 end.

Lemma apply_step_effect s x s' : apply_step s x = Some s' -> step_effect (rs_peers s) (rs_peers s') (step_delta x).
Proof.
  destruct s as [ps ld]. destruct x; cbn [apply_step rs_peers rs_leader step_delta]; intros H.
  - destruct (peer_on ps to) as [p|]; [|discriminate]. destruct (p_role p); inversion H; subst; apply eff_same; reflexivity.
  - destruct (peer_on ps st) eqn:E; [discriminate|]. inversion H; subst; cbn.
    eapply eff_add; [apply peer_on_None; exact E| |reflexivity]. reflexivity.
  - destruct (peer_on ps st) eqn:E; [discriminate|]. inversion H; subst; cbn.
    eapply eff_add; [apply peer_on_None; exact E| |reflexivity]. reflexivity.
  - destruct (has_role ps st id Learner); inversion H; subst; cbn. apply eff_same. apply stores_set_role.
  - destruct (has_role ps st id Voter && negb (st =? ld)); inversion H; subst; cbn. apply eff_same. apply stores_set_role.
  - destruct (st =? ld); inversion H; subst; cbn. eapply eff_remove. reflexivity.
  - destruct (in_joint ps); [discriminate|].
    destruct (forallb _ promote && forallb _ demote); inversion H; subst; cbn.
    apply eff_same. rewrite stores_fold_set_role. apply stores_fold_set_role.
  - destruct (peer_on ps ld) as [l|]; [|discriminate]. destruct (p_role l); inversion H; subst; cbn;
      apply eff_same; apply (stores_leave ps).
  - inversion H; subst. apply eff_same. reflexivity.
Qed.

Lemma apply_step_nodup s x s' :
  apply_step s x = Some s' -> NoDup (stores_of (rs_peers s)) -> NoDup (stores_of (rs_peers s')).
Proof.
  intros H Hn. apply apply_step_effect in H. inversion H as [E | st p Hst Hp E | st E].
  - rewrite E. exact Hn.
  - rewrite E. unfold stores_of. rewrite map_app. cbn. apply NoDup_app_one; [exact Hn|]. rewrite Hp. exact Hst.
  - rewrite E. apply NoDup_map_filter. exact Hn.
Qed.

Lemma filter_one_length ps st :
  NoDup (stores_of ps) ->
  Nat.le (List.length ps) (S (List.length (filter (fun p => negb (p_store p =? st)) ps))).
Proof.
  induction ps as [|p ps IH]; cbn; intros Hn; [lia|].
  inversion Hn as [|? ? Hp Hl]; subst.
  destruct (p_store p =? st) eqn:E; cbn.
  - apply Z.eqb_eq in E.
    assert (F : filter (fun q => negb (p_store q =? st)) ps = ps).
    { apply filter_true_id. intros q Hq. apply negb_true_iff, Z.eqb_neq. intros E2. apply Hp.
      rewrite E, <- E2. apply in_map. exact Hq. }
    rewrite F. lia.
  - specialize (IH Hl). lia.
Qed.

Lemma apply_step_length s x s' :
  apply_step s x = Some s' -> NoDup (stores_of (rs_peers s)) ->
  Z.of_nat (List.length (rs_peers s)) + step_delta x <= Z.of_nat (List.length (rs_peers s')).
Proof.
  intros H Hn. apply apply_step_effect in H. inversion H as [E | st p Hst Hp E | st E].
  - assert (L : List.length (rs_peers s') = List.length (rs_peers s)).
    { unfold stores_of in E. rewrite <- (map_length p_store (rs_peers s')), E. apply map_length. }
    lia.
  - rewrite E, app_length. cbn. lia.
  - rewrite E. pose proof (filter_one_length (rs_peers s) st Hn). lia.
Qed.

Lemma run_steps_nodup xs : forall s tr,
  run_steps s xs = Some tr -> NoDup (stores_of (rs_peers s)) -> Forall (fun s' => NoDup (stores_of (rs_peers s'))) tr.
Proof.
  induction xs as [|x xs IH]; intros s tr H Hn; cbn in H.
  - inversion H; subst. constructor; [exact Hn|constructor].
  - destruct (apply_step s x) as [s1|] eqn:E; [|discriminate].
    destruct (run_steps s1 xs) as [t|] eqn:E2; [|discriminate]. inversion H; subst.
    constructor; [exact Hn|]. eapply IH; [exact E2|]. eapply apply_step_nodup; eauto.
Qed.

