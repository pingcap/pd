(* C14 — the lifecycle side of model/C14_Store.v: what each primitive does to the served map, the
   relation `change` (what one command may do to the served record of one store id) and what follows
   from it.  That every command stays within `change` is shown in proof/C14_Durable.v, in the same
   pass over the commands that gives the durability clauses. *)
From Coq Require Import String Ascii.
From PDV Require Import lib.Base lib.C14_AList model.C14_Store.
Local Open Scope string_scope.
Local Open Scope Z_scope.

Lemma sv_set_served s id x j : sv (set_served s id x) j = if id =? j then Some x else sv s j.
Proof. unfold sv, set_served; cbn. apply aget_aset. Qed.
Lemma sv_del_served s id j : sv (del_served s id) j = if id =? j then None else sv s j.
Proof. unfold sv, del_served; cbn. apply aget_adel. Qed.
Lemma served_version_change s : served (version_change s) = served s.
Proof. unfold version_change. destruct (min_ver (served s)); [destruct (ver_lt _ _)|]; reflexivity. Qed.

(* the other primitives do not touch the served map (by computation) *)
Lemma sv_write_meta s id m j : sv (write_meta s id m) j = sv s j.
Proof. reflexivity. Qed.
Lemma sv_del_meta s id j : sv (del_meta s id) j = sv s j.
Proof. reflexivity. Qed.
Lemma sv_write_lw s id w j : sv (write_lw s id w) j = sv s j.
Proof. reflexivity. Qed.
Lemma sv_write_rw s id w j : sv (write_rw s id w) j = sv s j.
Proof. reflexivity. Qed.
Lemma sv_set_cver s v j : sv (set_cver s v) j = sv s j.
Proof. reflexivity. Qed.

(* the outcome of a storage write is (applied, acknowledged): never acknowledged without being applied *)
Lemma wr_cases f sid idx : wr f sid idx = (true, true) \/ wr f sid idx = (false, false) \/ wr f sid idx = (true, false).
Proof.
  unfold wr. destruct f as [|s i k]; [auto|].
  destruct ((s =? sid) && Nat.eqb i idx)%bool; [destruct k|]; auto.
Qed.

Lemma put_locked_sv s id x f idx s' ok :
  put_locked s id x f idx = (s', ok) -> forall j, sv s' j = if (ok && (id =? j))%bool then Some x else sv s j.
Proof.
  unfold put_locked. intros H j.
  destruct (wr_cases f id idx) as [E|[E|E]]; rewrite E in H; cbn in H; inv H; cbn [andb]; [|reflexivity..].
  rewrite sv_set_served. reflexivity.
Qed.

Lemma sstate_eqb_eq a b : sstate_eqb a b = true <-> a = b.
Proof. destruct a, b; cbn; split; intros H; try discriminate; reflexivity. Qed.
Lemma is_tomb_true x : is_tomb x = true <-> s_state x = Tombstone.
Proof. apply sstate_eqb_eq. Qed.
Lemma is_tomb_false x : is_tomb x = false <-> s_state x <> Tombstone.
Proof. rewrite <- is_tomb_true. destruct (is_tomb x); split; congruence. Qed.
Lemma live_iff x : live x = true <-> s_state x <> Tombstone /\ s_pd x = false.
Proof. unfold live. rewrite andb_true_iff, !negb_true_iff, is_tomb_false. reflexivity. Qed.

Definition is_put_of (o : op) (id : Z) : bool := match o with OPut _ p _ => p_id p =? id | _ => false end.

(* the possible relations between the served record of `id` before and after one command `o` started in state `s`
   (s is read for the address check and the region tree only).  Which call of pd gives which case:
   ch_new / ch_readdr  PutStore of an id that is not served / is served, with an address no other live store has;
   ch_keep             labels, version, weights, heartbeat and region statistics: state, flag and address stay;
   ch_offline          RemoveStore;   ch_up  UpStore;   ch_bury  buryStore (checkStores);
   ch_clean            RemoveTombStoneRecords *)
Inductive change (s : state) (o : op) (id : Z) : option sstore -> option sstore -> Prop :=
| ch_same a : change s o id a a
| ch_new y : is_put_of o id = true -> dup_addr s id (s_addr y) = false -> change s o id None (Some y)
| ch_keep x y : s_state y = s_state x -> s_pd y = s_pd x -> s_addr y = s_addr x -> change s o id (Some x) (Some y)
| ch_readdr x y : is_put_of o id = true -> dup_addr s id (s_addr y) = false ->
                  s_state y = s_state x -> s_pd y = s_pd x -> change s o id (Some x) (Some y)
| ch_offline x y : s_state x <> Tombstone -> s_pd x = false -> s_state y = Offline -> s_addr y = s_addr x ->
                   change s o id (Some x) (Some y)
| ch_up x y : s_state x = Offline -> s_pd x = false -> s_state y = Up -> s_pd y = false -> s_addr y = s_addr x ->
              change s o id (Some x) (Some y)
| ch_bury x y : s_state x = Offline -> s_state y = Tombstone -> s_pd y = s_pd x -> s_addr y = s_addr x ->
                tree_count s id = 0 -> change s o id (Some x) (Some y)
| ch_clean x : s_state x = Tombstone -> is_clean o = true -> change s o id (Some x) None.

(* the boolean the monitor evaluates on implementation traces, on model records *)
Definition smove_ok (o : op) (id : Z) (a b : option sstore) : bool :=
  move_ok o id (option_map view_served a) (option_map view_served b).

Lemma change_move_ok s o id a b : change s o id a b -> smove_ok o id a b = true.
Proof.
  unfold smove_ok. intros C; destruct C as [a|y Hp _|x y H1 H2 _|x y _ _ H1 H2|x y H1 H2 H3 _|x y H1 H2 H3 H4 _|x y H1 H2 H3 _ _|x H1 H2];
    cbn [option_map move_ok view_served v_state v_pd].
  - destruct a as [x|]; cbn [option_map move_ok view_served v_state v_pd]; [|reflexivity].
    destruct (s_pd x), (s_state x); reflexivity.
  - destruct o; cbn in Hp; try discriminate. exact Hp.
  - rewrite H1, H2. destruct (s_pd x), (s_state x); reflexivity.
  - rewrite H1, H2. destruct (s_pd x), (s_state x); reflexivity.
  - rewrite H2, H3. destruct (s_pd y), (s_state x); try reflexivity; exfalso; apply H1; reflexivity.
  - rewrite H1, H2, H3, H4. reflexivity.
  - rewrite H1, H2, H3. destruct (s_pd x); reflexivity.
  - rewrite H1. destruct o; cbn in H2; try discriminate. reflexivity.
Qed.

Lemma change_tombstone s o id x b :
  change s o id (Some x) b -> s_state x = Tombstone ->
  (exists y, b = Some y /\ s_state y = Tombstone) \/ (b = None /\ is_clean o = true).
Proof.
  intros C T. inversion C; subst; try congruence.
  - left; eauto.
  - left; eexists; split; [reflexivity|congruence].
  - left; eexists; split; [reflexivity|congruence].
  - right; auto.
Qed.

Lemma change_bury s o id x y :
  change s o id (Some x) (Some y) -> s_state x <> Tombstone -> s_state y = Tombstone -> tree_count s id = 0.
Proof. intros C Nx Ty. inversion C; subst; try congruence; assumption. Qed.

Definition addr_inv (s : state) : Prop :=
  forall i j x y, i <> j -> sv s i = Some x -> sv s j = Some y -> live x = true -> live y = true -> s_addr x <> s_addr y.

Lemma dup_addr_false s id a :
  dup_addr s id a = false -> forall j y, sv s j = Some y -> j <> id -> live y = true -> s_addr y <> a.
Proof.
  unfold dup_addr. intros H j y E Hne Hl Ha.
  assert (Hin : In (j, y) (served s)) by (apply aget_In; exact E).
  rewrite <- not_true_iff_false in H. apply H. apply existsb_exists. exists (j, y). split; [exact Hin|].
  cbn [fst snd]. rewrite Hl. destruct (Z.eqb_spec j id); [contradiction|]. cbn. apply String.eqb_eq. exact Ha.
Qed.

(* a live record after a command either comes from a live record with the same address, or was put
   with an address no other live store had *)
Lemma change_origin s o id b y :
  change s o id b (Some y) -> live y = true ->
  (exists x, b = Some x /\ s_addr y = s_addr x /\ live x = true) \/ (is_put_of o id = true /\ dup_addr s id (s_addr y) = false).
Proof.
  rewrite live_iff. intros C [L1 L2].
  assert (K : forall x, s_addr y = s_addr x -> s_state x <> Tombstone -> s_pd x = false ->
                        exists x0, Some x = Some x0 /\ s_addr y = s_addr x0 /\ live x0 = true)
    by (intros x A B D; exists x; rewrite live_iff; auto).
  inversion C; subst.
  - (* ch_same *) left. apply K; auto.
  - (* ch_new *) right; auto.
  - (* ch_keep *) left. apply K; congruence.
  - (* ch_readdr *) right; auto.
  - (* ch_offline *) left. apply K; congruence.
  - (* ch_up *) left. apply K; congruence.
  - (* ch_bury: y would be a tombstone *) congruence.
Qed.

Lemma is_put_of_unique o i j : is_put_of o i = true -> is_put_of o j = true -> i = j.
Proof. destruct o; cbn; try discriminate. intros A B. apply Z.eqb_eq in A, B. congruence. Qed.

Lemma addr_inv_change s o s' : addr_inv s -> (forall j, change s o j (sv s j) (sv s' j)) -> addr_inv s'.
Proof.
  intros I C i j x y Hne Ei Ej Lx Ly Ha.
  pose proof (C i) as Ci. pose proof (C j) as Cj. rewrite Ei in Ci. rewrite Ej in Cj.
  destruct (change_origin _ _ _ _ _ Ci Lx) as [[x0 [Ex0 [Ax0 Lx0]]]|[Pi Di]];
  destruct (change_origin _ _ _ _ _ Cj Ly) as [[y0 [Ey0 [Ay0 Ly0]]]|[Pj Dj]].
  - apply (I i j x0 y0 Hne Ex0 Ey0 Lx0 Ly0). congruence.
  - apply (dup_addr_false _ _ _ Dj i x0 Ex0 Hne Lx0). congruence.
  - apply (dup_addr_false _ _ _ Di j y0 Ey0 (not_eq_sym Hne) Ly0). congruence.
  - apply Hne. eapply is_put_of_unique; eauto.
Qed.

Lemma addr_inv_boot cv p : addr_inv (boot cv p).
Proof.
  intros i j x y Hne Ei Ej _ _. unfold sv, boot in *. cbn in Ei, Ej.
  destruct (Z.eqb_spec (p_id p) i); [|discriminate]. destruct (Z.eqb_spec (p_id p) j); [|discriminate]. congruence.
Qed.

(* histories as a fold over run_cmd; the proofs work on `run_state run_op` itself (Base.run_state_inv) *)
Lemma run_state_cmd s ops : run_state run_op s ops = fold_left (fun a o => fst (run_cmd a o)) ops s.
Proof.
  revert s; induction ops as [|o r IH]; intros s; cbn [run_state fold_left]; [reflexivity|].
  rewrite IH. unfold run_op. destruct (run_cmd s o); reflexivity.
Qed.
