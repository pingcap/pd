(* C07 — the model equals the linear-scan specification: invariant over operation lists and
   one lemma per query method. *)
From Coq Require Import Permutation Sorting.Sorted.
From PDV Require Import lib.Base lib.C07_Key gen.Gen_C07 model.C07_BTreeSpec model.C07_Region
  proof.C07_Sorted proof.C07_Tree proof.C07_RegionProof.
Local Open Scope Z_scope.

Definition wf_op (o : rop) : Prop := match o with OSet r => wf_region r = true | _ => True end.
Definition spec_of (ops : list rop) : spec := fold_left spec_step ops [].
Definition state_of (ops : list rop) : rinfo := ri_state ri_empty ops.

(* the abstraction relation: the specification's region list is the main tree's item list up to order *)
Definition Rel (l : spec) (st : rinfo) : Prop := Inv st /\ Permutation l (items (tree st)).

Lemma Inv_empty : Inv ri_empty.
Proof.
  split; [|split].
  - split; [reflexivity|]. split; [|reflexivity]. intros f s. destruct f; reflexivity.
  - split; [constructor|]. intros id r. cbn. tauto.
  - split; [apply ds_nil|]. split; [constructor|]. intros x [].
Qed.

Lemma trees_rep_items st T : trees_rep st T -> items (tree st) = T.
Proof. intros (H & _). rewrite H. reflexivity. Qed.

Lemma Inv_intro st T : trees_rep st T -> regs_rep (regs st) T -> good T -> Inv st.
Proof. intros H1 H2 H3. pose proof (trees_rep_items _ _ H1) as E. unfold Inv. rewrite E. auto. Qed.

(* what the invariant says about a state, without looking inside it *)
Lemma Inv_ds c : Inv c -> ds (items (tree c)).
Proof. intros (_ & _ & D & _). exact D. Qed.

Lemma Inv_ids c : Inv c -> NoDup (map r_id (items (tree c))).
Proof. intros (_ & _ & _ & N & _). exact N. Qed.

Lemma Inv_get c id x : Inv c -> (get_region c id = Some x <-> In x (items (tree c)) /\ r_id x = id).
Proof. intros (_ & HR & _). apply (regs_rep_get _ _ _ _ HR). Qed.

Lemma Inv_overlaps c r : Inv c -> valid_range r = true ->
  get_overlaps (tree c) r = filter (fun x => overlaps x r) (items (tree c)).
Proof. intros I V. destruct I as ((HT & _) & _ & D & _). rewrite HT at 1. apply (get_overlaps_spec _ _ _ D V). Qed.

Lemma Inv_set c r : Inv c -> wf_region r = true ->
  Inv (fst (set_region c r)) /\ items (tree (fst (set_region c r))) = spec_tree (items (tree c)) r /\
  snd (set_region c r) = displaced (items (tree c)) r.
Proof.
  intros (HT & HR & G) W. destruct (set_region_rep c _ r HT HR G W) as (A & B & C).
  split; [|split; [exact (trees_rep_items _ _ A)|exact C]].
  eapply Inv_intro; eauto. apply spec_tree_good; auto.
Qed.

Lemma Rel_set l st r : Rel l st -> wf_region r = true ->
  Rel (spec_set l r) (fst (set_region st r)) /\
  snd (set_region st r) = displaced (items (tree st)) r.
Proof.
  intros [I P] W. destruct (Inv_set st r I W) as (I' & E & C).
  split; [|exact C]. split; [exact I'|].
  rewrite E. unfold spec_set. fold (keep r).
  rewrite <- spec_tree_perm. constructor. apply Permutation_filter, P.
Qed.

Lemma Rel_remove l st id x : Rel l st -> get_region st id = Some x ->
  Rel (spec_remove l id) (remove_region st x).
Proof.
  intros [(HT & HR & G) P] GS. apply (regs_rep_get _ _ _ _ HR) in GS as [Hx Eid].
  destruct (remove_region_rep st _ x HT HR G Hx) as (A & B & C). split.
  - eapply Inv_intro; eauto.
  - rewrite (trees_rep_items _ _ A). unfold spec_remove.
    rewrite (filter_ext_in (fun y => negb (same x y)) (fun y => negb (r_id y =? id)) (items (tree st))).
    + apply Permutation_filter, P.
    + intros y Hy. rewrite <- Eid, (id_vs_same _ _ _ G Hx Hy). reflexivity.
Qed.

Lemma Rel_remove_none l st id : Rel l st -> get_region st id = None -> spec_remove l id = l.
Proof.
  intros [(HT & HR & G) P] GN. unfold spec_remove. apply filter_true_id. intros y Hy.
  apply negb_true_iff, Z.eqb_neq. apply (regs_rep_get_none _ _ _ HR GN). eapply Permutation_in; eauto.
Qed.

Lemma ri_step_query st o : (forall r, o <> OSet r) -> (forall id, o <> ORemove id) -> fst (ri_step st o) = st.
Proof.
  intros H1 H2. destruct o as [r|id|id0|k|k|ks ke lim|r|r|sto| |sto| |f sto ks ke dr|f sto rs]; try reflexivity; cbn.
  - exfalso; eapply H1; reflexivity.
  - exfalso; eapply H2; reflexivity.
  - destruct (all_some _); reflexivity.
  - destruct (random_one _ _ _ _); reflexivity.
  - destruct (random_many _ _); reflexivity.
Qed.

Lemma Rel_step l st o : Rel l st -> wf_op o -> Rel (spec_step l o) (fst (ri_step st o)).
Proof.
  intros R W. destruct o as [r|id|id0|k|k|ks ke lim|r|r|sto| |sto| |f sto ks ke dr|f sto rs]; try (rewrite ri_step_query by (intros; discriminate); exact R).
  - cbn in W. destruct (Rel_set l st r R W) as [R' _]. cbn.
    destruct (set_region st r) as [st' ov]. cbn in R'. destruct (bad st'); exact R'.
  - cbn. destruct (get_region st id) as [x|] eqn:GS; cbn.
    + eapply Rel_remove; eauto.
    + rewrite (Rel_remove_none _ _ _ R GS). exact R.
Qed.

Theorem Rel_run ops : Forall wf_op ops -> Rel (spec_of ops) (state_of ops).
Proof.
  unfold spec_of, state_of.
  assert (G : forall ops l st, Rel l st -> Forall wf_op ops -> Rel (fold_left spec_step ops l) (ri_state st ops)).
  { clear ops. induction ops as [|o ops IH]; intros l st R F; cbn; [exact R|].
    inversion F; subst. apply IH; [apply Rel_step; auto|auto]. }
  apply G. split; [apply Inv_empty|reflexivity].
Qed.

Section Queries.
  Variables (l : spec) (st : rinfo).
  Hypothesis R : Rel l st.
  Let T := items (tree st).

  Lemma q_ds : ds T. Proof. apply Inv_ds, R. Qed.
  Lemma q_perm : Permutation l T. Proof. destruct R as [_ P]. exact P. Qed.
  Lemma q_ids : NoDup (map r_id T). Proof. apply Inv_ids, R. Qed.
  Lemma q_tree : tree st = RT T (sum_size T). Proof. destruct R as [((H & _) & _) _]. exact H. Qed.
  Lemma q_regs : regs_rep (regs st) T. Proof. destruct R as [(_ & H & _) _]. exact H. Qed.
  Lemma q_fam f s : fam_of st f s = RT (filter (has_role f s) T) (sum_size (filter (has_role f s) T)).
  Proof. destruct R as [((_ & H & _) & _) _]. apply H. Qed.

  Lemma q_in x : In x l <-> In x T.
  Proof. split; apply Permutation_in; [apply q_perm | symmetry; apply q_perm]. Qed.

  Lemma q_sorted_filter p : sort_regions (filter p l) = filter p T.
  Proof. apply sort_regions_unique; [apply Permutation_filter, q_perm | apply ssorted_filter, ds_ssorted, q_ds]. Qed.

  Lemma q_get x : In x T -> get_region st (r_id x) = Some x.
  Proof. intros Hx. apply (regs_rep_get _ _ _ _ q_regs). auto. Qed.

  Lemma q_get_region id : get_region st id = List.find (fun r => r_id r =? id) l.
  Proof.
    destruct (get_region st id) as [x|] eqn:GS.
    - apply (regs_rep_get _ _ _ _ q_regs) in GS as [Hx E]. symmetry. apply find_unique.
      + apply q_in, Hx.
      + apply Z.eqb_eq, E.
      + intros y Hy Ey. apply Z.eqb_eq in Ey. apply q_in in Hy. apply (nodup_ids_eq _ _ _ q_ids Hy Hx). congruence.
    - symmetry. apply find_none_intro. intros y Hy. apply q_in in Hy. apply Z.eqb_neq.
      apply (regs_rep_get_none _ _ _ q_regs GS y Hy).
  Qed.

  Lemma q_len : length (regs st) = length T /\ length T = length l.
  Proof.
    split.
    - rewrite <- (map_length snd). apply Permutation_length. apply regs_rep_perm; [apply q_regs|apply q_ids].
    - symmetry. apply Permutation_length, q_perm.
  Qed.

  Lemma q_total : total_size (tree st) = sum_size l.
  Proof.
    rewrite q_tree, (sum_size_perm _ _ q_perm). unfold total_size, rt_len. cbn [items total].
    destruct T; reflexivity.
  Qed.

  Lemma q_fam_items f s : items (fam_of st f s) = spec_fam l f s.
  Proof. rewrite q_fam. unfold spec_fam. rewrite q_sorted_filter. reflexivity. Qed.

  Lemma q_fam_len f s : rt_len (fam_of st f s) = Z.of_nat (length (spec_fam l f s)).
  Proof. unfold rt_len. rewrite q_fam_items. reflexivity. Qed.

  Lemma q_fam_total f s : total_size (fam_of st f s) = sum_size (spec_fam l f s).
  Proof.
    unfold spec_fam. rewrite q_sorted_filter, q_fam. unfold total_size, rt_len. cbn [items total].
    destruct (filter (has_role f s) T); reflexivity.
  Qed.

  Lemma q_search k : search_region st k = spec_search l k.
  Proof.
    unfold search_region, spec_search. rewrite q_tree.
    destruct (search (RT T (sum_size T)) k) as [x|] eqn:S.
    - apply (search_spec _ _ _ _ q_ds) in S as [Hx C]. cbn. rewrite (q_get x Hx). symmetry.
      apply find_unique; [apply q_in, Hx|exact C|].
      intros y Hy Cy. apply q_in in Hy. eapply ds_contains_unique; eauto using q_ds.
    - cbn. symmetry. apply find_none_intro. intros y Hy. apply q_in in Hy. eapply search_none; eauto using q_ds.
  Qed.

  Lemma q_overlaps r : valid_range r = true -> get_overlaps (tree st) r = spec_overlaps l r.
  Proof.
    intros V. rewrite q_tree, (get_overlaps_spec _ _ _ q_ds V). unfold spec_overlaps. rewrite q_sorted_filter. reflexivity.
  Qed.

  Definition before_key (e : key) (x : region) : bool := is_nil e || key_ltb (r_start x) e.

  Lemma stop_is_not_before e x : negb (is_nil e) && key_leb e (r_start x) = negb (before_key e x).
  Proof.
    unfold before_key. destruct (is_nil_spec e); cbn; [reflexivity|].
    destruct (key_leb_spec e (r_start x)), (key_ltb_spec (r_start x) e); try reflexivity; exfalso; korder.
  Qed.

  Lemma scan_take_spec e lim L : (forall x, In x L -> In x T) -> ssorted L ->
    forall n, 0 <= n -> (0 < lim -> n <= lim) ->
    scan_take st e lim n L =
      map Some (if 0 <? lim then firstn (Z.to_nat (lim - n)) (filter (before_key e) L) else filter (before_key e) L).
  Proof.
    intros HL S. induction L as [|x L IH]; intros n Hn Hl; cbn [scan_take].
    - cbn. destruct (0 <? lim); [rewrite firstn_nil|]; reflexivity.
    - apply ssorted_inv in S as [S1 S2]. rewrite Forall_forall in S2.
      assert (HL' : forall y, In y L -> In y T) by (intros y Hy; apply HL; right; exact Hy).
      rewrite stop_is_not_before. cbn [filter].
      destruct (before_key e x) eqn:BK; cbn [negb].
      + rewrite (q_get x (HL x (or_introl eq_refl))).
        destruct (0 <? lim) eqn:L0; cbn [andb].
        * apply Z.ltb_lt in L0. destruct (lim <=? n) eqn:L1.
          -- apply Z.leb_le in L1. assert (E0 : lim - n = 0) by (specialize (Hl L0); lia). rewrite E0. reflexivity.
          -- apply Z.leb_gt in L1. rewrite (IH HL' S1 (n + 1)) by lia.
             replace (Z.to_nat (lim - n)) with (Datatypes.S (Z.to_nat (lim - (n + 1)))) by lia. reflexivity.
        * rewrite (IH HL' S1 (n + 1)) by lia. reflexivity.
      + rewrite (filter_false_nil (before_key e) L).
        * destruct (0 <? lim); [rewrite firstn_nil|]; reflexivity.
        * intros y Hy. specialize (S2 y Hy). unfold before_key, slt in *.
          destruct (is_nil_spec e); [discriminate|]. cbn in *.
          destruct (key_ltb_spec (r_start x) e); [discriminate|].
          destruct (key_ltb_spec (r_start y) e); [exfalso; korder|reflexivity].
  Qed.

  Lemma q_scan s e lim : scan st s e lim = map Some (spec_scan l s e lim).
  Proof.
    unfold scan. rewrite q_tree, (scan_range_spec _ _ _ q_ds).
    rewrite scan_take_spec; try lia.
    - unfold spec_scan. rewrite q_sorted_filter. rewrite filter_filter, Z.sub_0_r.
      rewrite (filter_ext_in (fun x => ends_after s x && before_key e x) (scan_pred s e) T); [reflexivity|].
      intros x _. unfold ends_after, before_key, scan_pred. apply andb_comm.
    - intros x Hx. apply filter_In in Hx. tauto.
    - apply ssorted_filter, ds_ssorted, q_ds.
  Qed.

  Lemma q_all_some {A} (L : list A) : all_some (map Some L) = Some L.
  Proof. induction L as [|a L IH]; cbn; [reflexivity|]. rewrite IH. reflexivity. Qed.
End Queries.

Definition valid_op (o : rop) : Prop := match o with OSet r => valid_range r = true | _ => True end.

(* the two excluded input classes: the full statements are false on the model (and on the code) *)
Definition subtrees_exact_full : Prop :=
  forall ops, Forall valid_op ops ->
  forall f s, rt_len (fam_of (state_of ops) f s) = Z.of_nat (length (spec_fam (spec_of ops) f s)).

Definition total_size_exact_full : Prop :=
  forall ops, Forall valid_op ops ->
  forall f s, total_size (fam_of (state_of ops) f s) = sum_size (spec_fam (spec_of ops) f s).

Definition witness_foreign_pending : list rop :=
  [OSet (Region 1 (K [97]) (K [99]) [Peer 101 1 false; Peer 102 2 false; Peer 103 3 false] 101 [Peer 109 4 false] 10 1 1 1 1);
   ORemove 1].

Definition witness_shared_store : list rop :=
  [OSet (Region 1 (K [97]) (K [99]) [Peer 101 1 false; Peer 102 2 false; Peer 103 2 false] 101 [] 10 1 1 1 1);
   OSet (Region 1 (K [97]) (K [99]) [Peer 101 1 false; Peer 102 2 false; Peer 103 2 false] 101 [] 30 1 1 1 2)].

Lemma witness_foreign_valid : Forall valid_op witness_foreign_pending.
Proof. repeat constructor. Qed.
Lemma witness_shared_valid : Forall valid_op witness_shared_store.
Proof. repeat constructor. Qed.
