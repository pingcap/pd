(* Structural obligations tying model/C01_Tso.v to server/tso as it is now (gen/Gen_C01.v is regenerated on every run). *)
From Coq Require Import ZArith.
From PDV Require Import lib.Skel gen.Gen_C01.

(* setTSOPhysical(next, force): under tsoMux; zero memory is only touched when force; moves forward only (ms precision), logical := 0  [model: set_physical] *)
Lemma skel_setTSOPhysical_ok : skel_setTSOPhysical =
  [Lock "t.tsoMux"; DeferUnlock "t.tsoMux"; IfE "t.tsoMux.physical == typeutil.ZeroTime && !force" [Ret] []; IfE "typeutil.SubTSOPhysicalByWallClock(next, t.tsoMux.physical) > 0" [Assign "t.tsoMux.physical" "= next"; Assign "t.tsoMux.logical" "= 0"] []].
Proof. reflexivity. Qed.

(* getTSO: read lock *)
Lemma skel_getTSO_ok : skel_getTSO =
  [RLock "t.tsoMux"; DeferRUnlock "t.tsoMux"; IfE "t.tsoMux.physical == typeutil.ZeroTime" [Ret] []; Ret].
Proof. reflexivity. Qed.

(* generateTSO: one locked block: zero memory -> nothing; logical += count; returns the new logical  [model: LGen] *)
Lemma skel_generateTSO_ok : skel_generateTSO =
  [Lock "t.tsoMux"; DeferUnlock "t.tsoMux"; IfE "t.tsoMux.physical == typeutil.ZeroTime" [Ret] []; Assign "physical" "= t.tsoMux.physical.UnixNano() / int64(time.Millisecond)"; Assign "t.tsoMux.logical" "+= count"; Assign "logical" "= t.tsoMux.logical"; IfE "suffixBits > 0 && t.suffix >= 0" [Call "differentiateLogical"; Assign "logical" "= t.differentiateLogical(logical, suffixBits)"] []; Ret].
Proof. reflexivity. Qed.

(* saveTimestamp: LeaderTxn put; lastSavedTime stored only after a succeeded commit  [model: save_txn + with_saved] *)
Lemma skel_saveTimestamp_ok : skel_saveTimestamp =
  [Call "LeaderTxn"; Call "Commit"; IfE "err != nil" [Assign "t.saveUncertain" "= true"; Ret] []; IfE "!resp.Succeeded" [Ret] []; Call "Store"; Assign "t.saveUncertain" "= false"; Ret].
Proof. reflexivity. Qed.
(* the repair of the save uncertainty: the own window is read back, lastSavedTime only moves up, the mark is cleared *)
Lemma skel_refreshLastSavedTime_ok : skel_refreshLastSavedTime =
  [IfE "!t.saveUncertain" [Ret] []; Call "GetValue"; IfE "err != nil" [Ret] []; IfE "len(value) != 0" [Call "ParseTimestamp"; IfE "err != nil" [Ret] []; Call "Load"; Call "SubRealTimeByWallClock"; IfE "!ok || typeutil.SubRealTimeByWallClock(stored, last) > 0" [Call "Store"] []] []; Assign "t.saveUncertain" "= false"; Ret].
Proof. reflexivity. Qed.

(* SyncTimestamp: saveMu held over load and save; memory set with force afterwards  [model: LSyncLoad / LSyncSave / LSyncSet] *)
Lemma skel_SyncTimestamp_ok : skel_SyncTimestamp =
  [Lock "t.saveMu"; Call "loadTimestamp"; IfE "err != nil" [Unlock "t.saveMu"; Ret] []; Assign "next" ":= time.Now()"; DeferE [Assign "next" "= next.Add(time.Hour)"]; DeferE [Assign "next" "= next.Add(-time.Hour)"]; Call "SubRealTimeByWallClock"; IfE "typeutil.SubRealTimeByWallClock(next, last) < UpdateTimestampGuard" [Assign "next" "= last.Add(UpdateTimestampGuard)"] []; Assign "save" ":= next.Add(t.saveInterval)"; Call "saveTimestamp(leadership, save)"; Unlock "t.saveMu"; IfE "err != nil" [Ret] []; Call "setTSOPhysical(next, true)"; Ret].
Proof. reflexivity. Qed.

(* resetUserTimestamp: tsoMux held throughout; Check; smaller / equal-not-greater / too-far rejected; saveMu around decide+save; memory written last  [model: LURBegin / LURDecide / LURSave / LUREnd] *)
Lemma skel_resetUserTimestamp_ok : skel_resetUserTimestamp =
  [Lock "t.tsoMux"; DeferUnlock "t.tsoMux"; Call "Check"; IfE "!leadership.Check()" [Ret] []; IfE "physicalDifference < 0" [IfE "ignoreSmaller" [Ret] []; Ret] []; IfE "physicalDifference == 0 && logicalDifference <= 0" [IfE "ignoreSmaller" [Ret] []; Ret] []; IfE "physicalDifference >= t.maxResetTSGap().Milliseconds()" [Ret] []; Lock "t.saveMu"; Call "refreshLastSavedTime"; IfE "err != nil" [Unlock "t.saveMu"; Ret] []; Call "Load"; Call "SubRealTimeByWallClock"; IfE "typeutil.SubRealTimeByWallClock(t.lastSavedTime.Load().(time.Time), nextPhysical) <= UpdateTimestampGuard" [Assign "save" ":= nextPhysical.Add(t.saveInterval)"; Call "saveTimestamp(leadership, save)"; IfE "err != nil" [Unlock "t.saveMu"; Ret] []] []; Unlock "t.saveMu"; Assign "t.tsoMux.physical" "= nextPhysical"; Assign "t.tsoMux.logical" "= int64(nextLogical)"; Ret].
Proof. reflexivity. Qed.

(* UpdateTimestamp: snapshot; zero memory -> return; next; saveMu around decide+save; setTSOPhysical without force  [model: LUpdRead / LUpdDecide / LUpdSave / LUpdSet] *)
Lemma skel_UpdateTimestamp_ok : skel_UpdateTimestamp =
  [Call "getTSO"; IfE "prevPhysical == typeutil.ZeroTime" [Ret] []; Call "SubRealTimeByWallClock"; IfE "jetLag > UpdateTimestampGuard" [Assign "next" "= now"] [IfE "prevLogical > maxLogical/2" [Assign "next" "= prevPhysical.Add(time.Millisecond)"] [Ret]]; Lock "t.saveMu"; Call "refreshLastSavedTime"; IfE "err != nil" [Unlock "t.saveMu"; Ret] []; Call "Load"; Call "SubRealTimeByWallClock"; IfE "typeutil.SubRealTimeByWallClock(t.lastSavedTime.Load().(time.Time), next) <= UpdateTimestampGuard" [Assign "save" ":= next.Add(t.saveInterval)"; Call "saveTimestamp(leadership, save)"; IfE "err != nil" [Unlock "t.saveMu"; Ret] []] []; Unlock "t.saveMu"; Call "setTSOPhysical(next, false)"; Ret].
Proof. reflexivity. Qed.

(* getTS: retry loop; Check when memory is zero; generate; overflow -> retry; second Check before answering  [model: LGen / LRespond] *)
Lemma skel_getTS_ok : skel_getTS =
  [IfE "count == 0" [Ret] []; ForE [Call "getTSO"; IfE "currentPhysical == typeutil.ZeroTime" [Call "Check"; IfE "leadership.Check()" [Cont] []; Ret] []; Call "generateTSO"; IfE "resp.GetPhysical() == 0" [Ret] []; IfE "resp.GetLogical() >= maxLogical" [Cont] []; Call "Check"; IfE "!leadership.Check()" [Ret] []; Ret]; Ret].
Proof. reflexivity. Qed.

(* ResetTimestamp: zero memory under tsoMux  [model: LReset] *)
Lemma skel_ResetTimestamp_ok : skel_ResetTimestamp =
  [Lock "t.tsoMux"; DeferUnlock "t.tsoMux"; Assign "t.tsoMux.physical" "= typeutil.ZeroTime"; Assign "t.tsoMux.logical" "= 0"].
Proof. reflexivity. Qed.

(* loadTimestamp: the persisted windows are read with ONE unlimited prefix read of the root path (no paging whose
   continuation could lose keys) and the maximum over the keys ending in "timestamp" is returned *)
Lemma skel_loadTimestamp_ok : skel_loadTimestamp =
  [Call "EtcdKVGet(t.client, t.rootPath, clientv3.WithPrefix())"; IfE "err != nil" [Ret] []; Assign "maxTSWindow" ":= typeutil.ZeroTime"; ForE [Call "HasSuffix"; IfE "!strings.HasSuffix(key, timestampKey)" [Cont] []; Call "ParseTimestamp"; IfE "err != nil" [Cont] []; Call "SubRealTimeByWallClock"; IfE "typeutil.SubRealTimeByWallClock(tsWindow, maxTSWindow) > 0" [Assign "maxTSWindow" "= tsWindow"] []]; Ret].
Proof. reflexivity. Qed.

Lemma skel_EtcdKVGet_ok : skel_EtcdKVGet =
  [Call "Get(ctx, key, opts)"; IfE "err != nil" [Ret] []; Ret].
Proof. reflexivity. Qed.

(* the time differences of the oracle are differences of WALL-CLOCK readings (UnixNano), never time.Time.Sub (which silently
   uses the monotonic readings two values may carry): the model's clock inputs are wall-clock values *)
Lemma time_differences_ok :
  src_SubRealTimeByWallClock = "{ return time.Duration(after.UnixNano() - before.UnixNano()) }" /\
  src_SubTSOPhysicalByWallClock = "{ return after.UnixNano()/int64(time.Millisecond) - before.UnixNano()/int64(time.Millisecond) }".
Proof. split; reflexivity. Qed.

(* where an allocator's window lives - the persisted layout members of different releases must agree on: the key
   "timestamp" below the allocator's path, which is the root path for the Global allocator and <root>/<dc-location> for a
   Local one; a Local allocator is initialised by SyncTimestamp alone (no other source of a starting point) *)
Lemma window_layout_ok :
  src_getTimestampPath = "{ return path.Join(t.rootPath, timestampKey) }" /\
  src_getAllocatorPath = "{ if dcLocation == GlobalDCLocation { return am.rootPath } return path.Join(am.rootPath, dcLocation) }" /\
  skel_lta_Initialize = [Assign "lta.timestampOracle.suffix" "= suffix"; Call "SyncTimestamp"; Ret].
Proof. repeat split; reflexivity. Qed.

(* the window key is named by the oracle alone (its path helper and the prefix scan of loadTimestamp) *)
Lemma timestamp_key_sites_ok :
  timestamp_key_sites = ["server/tso/tso.go:<top>"; "server/tso/tso.go:getTimestampPath"; "server/tso/tso.go:loadTimestamp"].
Proof. reflexivity. Qed.

(* updateAllocator: Check() before UpdateTSO; a failed update resets the allocator group  [model: LUpdRead requires valid] *)
Lemma skel_updateAllocator_ok : skel_updateAllocator =
  [SwitchE [[Call "Reset"; Ret]; []]; Call "Check"; IfE "!ag.leadership.Check()" [Ret] []; Call "UpdateTSO"; IfE "err != nil" [Call "ResetAllocatorGroup"; Ret] []].
Proof. reflexivity. Qed.

(* allocatorUpdater: only initialised allocators with leadership; waits for all updates before the next tick (one UpdateTimestamp at a time per allocator) *)
Lemma skel_allocatorUpdater_ok : skel_allocatorUpdater =
  [Call "FilterUninitialized"; Call "FilterUnavailableLeadership"; Call "getAllocatorGroups"; ForE [GoE [Call "updateAllocator"]]; Call "Wait"].
Proof. reflexivity. Qed.

(* ResetAllocatorGroup: allocator.Reset then leadership.Reset *)
Lemma skel_ResetAllocatorGroup_ok : skel_ResetAllocatorGroup =
  [Lock "am.mu"; DeferUnlock "am.mu"; IfE "exist" [Call "Reset"; Call "Reset"] []].
Proof. reflexivity. Qed.

(* Initialize = SyncTimestamp *)
Lemma skel_gta_Initialize_ok : skel_gta_Initialize =
  [Call "SyncTimestamp"; Ret].
Proof. reflexivity. Qed.

(* UpdateTSO = UpdateTimestamp *)
Lemma skel_gta_UpdateTSO_ok : skel_gta_UpdateTSO =
  [Call "UpdateTimestamp"; Ret].
Proof. reflexivity. Qed.

(* SetTSO = resetUserTimestamp *)
Lemma skel_gta_SetTSO_ok : skel_gta_SetTSO =
  [Call "resetUserTimestamp"; Ret].
Proof. reflexivity. Qed.

(* Reset = ResetTimestamp *)
Lemma skel_gta_Reset_ok : skel_gta_Reset =
  [Call "ResetTimestamp"].
Proof. reflexivity. Qed.

(* campaignLeader (E3): campaign; keep-alive; the dc-locations are read from etcd BEFORE the Global allocator is initialised,
   i.e. before it serves (C05's JLeaderMove: the new leader's check precedes its first Global answer); Initialize; memory
   reset deferred to the end of the term; EnableLeader; periodic checker; leader loop *)
Lemma skel_campaignLeader_ok : skel_campaignLeader =
  [Call "CampaignLeader"; IfE "" [Ret] []; DeferE [DeferE [Call "ResetLeader"]]; GoE [Call "KeepLeader"]; IfE "" [Ret] []; Call "RefreshClusterDCLocations"; IfE "" [Ret] []; Call "Initialize"; IfE "" [Ret] []; DeferE [Call "ResetAllocatorGroup"]; IfE "" [Ret] []; IfE "" [Ret] []; IfE "" [Ret] []; IfE "" [Ret] []; Call "Rebase"; IfE "" [Ret] []; Call "EnableLeader"; GoE [Call "ClusterDCLocationChecker"]; DeferE [DeferE [Call "ResetLeader"]]; ForE [SwitchE [[Call "IsLeader"; IfE "" [Ret] []; IfE "" [Ret] []]; [Ret]]]].
Proof. reflexivity. Qed.

(* constants: the guard is exactly one millisecond (the proofs need guard >= 1 ms), the default save
   interval is larger than the guard (hypothesis `guard < iv` of the theorems for the default config),
   18 logical bits *)
Lemma consts_ok :
  (UpdateTimestampGuard = 1000000 /\ maxLogical = 2 ^ 18 /\ physicalShiftBits = 18 /\ logicalBits = 2 ^ 18 - 1 /\
   UpdateTimestampGuard < defaultTSOSaveInterval /\ 0 < maxRetryCount)%Z.
Proof. repeat split; reflexivity. Qed.

Lemma compose_src_ok : src_ComposeTS = "{ return uint64(physical)<<18 | uint64(logical)&0x3FFFF }".
Proof. reflexivity. Qed.

(* the RPC layer (server/grpc_service.go Tso): one answer per request received, in the order received; a local request is
   answered by the allocator manager with exactly the count it was asked for, and that count is what the response says it
   stands for (the model's grant record carries one count: the n values a client derives are the n the allocator advanced
   by); a forwarded request is sent on a forward stream that belongs to this client stream alone (created inside the
   handler, re-created when the forwarded host changes) and answered by the next message of that stream - so the pairing of
   requests and answers is that of the member the stream is forwarded to *)
Lemma skel_handler_Tso_ok : skel_handler_Tso =
  [Assign "forwardStream" "var zero"; Assign "lastForwardedHost" "var zero"; ForE [Call "Recv"; Assign "request" ":= stream.Recv()"; IfE "err == io.EOF" [Ret] []; IfE "err != nil" [Ret] []; Call "isLocalRequest"; IfE "!s.isLocalRequest(forwardedHost)" [IfE "forwardStream == nil || lastForwardedHost != forwardedHost" [Call "getDelegateClient"; IfE "err != nil" [Ret] []; Call "createTsoForwardStream"; Assign "forwardStream" "= s.createTsoForwardStream(client)"; IfE "err != nil" [Ret] []; Assign "lastForwardedHost" "= forwardedHost"] []; Call "Send"; IfE "err != nil" [Ret] []; Call "Recv"; Assign "resp" ":= forwardStream.Recv()"; IfE "err != nil" [Ret] []; Call "Send"; IfE "err != nil" [Ret] []; Cont] []; Call "IsClosed"; IfE "s.IsClosed()" [Ret] []; IfE "request.GetHeader().GetClusterId() != s.clusterID" [Ret] []; Call "GetCount"; Assign "count" ":= request.GetCount()"; Call "HandleTSORequest(request.GetDcLocation(), count)"; Assign "ts" ":= s.tsoAllocatorManager.HandleTSORequest(request.GetDcLocation(), count)"; IfE "err != nil" [Ret] []; Assign "response" ":= &pdpb.TsoResponse{ Header: s.header(), Timestamp: &ts, Count: count, }"; Call "Send"; IfE "err != nil" [Ret] []]].
Proof. reflexivity. Qed.

Lemma src_createTsoForwardStream_ok : src_createTsoForwardStream =
  "{ done := make(chan struct{}) ctx, cancel := context.WithCancel(s.ctx) go checkStream(ctx, cancel, done) forwardStream, err := pdpb.NewPDClient(client).Tso(ctx) done <- struct{}{} return forwardStream, cancel, err }".
Proof. reflexivity. Qed.

(* the client library's arithmetic (proof/C01_Suffix.v client_value): addLogical is  l + c << b ; processTSORequests asks for as
   many timestamps as callers wait in the batch, refuses an answer for another count, computes the first value from THAT count
   and hands  first + k << b  to caller k *)
Lemma src_client_addLogical_ok : src_client_addLogical = "{ return logical + count<<suffixBits }".
Proof. reflexivity. Qed.

Lemma skel_client_processTSORequests_ok : skel_client_processTSORequests =
  [Assign "count" ":= int64(len(requests))"; Assign "req" ":= &pdpb.TsoRequest{ Header: c.requestHeader(), Count: uint32(count), DcLocation: dcLocation, }"; Call "Send"; IfE "err != nil" [Call "finishTSORequest(requests, 0, 0, 0, err)"; Ret] []; Call "Recv"; IfE "err != nil" [Call "finishTSORequest(requests, 0, 0, 0, err)"; Ret] []; Call "GetCount"; IfE "resp.GetCount() != uint32(count)" [Call "finishTSORequest(requests, 0, 0, 0, err)"; Ret] []; Assign "physical" ":= resp.GetTimestamp().GetPhysical()"; Assign "logical" ":= resp.GetTimestamp().GetLogical()"; Assign "suffixBits" ":= resp.GetTimestamp().GetSuffixBits()"; Call "addLogical(logical, -count + 1, suffixBits)"; Assign "firstLogical" ":= addLogical(logical, -count+1, suffixBits)"; Call "compareAndSwapTS(dcLocation, physical, firstLogical, suffixBits, count)"; Call "finishTSORequest(requests, physical, firstLogical, suffixBits, nil)"; Ret].
Proof. reflexivity. Qed.

Lemma src_client_finishTSORequest_ok : src_client_finishTSORequest =
  "{ for i := 0; i < len(requests); i++ { if span := opentracing.SpanFromContext(requests[i].requestCtx); span != nil { span.Finish() } requests[i].physical, requests[i].logical = physical, addLogical(firstLogical, int64(i), suffixBits) requests[i].done <- err } }".
Proof. reflexivity. Qed.

