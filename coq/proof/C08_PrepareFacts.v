(* C08 — what prepareBuild computes, store by store: toAdd / toRemove / toPromote / toDemote as lookups; and what the
   API calls before it do to the target. *)
From Coq Require Import String Sorting.Sorted.
From PDV Require Import lib.Base gen.Gen_C08 model.C08_Steps model.C08_Builder
     proof.C08_ListFacts proof.C08_PmapFacts.
Local Open Scope list_scope.
Local Open Scope Z_scope.

Definition cfold (f : peer -> option peer) (l : list peer) (m0 : pmap) : pmap :=
  fold_left (fun m o => match f o with Some n => pm_set m n | None => m end) l m0.

Lemma cfold_get f : forall l m0 st,
  (forall o n, f o = Some n -> pstore n = pstore o) -> ND l ->
  pm_get (cfold f l m0) st = match lk l st with
                             | Some o => match f o with Some n => Some n | None => pm_get m0 st end
                             | None => pm_get m0 st
                             end.
Proof.
  unfold cfold. induction l as [|o r IH]; intros m0 st Hf Hnd; cbn [fold_left]; [reflexivity|].
  unfold ND in Hnd. cbn [map] in Hnd. inversion Hnd as [|? ? Hn Hd]; subst.
  rewrite IH by assumption.
  assert (G : pm_get (match f o with Some n => pm_set m0 n | None => m0 end) st =
              if pstore o =? st then (match f o with Some n => Some n | None => pm_get m0 st end) else pm_get m0 st).
  { destruct (f o) as [n|] eqn:Fo.
    - rewrite pm_get_set, (Hf o n Fo). reflexivity.
    - destruct (pstore o =? st); reflexivity. }
  unfold lk at 2. cbn [find]. fold (lk r st). unfold on_store at 1.
  destruct (lk r st) as [q|] eqn:E.
  - destruct (pstore o =? st) eqn:E2.
    + apply Z.eqb_eq in E2. apply lk_Some in E as [E3 E4]. exfalso. apply Hn. rewrite E2, <- E4. apply in_map. exact E3.
    + rewrite G. reflexivity.
  - rewrite G. destruct (pstore o =? st); reflexivity.
Qed.

Lemma cfold_sorted f : forall l m0, PSorted m0 -> PSorted (cfold f l m0).
Proof.
  unfold cfold. induction l as [|o r IH]; intros m0 H; cbn [fold_left]; [exact H|].
  apply IH. destruct (f o); [apply pm_set_sorted|]; exact H.
Qed.

(* the three accumulators of prepareBuild's first loop, separately *)
Section Prepare.
  Variables (target : pmap) (allow : bool).

  Definition retarget (o n0 : peer) : peer := if negb (pid o =? pid n0) then Peer (pstore o) (pid o) (prole n0) else n0.

  Definition f_rem (o : peer) : option peer :=
    match pm_get target (pstore o) with
    | None => Some o
    | Some n0 => if is_learner o then None
                 else if is_learner (retarget o n0) then (if allow then None else Some o) else None
    end.
  Definition f_pro (o : peer) : option peer :=
    match pm_get target (pstore o) with
    | None => None
    | Some n0 => if is_learner o then (if negb (is_learner (retarget o n0)) then Some (retarget o n0) else None) else None
    end.
  Definition f_dem (o : peer) : option peer :=
    match pm_get target (pstore o) with
    | None => None
    | Some n0 => if is_learner o then None
                 else if is_learner (retarget o n0) then (if allow then Some (retarget o n0) else None) else None
    end.

  Definition step_o (acc : pmap * pmap * pmap) (o : peer) : pmap * pmap * pmap :=
    let '(rem, pro, dem) := acc in
    match pm_get target (pstore o) with
    | None => (pm_set rem o, pro, dem)
    | Some n0 =>
        let n := if negb (pid o =? pid n0) then Peer (pstore o) (pid o) (prole n0) else n0 in
        if is_learner o then (if negb (is_learner n) then (rem, pm_set pro n, dem) else acc)
        else if is_learner n then
               (if allow then (rem, pro, pm_set dem n) else (pm_set rem o, pro, dem))
             else acc
    end.

  Lemma step_o_one r p d o :
    step_o (r, p, d) o = (match f_rem o with Some n => pm_set r n | None => r end,
                          match f_pro o with Some n => pm_set p n | None => p end,
                          match f_dem o with Some n => pm_set d n | None => d end).
  Proof.
    unfold step_o, f_rem, f_pro, f_dem, retarget.
    destruct (pm_get target (pstore o)) as [n0|]; [|reflexivity].
    destruct (is_learner o).
    - destruct (negb (is_learner (if negb (pid o =? pid n0) then Peer (pstore o) (pid o) (prole n0) else n0))); reflexivity.
    - destruct (is_learner (if negb (pid o =? pid n0) then Peer (pstore o) (pid o) (prole n0) else n0)); [destruct allow|]; reflexivity.
  Qed.

  Lemma step_o_split : forall l r p d,
    fold_left step_o l (r, p, d) = (cfold f_rem l r, cfold f_pro l p, cfold f_dem l d).
  Proof.
    unfold cfold. induction l as [|o l IH]; intros r p d; cbn [fold_left]; [reflexivity|].
    rewrite step_o_one. apply IH.
  Qed.
End Prepare.

Lemma retarget_store o n0 : pstore n0 = pstore o -> pstore (retarget o n0) = pstore o.
Proof. intros H. unfold retarget. destruct (negb (pid o =? pid n0)); [reflexivity|exact H]. Qed.

Lemma retarget_eta o n0 : pstore n0 = pstore o -> retarget o n0 = Peer (pstore o) (pid o) (prole n0).
Proof.
  intros H. unfold retarget. destruct (pid o =? pid n0) eqn:E; cbn [negb]; [|reflexivity].
  apply Z.eqb_eq in E. destruct n0 as [s i ro]; cbn in *. subst. reflexivity.
Qed.

Lemma retarget_learner o n0 : is_learner (retarget o n0) = is_learner n0.
Proof. unfold retarget, is_learner. destruct (negb (pid o =? pid n0)); reflexivity. Qed.

Definition f_add (origin : pmap) (allow : bool) (alloc : list (Z * Z)) (n : peer) : option peer :=
  let o := pm_get origin (pstore n) in
  if negb (is_some o) || (negb allow && negb (olearner o) && is_learner n)
  then Some (if (pid n =? 0) || is_some o then Peer (pstore n) (alloc_of alloc (pstore n)) (prole n) else n)
  else None.

Lemma fold_left_ext_eq {A B} (f g : A -> B -> A) l : (forall a x, f a x = g a x) -> forall a, fold_left f l a = fold_left g l a.
Proof. intros H. induction l as [|x r IH]; intros a; cbn [fold_left]; [reflexivity|]. rewrite H. apply IH. Qed.

Record prepared_from (b b' : bstate) (alloc : list (Z * Z)) : Prop := {
  pf_cluster : b_cluster b' = b_cluster b;
  pf_origin : b_origin b' = b_origin b;
  pf_oleader : b_origin_leader b' = b_origin_leader b;
  pf_target : b_target b' = b_target b;
  pf_roles : b_roles b' = b_roles b;
  pf_allow : b_allow_demote b' = b_allow_demote b;
  pf_light : b_light b' = b_light b;
  pf_force : b_force b' = b_force b;
  pf_cur : b_cur b' = b_origin b;
  pf_curl : b_cur_leader b' = b_origin_leader b;
  pf_steps : b_steps b' = [];
  pf_addstep : b_addstep b' = [];
  pf_rem : b_remove b' = cfold (f_rem (b_target b) (b_allow_demote b)) (b_origin b) [];
  pf_pro : b_promote b' = cfold (f_pro (b_target b)) (b_origin b) [];
  pf_dem : b_demote b' = cfold (f_dem (b_target b) (b_allow_demote b)) (b_origin b) [];
  pf_add : b_add b' = cfold (f_add (b_origin b) (b_allow_demote b) alloc) (b_target b) [];
  pf_voters : countb (fun p => negb (is_learner p)) (b_target b) <> 0;
  pf_tleader : b_tleader b' = 0 \/
               (b_tleader b' = b_tleader b /\ exists p, pm_get (b_target b) (b_tleader b') = Some p /\ is_learner p = false
                                                       /\ allow_leader b' p (b_force b') = true);
  pf_joint : b_use_joint b' = true -> b_use_joint b = true /\ (2 <= pending b')%nat
}.

Lemma prepare_build_spec b alloc b' : prepare_build b alloc = Some b' -> prepared_from b b' alloc.
Proof.
  unfold prepare_build.
  destruct (countb (fun p => negb (is_learner p)) (b_target b) =? 0) eqn:Ev; [discriminate|].
  apply Z.eqb_neq in Ev.
  change (fold_left _ (b_origin b) ([], [], [])) with (fold_left (step_o (b_target b) (b_allow_demote b)) (b_origin b) ([], [], [])).
  rewrite step_o_split.
  match goal with |- context [fold_left ?F (b_target b) []] =>
    replace (fold_left F (b_target b) []) with (cfold (f_add (b_origin b) (b_allow_demote b) alloc) (b_target b) [])
  end.
  2:{ unfold cfold. apply fold_left_ext_eq. intros a x. unfold f_add.
      destruct (negb (is_some (pm_get (b_origin b) (pstore x))) || negb (b_allow_demote b) && negb (olearner (pm_get (b_origin b) (pstore x))) && is_learner x); reflexivity. }
  set (rem := cfold (f_rem (b_target b) (b_allow_demote b)) (b_origin b) []).
  set (pro := cfold (f_pro (b_target b)) (b_origin b) []).
  set (dem := cfold (f_dem (b_target b) (b_allow_demote b)) (b_origin b) []).
  set (add := cfold (f_add (b_origin b) (b_allow_demote b) alloc) (b_target b) []).
  set (tl := match pm_get (b_target b) (b_tleader b) with Some p => if is_learner p then 0 else b_tleader b | None => 0 end).
  match goal with |- (if ?c then _ else _) = _ -> _ => destruct c eqn:Ec; [discriminate|] end.
  intros H. inversion H; subst b'; clear H. cbn.
  constructor; cbn; try reflexivity; try exact Ev.
  - (* the requested leader, if it stays, passed allowLeader *)
    cbn [b_target b_force] in Ec. fold tl in Ec. revert Ec. unfold tl.
    destruct (pm_get (b_target b) (b_tleader b)) as [p|] eqn:E; [|left; reflexivity].
    destruct (is_learner p) eqn:El; [left; reflexivity|]. intros Ec.
    destruct (b_tleader b =? 0) eqn:E0; [left; apply Z.eqb_eq; exact E0|]. right. split; [reflexivity|]. exists p.
    cbn [negb andb] in Ec. apply negb_false_iff in Ec. rewrite E in Ec. auto.
  - match goal with |- context [(?n <=? 1)%nat] => destruct (n <=? 1)%nat eqn:En end; [discriminate|].
    intros Hj. split; [exact Hj|]. apply Nat.leb_gt in En. unfold pending; cbn. unfold pending in En; cbn in En. lia.
Qed.

Lemma cfold_In f : forall l m x, In x (cfold f l m) -> In x m \/ exists o, In o l /\ f o = Some x.
Proof.
  unfold cfold. induction l as [|o l IH]; intros m x H; cbn [fold_left] in H; [left; exact H|].
  destruct (IH _ _ H) as [Hm|(o' & Ho' & Hf)]; [|right; exists o'; split; [right; exact Ho'|exact Hf]].
  destruct (f o) as [n|] eqn:Fo; [|left; exact Hm].
  apply pm_set_In in Hm as [->|Hm]; [right; exists o; split; [left; reflexivity|exact Fo]|left; exact Hm].
Qed.

Lemma f_add_store origin allow alloc n a : f_add origin allow alloc n = Some a -> pstore a = pstore n.
Proof.
  unfold f_add. destruct (negb (is_some (pm_get origin (pstore n))) || _); [|discriminate].
  intros H; inversion H. destruct ((pid n =? 0) || is_some (pm_get origin (pstore n))); reflexivity.
Qed.

Lemma new_builder_target i b0 : new_builder i = Some b0 ->
  b_origin b0 = pm_of_list (peers (i_region i)) /\ b_target b0 = pm_of_list (peers (i_region i)).
Proof.
  unfold new_builder. destruct (existsb _ _); [discriminate|]. destruct (negb _); [discriminate|].
  destruct (negb (i_skip_joint_check i) && _); [discriminate|]. intros H; inversion H; subst b0. split; reflexivity.
Qed.

(* a call changes the target (kept sorted), the requested leader and roles, and two flags; nothing else *)
Definition api_fixed (b : bstate) :=
  (b_origin b, b_origin_leader b, b_cluster b, b_unhealthy b, b_allow_demote b, b_use_joint b).

Lemma api_op_frame b o b' : api_op b o = Some b' ->
  api_fixed b' = api_fixed b /\ (PSorted (b_target b) -> PSorted (b_target b')).
Proof.
  intros H. destruct o; cbn [api_op] in H.
  - destruct (_ || _); [discriminate|]. inversion H; subst b'. split; [reflexivity|apply pm_set_sorted].
  - destruct (_ || _); [discriminate|]. inversion H; subst b'. split; [reflexivity|apply pm_del_sorted].
  - destruct (pm_get (b_target b) st) as [q|]; [|discriminate]. destruct (_ || _); [discriminate|].
    inversion H; subst b'. split; [reflexivity|apply pm_set_sorted].
  - destruct (pm_get (b_target b) st) as [q|]; [|discriminate]. destruct (is_learner q); [discriminate|].
    inversion H; subst b'. split; [reflexivity|apply pm_set_sorted].
  - destruct (pm_get (b_target b) st) as [q|]; [|discriminate]. destruct (_ || _); [discriminate|].
    inversion H; subst b'. split; [reflexivity|auto].
  - destruct (existsb _ ps); [discriminate|]. inversion H; subst b'. split; [reflexivity|intros _; apply pm_of_list_sorted].
  - destruct (1 <? _); [discriminate|]. destruct (Nat.eqb _ 0); [discriminate|]. inversion H; subst b'. split; [reflexivity|auto].
  - inversion H; subst b'. split; [reflexivity|auto].
  - inversion H; subst b'. split; [reflexivity|auto].
Qed.

Definition op_peer (o : bop) (p : peer) : Prop :=
  match o with OAddPeer q => p = q | OSetPeers ps => In p ps | _ => False end.

(* A property of the target's peers survives a call if the peers handed in have it (their stores are not 0 and their
   roles not joint ones: the call checks that) and if it survives a change of role of a peer that stays. *)
Section TargetPeers.
  Variable Q : peer -> Prop.
  Hypothesis Qrole : forall p ro, Q p -> ro = Voter \/ ro = Learner -> Q (Peer (pstore p) (pid p) ro).

  Lemma api_op_target_all b o b' :
    api_op b o = Some b' ->
    (forall p, op_peer o p -> pstore p <> 0 -> in_joint p = false -> Q p) ->
    (forall p, In p (b_target b) -> Q p) -> forall p, In p (b_target b') -> Q p.
  Proof.
    intros H Hop HT. destruct o; cbn [api_op] in H.
    - destruct ((pstore p =? 0) || in_joint p || is_some (pm_get (b_target b) (pstore p))) eqn:E; [discriminate|].
      apply orb_false_iff in E as [E _]. apply orb_false_iff in E as [E0 Ej]. apply Z.eqb_neq in E0.
      inversion H; subst b'. cbn. intros x Hx. apply pm_set_In in Hx as [->|Hx]; [apply Hop; [reflexivity|exact E0|exact Ej]|apply HT; exact Hx].
    - destruct (negb (is_some (pm_get (b_target b) st)) || (b_tleader b =? st)); [discriminate|].
      inversion H; subst b'. cbn. intros x Hx. apply HT. unfold pm_del in Hx. apply filter_In in Hx. tauto.
    - destruct (pm_get (b_target b) st) as [q|] eqn:Eq; [|discriminate].
      destruct (negb (is_learner q) || memz st (b_unhealthy b)); [discriminate|].
      inversion H; subst b'. cbn. intros x Hx. apply pm_set_In in Hx as [->|Hx]; [|apply HT; exact Hx].
      apply Qrole; [apply HT; apply (lk_Some _ _ _ Eq)|left; reflexivity].
    - destruct (pm_get (b_target b) st) as [q|] eqn:Eq; [|discriminate]. destruct (is_learner q); [discriminate|].
      inversion H; subst b'. cbn. intros x Hx. apply pm_set_In in Hx as [->|Hx]; [|apply HT; exact Hx].
      apply Qrole; [apply HT; apply (lk_Some _ _ _ Eq)|right; reflexivity].
    - destruct (pm_get (b_target b) st) as [q|]; [|discriminate]. destruct (is_learner q || memz st (b_unhealthy b)); [discriminate|].
      inversion H; subst b'. exact HT.
    - destruct (existsb (fun p => (pstore p =? 0) || in_joint p) ps) eqn:E; [discriminate|].
      inversion H; subst b'. cbn. intros x Hx. apply pm_of_list_In in Hx.
      destruct ((pstore x =? 0) || in_joint x) eqn:Ex.
      + assert (X : existsb (fun p => (pstore p =? 0) || in_joint p) ps = true) by (apply existsb_exists; eauto). congruence.
      + apply orb_false_iff in Ex as [E0 Ej]. apply Z.eqb_neq in E0. apply Hop; assumption.
    - destruct (1 <? Z.of_nat (length (filter (fun e => xrole_eqb (snd e) XLeader) rs))); [discriminate|].
      destruct (Nat.eqb _ 0); [discriminate|]. inversion H; subst b'. exact HT.
    - inversion H; subst b'. exact HT.
    - inversion H; subst b'. exact HT.
  Qed.

  Lemma api_ops_target_all : forall os b b',
    api_ops b os = Some b' ->
    (forall o p, In o os -> op_peer o p -> pstore p <> 0 -> in_joint p = false -> Q p) ->
    (forall p, In p (b_target b) -> Q p) -> forall p, In p (b_target b') -> Q p.
  Proof.
    induction os as [|o os IH]; intros b b' H Hop HT; cbn [api_ops] in H; [inversion H; subst; exact HT|].
    destruct (api_op b o) as [b1|] eqn:E; [|discriminate].
    apply (IH b1 b' H); [intros o' p Ho'; apply Hop; right; exact Ho'|].
    apply (api_op_target_all b o b1 E); [intros p; apply Hop; left; reflexivity|exact HT].
  Qed.
End TargetPeers.
