(* C08 — the steps build_joint emits are exactly the joint script of proof/C08_JointScript.v. *)
From Coq Require Import String Sorting.Sorted.
From PDV Require Import lib.Base gen.Gen_C08 model.C08_Steps model.C08_Builder
     proof.C08_ListFacts proof.C08_PmapFacts proof.C08_SimPhases proof.C08_JointScript proof.C08_PrepareFacts proof.C08_Skel.
Local Open Scope list_scope.
Local Open Scope Z_scope.

Definition static (b : bstate) :=
  (b_cluster b, b_origin b, b_origin_leader b, b_unhealthy b, b_target b, b_roles b, b_allow_demote b, b_use_joint b, b_light b, b_force b).

Definition f_voter_add (a : peer) : option peer := if is_learner a then None else Some a.
Definition f_voter_rem (p : peer) : option peer := if is_learner p then None else Some (Peer (pstore p) (pid p) Learner).

Lemma joint_adds_spec : forall A b,
  let b1 := fold_left joint_add_one A b in
  b_steps b1 = b_steps b ++ add_steps (b_light b) A /\
  b_promote b1 = cfold f_voter_add A (b_promote b) /\
  b_remove b1 = b_remove b /\ b_demote b1 = b_demote b /\
  static b1 = static b /\ b_tleader b1 = b_tleader b /\ b_cur_leader b1 = b_cur_leader b.
Proof.
  induction A as [|a A IH]; intros b; cbn [fold_left].
  - cbn. rewrite app_nil_r. repeat split; reflexivity.
  - destruct (IH (joint_add_one b a)) as (H1 & H2 & H3 & H4 & H5 & H6 & H7).
    assert (S1 : b_steps (joint_add_one b a) = b_steps b ++ [add_step (b_light b) (pstore a) (pid a)]).
    { unfold joint_add_one, add_step, exec_add. destruct (is_learner a) eqn:E; cbn [negb]; destruct (b_light b); cbn;
        try rewrite E; cbn; reflexivity. }
    assert (S2 : b_promote (joint_add_one b a) = match f_voter_add a with Some n => pm_set (b_promote b) n | None => b_promote b end).
    { unfold joint_add_one, f_voter_add, exec_add. destruct (is_learner a); reflexivity. }
    assert (S3 : b_remove (joint_add_one b a) = b_remove b /\ b_demote (joint_add_one b a) = b_demote b /\
                 static (joint_add_one b a) = static b /\ b_tleader (joint_add_one b a) = b_tleader b /\
                 b_cur_leader (joint_add_one b a) = b_cur_leader b /\ b_light (joint_add_one b a) = b_light b).
    { unfold joint_add_one, exec_add. destruct (is_learner a); cbn; repeat split; reflexivity. }
    destruct S3 as (S3 & S4 & S5 & S6 & S7 & S8).
    repeat split.
    + rewrite H1, S1, S8, <- app_assoc. reflexivity.
    + rewrite H2, S2. reflexivity.
    + congruence.
    + congruence.
    + congruence.
    + congruence.
    + congruence.
Qed.

Definition dr_step (b' : bstate) (p : peer) : bstate :=
  if negb (is_learner p)
  then set_pending b' (b_add b') (b_remove b') (b_promote b') (pm_set (b_demote b') (Peer (pstore p) (pid p) Learner))
  else b'.

Lemma dr_fold_spec : forall l b0,
  b_demote (fold_left dr_step l b0) = cfold f_voter_rem l (b_demote b0) /\
  b_steps (fold_left dr_step l b0) = b_steps b0 /\ b_promote (fold_left dr_step l b0) = b_promote b0 /\
  b_remove (fold_left dr_step l b0) = b_remove b0 /\ b_add (fold_left dr_step l b0) = b_add b0 /\
  static (fold_left dr_step l b0) = static b0 /\ b_tleader (fold_left dr_step l b0) = b_tleader b0 /\
  b_cur_leader (fold_left dr_step l b0) = b_cur_leader b0.
Proof.
  induction l as [|p l IH]; intros b0; cbn [fold_left]; [repeat split; reflexivity|].
  destruct (IH (dr_step b0 p)) as (H1 & H2 & H3 & H4 & H5 & H6 & H7 & H8).
  rewrite H1, H2, H3, H4, H5, H6, H7, H8. unfold cfold; cbn [fold_left]. unfold dr_step, f_voter_rem.
  destruct (is_learner p); cbn [negb]; repeat split; reflexivity.
Qed.

Lemma joint_demote_removed_spec b :
  let b3 := joint_demote_removed b in
  b_demote b3 = cfold f_voter_rem (b_remove b) (b_demote b) /\
  b_steps b3 = b_steps b /\ b_promote b3 = b_promote b /\ b_remove b3 = b_remove b /\ b_add b3 = b_add b /\
  static b3 = static b /\ b_tleader b3 = b_tleader b /\ b_cur_leader b3 = b_cur_leader b.
Proof. apply (dr_fold_spec (b_remove b) b). Qed.

Lemma joint_remove_all_spec b :
  b_steps (joint_remove_all b) = b_steps b ++ remove_steps (b_remove b).
Proof.
  unfold joint_remove_all.
  assert (G : forall l b0, b_steps (fold_left (fun b' p => let b1 := exec_remove b' p in set_kinds b1 (b_kleader b1) true) l b0)
                           = b_steps b0 ++ remove_steps l).
  { induction l as [|p l IH]; intros b0; cbn [fold_left remove_steps map]; [rewrite app_nil_r; reflexivity|].
    rewrite IH. cbn. rewrite <- app_assoc. reflexivity. }
  apply G.
Qed.

Lemma pick_target_leader_spec b :
  pick_target_leader b = 0 \/
  exists p, pm_get (b_target b) (pick_target_leader b) = Some p /\ allow_leader b p (b_force b) = true.
Proof.
  unfold pick_target_leader.
  assert (G : forall l best,
             (best = 0 \/ exists p, pm_get (b_target b) best = Some p /\ allow_leader b p (b_force b) = true) ->
             let r := fold_left (fun best st =>
                         match pm_get (b_target b) st with
                         | None => best
                         | Some p =>
                             if negb (allow_leader b p (b_force b)) then best
                             else if match xr_get (b_roles b) st with Some XFollower => true | _ => false end then best
                             else if best =? 0 then st
                             else if better_leader b Gen_C08.leader_prefs best st then st else best
                         end) l best in
             r = 0 \/ exists p, pm_get (b_target b) r = Some p /\ allow_leader b p (b_force b) = true).
  { induction l as [|st l IH]; intros best H; cbn [fold_left]; [exact H|].
    apply IH. destruct (pm_get (b_target b) st) as [p|] eqn:E; [|exact H].
    destruct (allow_leader b p (b_force b)) eqn:Ea; cbn [negb]; [|exact H].
    destruct (match xr_get (b_roles b) st with Some XFollower => true | _ => false end); [exact H|].
    destruct (best =? 0); [right; exists p; auto|].
    destruct (better_leader b leader_prefs best st); [right; exists p; auto|exact H]. }
  apply G. left. reflexivity.
Qed.

Lemma allow_leader_role b p f : allow_leader b p f = true -> prole p = Voter \/ prole p = Incoming.
Proof.
  unfold allow_leader. rewrite no_leader_roles_ok. destruct (prole p); cbn; intros H; try discriminate; auto.
Qed.

Definition Ovoter (b : bstate) (st : Z) : bool := match pm_get (b_origin b) st with Some p => negb (is_learner p) | None => false end.
Definition Tvoter (b : bstate) (st : Z) : bool := match pm_get (b_target b) st with Some p => negb (is_learner p) | None => false end.

Definition joint_P (b : bstate) : list (Z * Z) := pairs_of (cfold f_voter_add (b_add b) (b_promote b)).
Definition joint_D (b : bstate) : list (Z * Z) := pairs_of (cfold f_voter_rem (b_remove b) (b_demote b)).
Definition joint_tl (b : bstate) : Z := b_tleader (set_target_leader_if_not_exist (fold_left joint_add_one (b_add b) b)).

Lemma static_fields b b' : static b' = static b ->
  b_cluster b' = b_cluster b /\ b_origin b' = b_origin b /\ b_origin_leader b' = b_origin_leader b /\ b_target b' = b_target b /\
  b_roles b' = b_roles b /\ b_light b' = b_light b /\ b_force b' = b_force b.
Proof. unfold static. intros H. inversion H. repeat split; assumption. Qed.

(* allowLeader reads the cluster and the current leader only *)
Lemma allow_leader_ext b b' p f : b_cur_leader b' = b_cur_leader b -> b_cluster b' = b_cluster b -> allow_leader b' p f = allow_leader b p f.
Proof. intros E1 E2. unfold allow_leader. rewrite E1, E2. reflexivity. Qed.

(* where the target leader of the joint path comes from: the caller asked for it, or setTargetLeaderIfNotExist picked a
   target peer that allowLeader accepts (the adds change neither the cluster nor the current leader) *)
Lemma joint_tl_source b :
  (b_tleader b <> 0 /\ joint_tl b = b_tleader b)
  \/ (b_tleader b = 0 /\ (joint_tl b = 0 \/ exists p, pm_get (b_target b) (joint_tl b) = Some p /\ allow_leader b p (b_force b) = true)).
Proof.
  unfold joint_tl, set_target_leader_if_not_exist.
  destruct (joint_adds_spec (b_add b) b) as (_ & _ & _ & _ & S5 & S6 & S7).
  destruct (static_fields _ _ S5) as (Sc & _ & _ & S4 & _ & _ & Sf).
  set (bx := fold_left joint_add_one (b_add b) b) in *. rewrite S6.
  destruct (b_tleader b =? 0) eqn:E0; cbn [negb].
  - right. split; [apply Z.eqb_eq; exact E0|]. cbn [b_tleader set_tleader].
    destruct (pick_target_leader_spec bx) as [Hz|(p & Hp & Ha)]; [left; exact Hz|right].
    exists p. rewrite <- S4, <- Sf, <- (allow_leader_ext b bx p _ S7 Sc). auto.
  - left. split; [apply Z.eqb_neq; exact E0|exact S6].
Qed.

Lemma build_joint_tl b bF : build_joint b = Some bF -> joint_tl b <> 0.
Proof.
  unfold build_joint. cbv zeta.
  change (b_tleader (set_target_leader_if_not_exist (fold_left joint_add_one (b_add b) b))) with (joint_tl b).
  destruct (joint_tl b =? 0) eqn:E; [discriminate|]. intros _. apply Z.eqb_neq. exact E.
Qed.

Lemma kt_fields bb to kl kr :
  let bt := set_kinds (exec_transfer bb to) kl kr in
  b_steps bt = b_steps bb ++ [TransferLeader (b_cur_leader bb) to] /\ b_remove bt = b_remove bb /\
  b_promote bt = b_promote bb /\ b_demote bt = b_demote bb /\ b_origin_leader bt = b_origin_leader bb /\ b_tleader bt = b_tleader bb.
Proof. repeat split; reflexivity. Qed.

Lemma v2_fields bb tr :
  let bv := exec_change_v2 bb true tr in
  b_steps bv =
    b_steps bb ++ ChangePeerV2Enter (pairs_of (b_promote bb)) (pairs_of (b_demote bb))
    :: (if tr && negb (b_origin_leader bb =? b_tleader bb) then [TransferLeader (b_cur_leader bb) (b_tleader bb)] else [])
    ++ [ChangePeerV2Leave (pairs_of (b_promote bb)) (pairs_of (b_demote bb))] /\
  b_remove bv = b_remove bb /\
  (tr = false -> b_cur_leader bv = b_cur_leader bb).
Proof.
  unfold exec_change_v2. destruct (tr && negb (b_origin_leader bb =? b_tleader bb)) eqn:E.
  - cbn. rewrite E. cbn. rewrite <- !app_assoc. cbn. repeat split; try reflexivity. intros ->. discriminate.
  - cbn. rewrite E. cbn. rewrite <- !app_assoc. cbn. repeat split; reflexivity.
Qed.

Lemma build_joint_steps b bF :
  b_steps b = [] -> b_cur_leader b = b_origin_leader b -> b_origin_leader b <> 0 -> Tvoter b (joint_tl b) = true ->
  build_joint b = Some bF ->
  let tl := joint_tl b in
  let ol := b_origin_leader b in
  tl <> 0 /\
  exists m,
    b_steps bF = joint_plan (b_light b) (b_add b) (joint_P b) (joint_D b) (b_remove b) m ol tl /\
    match m with
    | TBefore => ol <> tl /\ Ovoter b tl = true
    | TStay => ol = tl
    | TAfter => ol <> tl /\ Ovoter b tl = false /\ Tvoter b ol = true
    | TInside => ol <> tl /\ Ovoter b tl = false /\ Tvoter b ol = false
    end.
Proof.
  intros Hs0 Hcl Hol0 Htv Hb tl ol. unfold build_joint in Hb. cbv zeta in Hb.
  set (b1 := fold_left joint_add_one (b_add b) b) in *.
  destruct (joint_adds_spec (b_add b) b) as (A1 & A2 & A3 & A4 & A5 & A6 & A7). fold b1 in A1, A2, A3, A4, A5, A6, A7.
  set (b2 := set_target_leader_if_not_exist b1) in *.
  assert (B2 : b_steps b2 = b_steps b1 /\ b_promote b2 = b_promote b1 /\ b_remove b2 = b_remove b1 /\ b_demote b2 = b_demote b1 /\
               static b2 = static b1 /\ b_cur_leader b2 = b_cur_leader b1).
  { unfold b2, set_target_leader_if_not_exist. destruct (negb (b_tleader b1 =? 0)); repeat split; reflexivity. }
  destruct B2 as (B1 & B3 & B4 & B5 & B6 & B7).
  change (b_tleader b2) with tl in Hb.
  destruct (tl =? 0) eqn:Etl; [discriminate|]. apply Z.eqb_neq in Etl. split; [exact Etl|].
  destruct (joint_demote_removed_spec b2) as (C1 & C2 & C3 & C4 & C5 & C6 & C7 & C8).
  set (b3 := joint_demote_removed b2) in *.
  destruct (static_fields _ _ A5) as (S1 & S2 & S3 & S4 & S5 & S6 & S7).
  destruct (static_fields _ _ B6) as (T1 & T2 & T3 & T4 & T5 & T6 & T7).
  destruct (static_fields _ _ C6) as (U1 & U2 & U3 & U4 & U5 & U6 & U7).
  assert (Eol : b_origin_leader b3 = ol) by (unfold ol; congruence).
  assert (Etl3 : b_tleader b3 = tl) by (rewrite C7; reflexivity).
  assert (Eor : b_origin b3 = b_origin b) by congruence.
  assert (Eta : b_target b3 = b_target b) by congruence.
  assert (Ecl : b_cur_leader b3 = ol) by (unfold ol; congruence).
  assert (Est : b_steps b3 = add_steps (b_light b) (b_add b)) by (rewrite C2, B1, A1, Hs0; reflexivity).
  assert (EP : pairs_of (b_promote b3) = joint_P b) by (unfold joint_P; rewrite C3, B3, A2; reflexivity).
  assert (ED : pairs_of (b_demote b3) = joint_D b) by (unfold joint_D; rewrite C1, B4, B5, A3, A4; reflexivity).
  assert (ER : b_remove b3 = b_remove b) by congruence.
  rewrite Eol, Etl3, Eor, Eta in Hb.
  assert (E0 : (ol =? 0) = false) by (apply Z.eqb_neq; exact Hol0).
  rewrite E0 in Hb. cbn [orb] in Hb.
  unfold joint_plan, Ovoter, Tvoter.
  destruct (match pm_get (b_origin b) tl with Some p => negb (is_learner p) | None => false end) eqn:Eov.
  - (* target leader is a voter of the origin: transfer first *)
    destruct (ol =? tl) eqn:Eot; cbn [negb] in Hb.
    + apply Z.eqb_eq in Eot. exists TStay. inversion Hb; subst bF; clear Hb.
      rewrite joint_remove_all_spec. destruct (v2_fields b3 false) as (V1 & V2 & _). rewrite V1, V2, Est, EP, ED, ER. cbn [andb app].
      rewrite <- app_assoc. cbn [app]. split; [reflexivity|exact Eot].
    + apply Z.eqb_neq in Eot. exists TBefore. inversion Hb; subst bF; clear Hb.
      rewrite joint_remove_all_spec.
      destruct (kt_fields b3 tl true (b_kregion b3)) as (K1 & K2 & K3 & K4 & K5 & K6).
      set (bt := set_kinds (exec_transfer b3 tl) true (b_kregion b3)) in *.
      destruct (v2_fields bt false) as (V1 & V2 & _). rewrite V1, V2, K1, K2, K3, K4, Est, EP, ED, ER, Ecl. cbn [andb app].
      rewrite <- !app_assoc. cbn [app]. split; [reflexivity|]. split; [exact Eot|reflexivity].
  - destruct (match pm_get (b_target b) ol with Some p => negb (is_learner p) | None => false end) eqn:Etv.
    + (* the origin leader stays a voter: change first, transfer afterwards *)
      destruct (ol =? tl) eqn:Eot; cbn [negb] in Hb.
      * apply Z.eqb_eq in Eot. exists TStay. inversion Hb; subst bF; clear Hb.
        rewrite joint_remove_all_spec. destruct (v2_fields b3 false) as (V1 & V2 & _). rewrite V1, V2, Est, EP, ED, ER. cbn [andb app].
        rewrite <- app_assoc. cbn [app]. split; [reflexivity|exact Eot].
      * apply Z.eqb_neq in Eot. exists TAfter. inversion Hb; subst bF; clear Hb.
        rewrite joint_remove_all_spec.
        destruct (v2_fields b3 false) as (V1 & V2 & V3).
        set (bv := exec_change_v2 b3 true false) in *.
        destruct (kt_fields bv tl true (b_kregion b3)) as (K1 & K2 & K3 & K4 & K5 & K6).
        rewrite K1, K2, V1, V2, (V3 eq_refl), Est, EP, ED, ER, Ecl. cbn [andb app].
        rewrite <- !app_assoc. cbn [app]. split; [reflexivity|]. repeat split; auto.
    + (* leadership moves inside the joint state *)
      exists TInside. inversion Hb; subst bF; clear Hb.
      rewrite joint_remove_all_spec.
      assert (Eot : ol <> tl).
      { intros C. unfold Tvoter in Htv. fold tl in Htv. rewrite <- C in Htv. rewrite Htv in Etv. discriminate. }
      destruct (v2_fields b3 true) as (V1 & V2 & _).
      set (bv := exec_change_v2 b3 true true) in *.
      assert (K1 : forall x kl kr, b_steps (set_kinds x kl kr) = b_steps x) by reflexivity.
      assert (K2 : forall x kl kr, b_remove (set_kinds x kl kr) = b_remove x) by reflexivity.
      rewrite K1, K2, V1, V2, Eol, Etl3, Est, EP, ED, ER, Ecl.
      assert (En : negb (ol =? tl) = true) by (apply negb_true_iff, Z.eqb_neq; exact Eot).
      rewrite En. cbn [andb app].
      rewrite <- !app_assoc. cbn [app]. split; [reflexivity|]. repeat split; auto.
Qed.
