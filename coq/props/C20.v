(* C20 — a cluster is bootstrapped exactly once and keeps one identity.  Statements, derived in a few lines from the
   invariant, its views of the record's writer and the one-step lemmas of proof/C20_BootstrapProof.v.

   Quantification.  Every label list `ls` is one history and one interleaving, for every cluster id c
   of the serving member: any number of Bootstrap request threads (LBegin t headerId payload ; LTxn t
   outcome ; LStart t) with valid, malformed and mismatching requests, thread slots re-used for repeated
   requests, storage outcomes Ok / ErrNotApplied / ErrApplied of the one transaction, leader changes
   (LReload = stopRaftCluster ; createRaftCluster, LStop), and any number of members initialising the
   cluster id (LMemGet m ; LMemTxn m candidate outcome) with arbitrary random candidates. *)
From Coq Require Import String.
From PDV Require Import lib.Base lib.Skel lib.StrTable lib.C15_Guard gen.Gen_C20 model.C20_Bootstrap proof.C20_BootstrapProof proof.C20_Skel.
Local Open Scope Z_scope.

(* ---- at most one bootstrap transaction is ever applied ---- *)
Theorem C20_at_most_one_bootstrap_txn :
  forall c ls, (List.length (applied (exec step (init c) ls)) <= 1)%nat.
Proof.
  intros c ls. pose proof (record_view _ (inv_exec c ls)) as R.
  destruct (root _); [destruct R as (p & _ & _ & _ & _ & _ & -> & _) | destruct R as (_ & _ & _ & -> & _)]; cbn; lia.
Qed.

(* ---- at most one request is answered OK, and it is the one whose transaction was applied ---- *)
Theorem C20_at_most_one_acknowledged :
  forall c ls, (List.length (acked (exec step (init c) ls)) <= 1)%nat
               /\ forall n, In n (acked (exec step (init c) ls)) -> applied (exec step (init c) ls) = [n].
Proof.
  intros c ls. split; [|apply (i_ack _ (inv_exec c ls))].
  destruct (acked_view _ (inv_exec c ls)) as [->|(w & -> & _)]; cbn; lia.
Qed.

(* ---- exactly one succeeds.  Schedules and histories without storage faults: as soon as one valid request
        has completed its transaction, the record exists, written once, and its writer is the one request
        answered OK (or is at its last, always enabled, step — C20_winner_is_acknowledged) ---- *)
Theorem C20_exactly_one_if_some_valid_completes :
  forall c ls, guarded step no_fault (init c) ls = true ->
    done_ok (exec step (init c) ls) <> [] ->
    exists w, applied (exec step (init c) ls) = [w] /\ root (e (exec step (init c) ls)) = Some w
              /\ (acked (exec step (init c) ls) = [w] \/ exists t p, thr (exec step (init c) ls) t = Some (PWon w p)).
Proof. exact exactly_one. Qed.

Theorem C20_winner_is_acknowledged :
  forall c ls t n p, thr (exec step (init c) ls) t = Some (PWon n p) ->
    exists s', step (exec step (init c) ls) (LStart t) = Some s' /\ acked s' = [n] /\ running s' = true.
Proof.
  intros c ls t n p Ht. destruct (won_view _ _ _ _ (inv_exec c ls) Ht) as (_ & _ & Hk).
  cbn. rewrite Ht. eexists. split; [reflexivity|]. cbn. rewrite Hk. auto.
Qed.

(* with storage faults (ErrApplied on the winning transaction) the record still exists exactly once, but
   possibly nobody was answered OK — said explicitly: *)
Theorem C20_record_exists_once_even_with_faults :
  forall c ls, done_ok (exec step (init c) ls) <> [] ->
    exists w, applied (exec step (init c) ls) = [w] /\ root (e (exec step (init c) ls)) = Some w.
Proof. intros c ls. apply done_view, inv_exec. Qed.

(* ---- the winner's cluster.Start fails after its transaction (LStartFail): it is answered an error although the record is
        stored.  The record is the winner's, nobody has been answered OK; and from then on, whatever is retried, nobody is
        ever answered OK and the record never changes (the cluster comes up with the next reload).  All theorems above and
        below hold for histories containing this label; only C20_exactly_one_if_some_valid_completes excludes it (no_fault). ---- *)
Theorem C20_start_failure_keeps_the_record :
  forall c ls t n p s', thr (exec step (init c) ls) t = Some (PWon n p) ->
    step (exec step (init c) ls) (LStartFail t) = Some s' ->
    e s' = e (exec step (init c) ls) /\ applied s' = [n] /\ root (e s') = Some n /\ acked s' = [] /\ thr s' t = None
    /\ running s' = running (exec step (init c) ls).
Proof.
  intros c ls t n p s' Ht H. destruct (won_view _ _ _ _ (inv_exec c ls) Ht) as (Ha & Hr & Hk).
  cbn in H. rewrite Ht in H. inv H. cbn. rewrite set_thr_eq, Nat.eqb_refl. repeat split; auto.
Qed.

Theorem C20_after_start_failure_retries_change_nothing :
  forall s l s', Inv s -> root (e s) <> None -> acked s = [] -> (forall t n p, thr s t = Some (PWon n p) -> False) ->
    step s l = Some s' ->
    root (e s') = root (e s) /\ stores (e s') = stores (e s) /\ regions (e s') = regions (e s) /\ acked s' = []
    /\ (forall t n p, thr s' t = Some (PWon n p) -> False).
Proof. intros s l s' _. apply after_start_failure. Qed.

(* ---- cluster meta, bootstrap time, first store and first region all come from that one request ---- *)
Theorem C20_stored_all_from_winner :
  forall c ls,
    match root (e (exec step (init c) ls)) with
    | Some w => exists p, In (w, p) (reqs (exec step (init c) ls)) /\ check_req p = None
                          /\ btime (e (exec step (init c) ls)) = Some w
                          /\ stores (e (exec step (init c) ls)) = [(store_of p, w)]
                          /\ regions (e (exec step (init c) ls)) = [(region_of p, w)]
                          /\ applied (exec step (init c) ls) = [w]
                          /\ forall n, In n (acked (exec step (init c) ls)) -> n = w
    | None => btime (e (exec step (init c) ls)) = None /\ stores (e (exec step (init c) ls)) = []
              /\ regions (e (exec step (init c) ls)) = [] /\ acked (exec step (init c) ls) = []
    end.
Proof.
  intros c ls. pose proof (record_view _ (inv_exec c ls)) as R. destruct (root _) as [w|].
  - destruct R as (p & R1 & R2 & R3 & R4 & R5 & R6 & R7). exists p. repeat split; auto.
    intros n Hn. destruct R7 as [E|E]; rewrite E in Hn; [destruct Hn | destruct Hn as [<-|[]]; reflexivity].
  - destruct R as (R1 & R2 & R3 & _ & R5). auto.
Qed.

Theorem C20_running_implies_bootstrapped :
  forall c ls, running (exec step (init c) ls) = true -> root (e (exec step (init c) ls)) <> None.
Proof. intros c ls. apply (i_run _ (inv_exec c ls)). Qed.

(* ---- every other request is refused without changing anything (in any state, reachable or not) ---- *)
Theorem C20_loser_changes_nothing :
  forall s t o s', root (e s) <> None -> step s (LTxn t o) = Some s' ->
    e s' = e s /\ applied s' = applied s /\ acked s' = acked s /\ running s' = running s /\ thr s' t = None.
Proof.
  intros s t o s' Hr H. cbn in H. destruct (thr s t) as [[n p|n p]|]; try discriminate.
  destruct (root (e s)) eqn:Er; [|contradiction]. cbn in H. inv H. cbn. rewrite set_thr_eq, Nat.eqb_refl.
  destruct o; cbn; auto.
Qed.

(* ---- the winner learns late that it has won (etcd's answer is held: OCommit ... OFinish): whatever happens in between,
        it is the same bootstrap as an undelayed one; every request handled in that window is a loser (C20_loser_changes_nothing:
        the root exists); a transaction etcd commits within the time the request waits for it is the Ok outcome ---- *)
Theorem C20_late_answer_is_the_same_bootstrap :
  forall s t s1 o, boot_commit s t = Some (s1, BStarted) -> boot_finish s1 t o = boot_finish s t Ok.
Proof.
  intros s t s1 o. unfold boot_commit, boot_finish. destruct (thr s t) as [[n p|n p]|] eqn:Et; try discriminate.
  destruct (step s (LTxn t Ok)) as [s2|] eqn:Es; [|discriminate].
  destruct (thr s2 t) as [[n2 p2|n2 p2]|] eqn:Et2; intro H; try discriminate.
  injection H as <-. rewrite Et2. reflexivity.
Qed.

Theorem C20_commit_of_a_loser_is_its_refusal :
  forall s t s1, boot_commit s t = Some (s1, BConflict) -> boot_finish s t Ok = Some (s1, BConflict).
Proof.
  intros s t s1. unfold boot_commit, boot_finish. destruct (thr s t) as [[n p|n p]|] eqn:Et; try discriminate.
  destruct (step s (LTxn t Ok)) as [s2|] eqn:Es; [|discriminate].
  destruct (thr s2 t) as [[n2 p2|n2 p2]|] eqn:Et2; intro H; try discriminate; injection H as <-; reflexivity.
Qed.

Theorem C20_slow_commit_below_request_timeout_is_ok :
  forall r t ms, (ms < request_timeout_ms)%Z -> run_op1 r (OFinishSlow t ms) = run_op1 r (OFinish t Ok).
Proof. intros r t ms H. cbn. apply Z.ltb_lt in H. rewrite H. reflexivity. Qed.

Theorem C20_request_timeout_is_the_codes : kv_request_timeout_ns = (request_timeout_ms * 1000000)%Z.
Proof. exact request_timeout_matches_code. Qed.

(* ---- one identity at start-up: a member does not start when ANY peer of its initial-cluster that answers belongs to another
        etcd cluster - however many peers agree with it, wherever the foreign one stands in the walk, whoever is down ---- *)
Theorem C20_startup_check_refuses_any_foreign_peer :
  forall local answers id, In (Some id) answers -> id <> local -> startup_check local answers = false.
Proof.
  intros local answers id Hin Hne. destruct (startup_check local answers) eqn:E; [|reflexivity].
  destruct Hne. apply (proj1 (startup_check_spec local answers) E), Hin.
Qed.

Theorem C20_startup_check_accepts_iff_all_answers_agree :
  forall local answers, startup_check local answers = true <-> (forall id, In (Some id) answers -> id = local).
Proof. exact startup_check_spec. Qed.

(* a mismatching cluster id, an already running cluster, a malformed payload: refused, nothing changes *)
Theorem C20_refused_at_begin :
  forall s t hid p s', (hid <> scid s \/ running s = true \/ check_req p <> None) ->
    step s (LBegin t hid p) = Some s' -> s' = s.
Proof.
  intros s t hid p s' Hc H. destruct (begin_cases _ _ _ _ _ H) as [E|(_ & E1 & E2 & E3 & _)]; [exact E|].
  destruct Hc as [Hc|[Hc|Hc]]; congruence.
Qed.

(* "carrying a different cluster id" includes carrying none: a request with no header message has id 0 *)
Theorem C20_headerless_request_refused :
  forall s t p s', scid s <> 0 -> step s (LBegin t (hid_of None) p) = Some s' -> s' = s.
Proof. intros s t p s' Hc. apply C20_refused_at_begin. left. cbn. congruence. Qed.

(* ---- all members agree on a single cluster id that never changes afterwards ---- *)
Theorem C20_cluster_id_agreed :
  forall c ls m v, mids (exec step (init c) ls) m = Some v -> cid (e (exec step (init c) ls)) = Some v.
Proof. intros c ls. apply (i_cid _ (inv_exec c ls)). Qed.

Theorem C20_members_agree :
  forall c ls m m' v v', mids (exec step (init c) ls) m = Some v -> mids (exec step (init c) ls) m' = Some v' -> v = v'.
Proof.
  intros c ls m m' v v' H1 H2. apply C20_cluster_id_agreed in H1. apply C20_cluster_id_agreed in H2. congruence.
Qed.

Theorem C20_cluster_id_stable :
  forall s l s' v, cid (e s) = Some v -> step s l = Some s' -> cid (e s') = Some v.
Proof. exact cluster_id_stable. Qed.

Theorem C20_member_obtains_id :
  forall s m c s', step s (LMemTxn m c Ok) = Some s' -> exists v, mids s' m = Some v /\ cid (e s') = Some v.
Proof.
  intros s m c s' H. cbn in H. destruct (negb (mpend s m)); [discriminate|]. inv H. cbn. rewrite Nat.eqb_refl.
  destruct (cid (e s)) as [v|] eqn:Ec; cbn; [rewrite Ec; exists v; auto | exists c; auto].
Qed.

(* ---- requests carrying a different cluster id are refused: over the handler table regenerated from
        server/grpc_service.go, every handler except GetMembers (how a client learns the id) and the two
        PD-to-PD calls SyncMaxTS / GetDCLocationInfo validates through validateRequest, a direct comparison
        (Tso) or RegionSyncer.Sync (SyncRegions) — and those three do compare ---- *)
Theorem C20_mismatched_id_refused :
  forall h ks, In (h, ks) handlers -> exempt h = false -> exists k, In k ks /\ checks_cluster_id k = true.
Proof.
  intros h ks Hin Hex. pose proof handler_table_ok as H. rewrite forallb_forall in H. specialize (H _ Hin).
  unfold handler_ok in H. cbn [fst snd] in H. rewrite Hex in H. apply existsb_exists in H. exact H.
Qed.

Theorem C20_validateRequest_compares_cluster_id :
  In (IfE "v1.GetClusterId() != v0.clusterID" [Ret] []) skel_validateRequest      (* v0 = the receiver, v1 = the header parameter *)
  /\ In "v4 != v0.server.ClusterID()"%string syncer_sync_conds.
Proof. split; vm_compute; tauto. Qed.

(* ... and nothing is done before the validation: apart from receiving on a stream, IsClosed and
   UpdateServiceGCSafePoint's own lock, no handler calls anything on the server before the validating statement
   (RegionHeartbeat alone first answers NOT_BOOTSTRAPPED, read-only, when no cluster is running) *)
Theorem C20_nothing_before_validation :
  forall h cs, In (h, cs) pre_validation_calls -> exempt h = false -> h <> "RegionHeartbeat"%string ->
    forall c, In c cs -> In c harmless_before_validation.
Proof.
  intros h cs Hin Hex Hne c Hc. pose proof pre_validation_table_ok as H. rewrite forallb_forall in H.
  specialize (H _ Hin). unfold pre_ok in H. cbn [fst snd] in H. rewrite Hex in H. cbn [orb] in H.
  rewrite forallb_forall in H. specialize (H _ Hc). apply String.eqb_neq in Hne. rewrite Hne in H. cbn [andb] in H.
  rewrite orb_false_r in H. apply mem_str_In, H.
Qed.

(* ---- on a stream the refusal is per message, not per stream: for every list of messages on ONE stream of a streaming
        handler, a message whose header carries another id, id 0 or is absent is answered with the mismatch refusal
        (RegionHeartbeat without a running cluster: NOT_BOOTSTRAPPED) whatever preceded it on the stream; the refusal ends
        the stream.  The code is tied to this by the position of the check: directly in the body of the receive loop -
        not under another condition, not before the loop - and before the call that serves the message, in Server.Tso,
        Server.RegionHeartbeat and RegionSyncer.Sync ---- *)
Theorem C20_stream_refusal_is_per_message :
  forall name running c hs k h b, nth_error hs k = Some h -> hid_of h <> c ->
    nth_error (stream_run name running c hs) k = Some b -> b = BMismatch \/ b = BNotBoot.
Proof. exact stream_per_message. Qed.

Theorem C20_stream_stops_at_refusal :
  forall name running c hs k, nth_error (stream_run name running c hs) k = Some BMismatch ->
    List.length (stream_run name running c hs) = S k.
Proof. exact stream_stops_at_refusal. Qed.

Theorem C20_stream_handlers_check_every_message :
  in_loop_before (is_check "v5.GetHeader().GetClusterId() != v0.clusterID") (is_call "HandleTSORequest") skel_Tso = true
  /\ in_loop_before (is_call "validateRequest") (is_call "HandleRegionHeartbeat") skel_RegionHeartbeat = true
  /\ in_loop_before (is_check "v4 != v0.server.ClusterID()") (is_call "syncHistoryRegion") skel_SyncerSync = true.
Proof. vm_compute. repeat split; reflexivity. Qed.

(* ---- one identity under configuration updates: PutClusterConfig is the other writer of the cluster record.  Whatever
        list of bodies is sent (no body, unset id = 0, another id, the right id), the id of the stored and served cluster
        meta stays the cluster's: RaftCluster.PutConfig refuses every body whose id is not the cluster's ---- *)
Theorem C20_cluster_config_keeps_identity :
  forall c bodies meta, fst meta = c -> fst (fold_left (put_meta c) bodies meta) = c.
Proof.
  intros c. induction bodies as [|b r IH]; intros meta H; [exact H|]. cbn [fold_left]. apply IH.
  rewrite put_meta_agrees. destruct (put_config c b); [reflexivity|exact H].
Qed.

Theorem C20_put_config_compares_cluster_id : In (IfE "v1.GetId() != v0.clusterID" [Ret] []) skel_PutConfig.
Proof. vm_compute. tauto. Qed.

(* non-vacuity: three concurrent valid requests, a lost one, a fault, a reload, a late request; three members *)
Example C20_nonvacuous :
  let p n := Payload (Some (1000 + n)) (Some (Region (2000 + n) true true [Peer (3000 + n) (1000 + n)])) in
  let ls := [LBegin 0 7 (p 1); LBegin 1 7 (p 2); LBegin 2 7 (p 3); LTxn 1 Ok; LTxn 0 Ok; LStart 1; LTxn 2 ErrApplied;
             LReload; LBegin 0 7 (p 4); LBegin 0 8 (p 5);
             LMemGet 0; LMemGet 1; LMemTxn 1 55 Ok; LMemTxn 0 66 Ok; LMemGet 2] in
  let s := exec step (init 7) ls in
  guarded step no_fault (init 7) (firstn 6 ls) = true /\
  applied s = [1%nat] /\ acked s = [1%nat] /\ stores (e s) = [(1002, 1%nat)] /\ regions (e s) = [(2002, 1%nat)] /\
  done_ok s = [0%nat; 1%nat] /\ running s = true /\ mids s 0%nat = Some 55 /\ mids s 1%nat = Some 55 /\ mids s 2%nat = Some 55.
Proof. vm_compute. repeat split; reflexivity. Qed.

Print Assumptions C20_at_most_one_bootstrap_txn.
Print Assumptions C20_at_most_one_acknowledged.
Print Assumptions C20_exactly_one_if_some_valid_completes.
Print Assumptions C20_winner_is_acknowledged.
Print Assumptions C20_record_exists_once_even_with_faults.
Print Assumptions C20_start_failure_keeps_the_record.
Print Assumptions C20_after_start_failure_retries_change_nothing.
Print Assumptions C20_stored_all_from_winner.
Print Assumptions C20_running_implies_bootstrapped.
Print Assumptions C20_loser_changes_nothing.
Print Assumptions C20_refused_at_begin.
Print Assumptions C20_headerless_request_refused.
Print Assumptions C20_cluster_id_agreed.
Print Assumptions C20_members_agree.
Print Assumptions C20_cluster_id_stable.
Print Assumptions C20_member_obtains_id.
Print Assumptions C20_mismatched_id_refused.
Print Assumptions C20_validateRequest_compares_cluster_id.
Print Assumptions C20_nothing_before_validation.
Print Assumptions C20_cluster_config_keeps_identity.
Print Assumptions C20_put_config_compares_cluster_id.
Print Assumptions C20_stream_refusal_is_per_message.
Print Assumptions C20_stream_stops_at_refusal.
Print Assumptions C20_stream_handlers_check_every_message.
Print Assumptions C20_late_answer_is_the_same_bootstrap.
Print Assumptions C20_commit_of_a_loser_is_its_refusal.
Print Assumptions C20_slow_commit_below_request_timeout_is_ok.
Print Assumptions C20_request_timeout_is_the_codes.
Print Assumptions C20_startup_check_refuses_any_foreign_peer.
Print Assumptions C20_startup_check_accepts_iff_all_answers_agree.
