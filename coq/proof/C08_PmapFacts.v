(* C08 — facts about the builder's store-indexed maps (sorted association lists). *)
From Coq Require Import String Sorting.Sorted.
From PDV Require Import lib.Base gen.Gen_C08 model.C08_Steps model.C08_Builder proof.C08_ListFacts.
Local Open Scope list_scope.
Local Open Scope Z_scope.

Lemma pm_get_lk m st : pm_get m st = lk m st.
Proof. reflexivity. Qed.

Lemma pm_get_set m p st : pm_get (pm_set m p) st = if pstore p =? st then Some p else pm_get m st.
Proof.
  unfold pm_get. induction m as [|q r IH]; cbn [pm_set find].
  - unfold on_store. destruct (pstore p =? st); reflexivity.
  - destruct (pstore p <? pstore q) eqn:E1.
    + cbn [find]. unfold on_store at 1. destruct (pstore p =? st); reflexivity.
    + destruct (pstore p =? pstore q) eqn:E2.
      * cbn [find]. unfold on_store at 1. destruct (pstore p =? st) eqn:E3; [reflexivity|].
        apply Z.eqb_eq in E2. unfold on_store at 2. rewrite <- E2, E3. reflexivity.
      * cbn [find]. destruct (on_store st q) eqn:E4.
        -- apply on_store_true in E4. destruct (pstore p =? st) eqn:E3; [|reflexivity].
           apply Z.eqb_eq in E3. rewrite E3, E4, Z.eqb_refl in E2. discriminate.
        -- exact IH.
Qed.

Lemma pm_get_del m st s : ND m -> pm_get (pm_del m st) s = if s =? st then None else pm_get m s.
Proof.
  intros H. unfold pm_get, pm_del. change (find (on_store s) (filter (fun q => negb (on_store st q)) m)) with (lk (filter (fun q => negb (on_store st q)) m) s).
  rewrite lk_filter by exact H. fold (lk m s). destruct (lk m s) as [p|] eqn:E; [|destruct (s =? st); reflexivity].
  apply lk_Some in E as [_ E]. unfold on_store. rewrite E. rewrite (Z.eqb_sym s st). destruct (st =? s); reflexivity.
Qed.

Definition plt (a b : peer) : Prop := pstore a < pstore b.
Definition PSorted (m : pmap) : Prop := StronglySorted plt m.

Lemma PSorted_ND m : PSorted m -> ND m.
Proof.
  unfold PSorted, ND. induction 1 as [|p r Hs IH Hall]; cbn [map]; constructor; [|exact IH].
  intros C. apply in_map_iff in C as (q & Hq & Hin). rewrite Forall_forall in Hall. specialize (Hall q Hin). unfold plt in Hall. lia.
Qed.

Lemma pm_set_In m p x : In x (pm_set m p) -> x = p \/ In x m.
Proof.
  induction m as [|q r IH]; cbn [pm_set]; intros H.
  - destruct H as [H|[]]; auto.
  - destruct (pstore p <? pstore q); [destruct H as [H|H]; auto|].
    destruct (pstore p =? pstore q); [destruct H as [H|H]; [auto|right; right; exact H]|].
    destruct H as [H|H]; [right; left; exact H|]. destruct (IH H); auto. right. right. assumption.
Qed.

Lemma pm_set_sorted m p : PSorted m -> PSorted (pm_set m p).
Proof.
  unfold PSorted. induction 1 as [|q r Hs IH Hall]; cbn [pm_set].
  - constructor; constructor.
  - destruct (pstore p <? pstore q) eqn:E1.
    + apply Z.ltb_lt in E1. constructor; [constructor; assumption|].
      constructor; [exact E1|]. rewrite Forall_forall in *. intros x Hx. specialize (Hall x Hx). unfold plt in *. lia.
    + apply Z.ltb_ge in E1. destruct (pstore p =? pstore q) eqn:E2.
      * apply Z.eqb_eq in E2. constructor; [exact Hs|]. rewrite Forall_forall in *. intros x Hx. specialize (Hall x Hx). unfold plt in *. lia.
      * apply Z.eqb_neq in E2. constructor; [exact IH|]. rewrite Forall_forall in *. intros x Hx.
        apply pm_set_In in Hx as [->|Hx]; [unfold plt; lia|apply Hall; exact Hx].
Qed.

Lemma pm_del_sorted m st : PSorted m -> PSorted (pm_del m st).
Proof.
  unfold PSorted, pm_del. induction 1 as [|p r Hs IH Hall]; cbn [filter]; [constructor|].
  destruct (negb (on_store st p)); [|exact IH]. constructor; [exact IH|].
  rewrite Forall_forall in *. intros x Hx. apply filter_In in Hx as [Hx _]. apply Hall. exact Hx.
Qed.

Lemma fold_pm_set_sorted l : forall m, PSorted m -> PSorted (fold_left pm_set l m).
Proof. induction l as [|p r IH]; intros m H; cbn [fold_left]; [exact H|]. apply IH, pm_set_sorted, H. Qed.

Lemma pm_of_list_sorted l : PSorted (pm_of_list l).
Proof. apply fold_pm_set_sorted. constructor. Qed.

Lemma fold_pm_set_get l : forall m st, ND l ->
  pm_get (fold_left pm_set l m) st = match lk l st with Some p => Some p | None => pm_get m st end.
Proof.
  induction l as [|p r IH]; intros m st H; cbn [fold_left]; [reflexivity|].
  unfold ND in H. cbn [map] in H. inversion H as [|? ? Hn Hd]; subst.
  rewrite IH by exact Hd. unfold lk at 2. cbn [find]. fold (lk r st). unfold on_store at 1.
  destruct (lk r st) as [q|] eqn:E.
  - destruct (pstore p =? st) eqn:E2; [|reflexivity].
    apply Z.eqb_eq in E2. apply lk_Some in E as [E3 E4]. exfalso. apply Hn. rewrite E2, <- E4. apply in_map. exact E3.
  - rewrite pm_get_set. destruct (pstore p =? st); reflexivity.
Qed.

Lemma pm_of_list_In l x : In x (pm_of_list l) -> In x l.
Proof.
  unfold pm_of_list.
  assert (G : forall l m, In x (fold_left pm_set l m) -> In x l \/ In x m).
  { clear l. induction l as [|p r IH]; intros m H; cbn [fold_left] in H; [right; exact H|].
    destruct (IH _ H) as [H1|H1]; [left; right; exact H1|]. apply pm_set_In in H1 as [->|H1]; [left; left; reflexivity|right; exact H1]. }
  intros H. destruct (G l [] H) as [H1|[]]; exact H1.
Qed.

Lemma pm_of_list_get l st : ND l -> pm_get (pm_of_list l) st = lk l st.
Proof. intros H. unfold pm_of_list. rewrite fold_pm_set_get by exact H. destruct (lk l st); reflexivity. Qed.

Lemma countb_pm_set_fresh (f : peer -> bool) m p : lk m (pstore p) = None -> countb f (pm_set m p) = countb f m + b2z (f p).
Proof.
  unfold countb. induction m as [|q r IH]; cbn [pm_set]; intros H.
  - cbn. destruct (f p); cbn; lia.
  - unfold lk in H. cbn [find] in H. destruct (on_store (pstore p) q) eqn:E; [discriminate|].
    unfold on_store in E. destruct (pstore p <? pstore q).
    + cbn [filter]. destruct (f p); cbn [length b2z]; lia.
    + rewrite (Z.eqb_sym (pstore p) (pstore q)), E. cbn [filter]. specialize (IH H).
      destruct (f q); cbn [length]; lia.
Qed.

Lemma countb_pm_of_list (f : peer -> bool) l : ND l -> countb f (pm_of_list l) = countb f l.
Proof.
  intros H. unfold pm_of_list.
  assert (G : forall l m, ND l -> (forall p, In p l -> lk m (pstore p) = None) -> countb f (fold_left pm_set l m) = countb f m + countb f l).
  { clear l H. induction l as [|p r IH]; intros m Hnd Hfresh; cbn [fold_left].
    - unfold countb. cbn [filter length]. lia.
    - unfold ND in Hnd. cbn [map] in Hnd. inversion Hnd as [|? ? Hn Hd]; subst.
      rewrite IH; [| exact Hd |].
      + rewrite countb_pm_set_fresh by (apply Hfresh; left; reflexivity).
        unfold countb at 4. cbn [filter]. destruct (f p); cbn [length b2z]; unfold countb; lia.
      + intros q Hq. rewrite <- pm_get_lk, pm_get_set. destruct (pstore p =? pstore q) eqn:E.
        * apply Z.eqb_eq in E. exfalso. apply Hn. rewrite E. apply in_map. exact Hq.
        * apply Hfresh. right. exact Hq. }
  rewrite G; [|exact H|intros; reflexivity]. unfold countb. cbn [filter length]. lia.
Qed.

Lemma pm_In_get m p : ND m -> (In p m <-> pm_get m (pstore p) = Some p).
Proof.
  intros H. split; [apply lk_In; exact H|]. intros E. apply (lk_Some _ _ _ E).
Qed.

Lemma pairs_of_In m st id : In (st, id) (pairs_of m) <-> exists p, In p m /\ pstore p = st /\ pid p = id.
Proof.
  unfold pairs_of. rewrite in_map_iff. split.
  - intros (p & E & Hin). inversion E; subst. eauto.
  - intros (p & Hin & <- & <-). eauto.
Qed.

Lemma pairs_of_fst m : map fst (pairs_of m) = map pstore m.
Proof. unfold pairs_of. rewrite map_map. reflexivity. Qed.
