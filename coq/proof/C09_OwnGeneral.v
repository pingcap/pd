(* C09 — own_steps_never_stale in general (any plan, any number of peers): along the execution of a plan the
   C08 checker accepts, every heartbeat finds conf_ver(region) - conf_ver(operator) <= Operator.ConfVerChanged,
   so checkStaleOperator keeps the operator - provided no step of the plan lowers what an EARLIER step counts
   in ConfVerChanged (a plan that undoes its own steps is judged stale: undo_plan_facts in proof/C09_OwnProof.v).
   Core: an applied step raises conf_ver by exactly its nominal amount and counts exactly that afterwards. *)
From PDV Require Import lib.Base model.C08_Steps model.C08_Builder model.C09_OpCtl proof.C08_ListFacts
     proof.C08_PlanProof proof.C08_StepSpec proof.C09_Skel proof.C09_CountProof.
Local Open Scope list_scope.
Local Open Scope Z_scope.

Definition cvc_sum (r : region) (l : list step) : Z := fold_left (fun acc s => acc + conf_ver_changed r s) l 0.

Definition joint_lists_nonempty (s : step) : bool :=
  match s with
  | ChangePeerV2Enter pl dv | ChangePeerV2Leave pl dv => negb (Nat.eqb (length pl + length dv) 0)
  | _ => true
  end.
Definition wf_step (s : step) : bool := step_ids_nonzero s && joint_lists_nonempty s.

(* applying a step never lowers what an earlier (passed) step counts; applied steps name non-zero peer ids and,
   for joint steps, at least one peer *)
Fixpoint monotone_from (done : list step) (r : region) (ss : list step) : bool :=
  match ss with
  | [] => true
  | s :: rest =>
      match exec_step r s with
      | RSkip => monotone_from (done ++ [s]) r rest
      | RDone _ r' => wf_step s && forallb (fun x => conf_ver_changed r x <=? conf_ver_changed r' x) done && monotone_from (done ++ [s]) r' rest
      | _ => true
      end
  end.

(* what every heartbeat of the closed loop sees: cursor after `done`, current unfinished step s, region r *)
Fixpoint heartbeats_fine (cv0 : Z) (done : list step) (r : region) (ss : list step) : bool :=
  match ss with
  | [] => true
  | s :: rest =>
      match exec_step r s with
      | RSkip => heartbeats_fine cv0 (done ++ [s]) r rest
      | RDone _ r' => (conf_ver r - cv0 <=? cvc_sum r (done ++ [s])) && safe r s && heartbeats_fine cv0 (done ++ [s]) r' rest
      | _ => false
      end
  end.

Lemma cvc_sum_from r l a : fold_left (fun acc s => acc + conf_ver_changed r s) l a = a + cvc_sum r l.
Proof.
  unfold cvc_sum. revert a. induction l as [|s l IH]; intros a; cbn [fold_left]; [lia|].
  rewrite IH, (IH (0 + conf_ver_changed r s)). lia.
Qed.

Lemma cvc_sum_snoc r l s : cvc_sum r (l ++ [s]) = cvc_sum r l + conf_ver_changed r s.
Proof. unfold cvc_sum at 1. rewrite fold_left_app. cbn [fold_left]. fold (cvc_sum r l). reflexivity. Qed.

Lemma cvc_sum_mono r r' l :
  forallb (fun x => conf_ver_changed r x <=? conf_ver_changed r' x) l = true -> cvc_sum r l <= cvc_sum r' l.
Proof.
  induction l as [|s l IH] using rev_ind; intros H; [unfold cvc_sum; cbn; lia|].
  rewrite forallb_app in H. apply andb_true_iff in H as [H1 H2]. cbn [forallb] in H2. rewrite andb_true_r in H2. apply Z.leb_le in H2.
  rewrite !cvc_sum_snoc. specialize (IH H1). lia.
Qed.

Lemma simple_change_cv r t p r' : apply_cmd r (CChangePeer t (Some p)) = Some r' -> conf_ver r' = conf_ver r + 1.
Proof.
  unfold apply_cmd. destruct (is_in_joint r); [discriminate|]. destruct (apply_change false (leader r) (peers r) (t, p)); [|discriminate].
  intros H; inversion H; subst. reflexivity.
Qed.

Lemma count_joint_pos r : is_in_joint r = true -> 0 < count_joint r.
Proof.
  unfold is_in_joint, count_joint. induction (peers r) as [|p l IH]; cbn [existsb filter]; [discriminate|].
  destruct (in_joint p); cbn [orb length]; [lia|exact IH].
Qed.

Lemma oid_finish (o : option peer) id : match o with Some p => pid p =? id | None => false end = true -> (oid o =? id) = true.
Proof. destruct o; [auto|discriminate]. Qed.

Lemma finished_counts r s : ND (peers r) -> is_finish r s = true -> conf_ver_changed r s = nominal s.
Proof.
  intros Hnd Hf.
  destruct s as [f t|st id|st id|st id|st id|st id|st id|st id|pl dv|pl dv|pa tr|fr]; cbn [nominal conf_ver_changed is_finish] in *;
    try reflexivity; try (rewrite (oid_finish _ _ Hf); reflexivity).
  - destruct (get_store_learner r st) as [p|] eqn:El; [|discriminate]. destruct (learner_some r Hnd _ _ El) as [Ep _].
    rewrite Ep. cbn [oid]. rewrite Hf. reflexivity.
  - destruct (get_store_learner r st) as [p|] eqn:El; [|discriminate]. destruct (learner_some r Hnd _ _ El) as [Ep _].
    rewrite Ep. cbn [oid]. rewrite Hf. reflexivity.
  - destruct (get_store_peer r st); [discriminate|]. reflexivity.
  - match goal with |- (if ?c then _ else _) = _ => assert (Hc' : c = true); [|rewrite Hc'; reflexivity] end.
    apply andb_true_iff in Hf as [F1 F2]. rewrite forallb_forall in F1, F2.
    apply andb_true_iff; split; apply forallb_forall; intros x Hx.
    + specialize (F1 x Hx). cbn zeta in *. apply andb_true_iff in F1 as [A B].
      rewrite A. destruct (get_store_voter r (fst x)) as [p|]; cbn [orole is_voter_or_incoming] in *; [|discriminate].
      destruct (prole p); try discriminate. reflexivity.
    + specialize (F2 x Hx). cbn zeta in *. apply andb_true_iff in F2 as [A B].
      rewrite A. destruct (get_store_voter r (fst x)) as [p|]; cbn [orole is_some is_learner_or_demoting andb negb orb] in *; [|reflexivity].
      destruct (prole p); try discriminate. reflexivity.
  - match goal with |- (if ?c then _ else _) = _ => assert (Hc' : c = true); [|rewrite Hc'; reflexivity] end.
    apply andb_true_iff in Hf as [Hf F3]. apply andb_true_iff in Hf as [F1 F2]. rewrite forallb_forall in F2.
    apply andb_true_iff; split; [exact F1|]. apply forallb_forall. intros x Hx.
    specialize (F2 x Hx). unfold dv_finished in F2. unfold dv_changed.
    destruct (get_store_learner _ (fst x)) as [p|]; [|discriminate]. cbn [oid]. rewrite F2. cbn. rewrite andb_false_r. reflexivity.
Qed.

Lemma exec_conf_ver r s c r' :
  ND (peers r) -> wf_step s = true -> exec_step r s = RDone c r' -> conf_ver r' = conf_ver r + nominal s.
Proof.
  intros Hnd Hwf He. apply andb_true_iff in Hwf as [Hz Hne].
  destruct (exec_step_done _ _ _ _ He) as (Hnf & Hs & Hc & Ha).
  destruct s as [f t|st id|st id|st id|st id|st id|st id|st id|pl dv|pl dv|pa tr|fr]; cbn [cmd_of_step nominal] in *;
    try (destruct (is_some (get_store_peer r st)); [discriminate Hc|]); try (destruct pa; [discriminate Hc|]);
    inversion Hc; subst c; try exact (simple_change_cv _ _ _ _ Ha).
  - unfold apply_cmd in Ha. destruct (get_store_peer r t) as [p|]; [|discriminate].
    destruct (get_store_peer r (pstore p)) as [q|]; [|discriminate]. destruct (negb (pid q =? pid p) || is_learner q); [discriminate|].
    inversion Ha; subst r'. cbn. lia.
  - destruct (get_store_peer r st) as [p|]; [|discriminate Ha]. exact (simple_change_cv _ _ _ _ Ha).
  - cbn [joint_lists_nonempty] in Hne.
    assert (Hlen : length (v2_request pl dv) = (length pl + length dv)%nat) by (unfold v2_request; rewrite app_length, !map_length; reflexivity).
    destruct (v2_request pl dv) as [|x cs] eqn:Ev.
    + cbn [length] in Hlen. rewrite <- Hlen in Hne. discriminate.
    + unfold apply_cmd in Ha. destruct (is_in_joint r); [discriminate|].
      destruct (apply_changes true (leader r) (peers r) (x :: cs)); [|discriminate].
      inversion Ha; subst r'. cbn [conf_ver set_peers]. rewrite <- Hlen. reflexivity.
  - cbn [joint_lists_nonempty] in Hne.
    unfold apply_cmd in Ha. destruct (is_in_joint r) eqn:Ej; cbn [negb] in Ha; [|discriminate].
    match type of Ha with (if ?c then _ else _) = _ => destruct c end; [discriminate|]. inversion Ha; subst r'. cbn [conf_ver set_peers].
    (* CheckSafety forces the region's joint peers to be exactly the step's entries *)
    pose proof (check_safety_sound r (ChangePeerV2Leave pl dv) Hnd Hz Hs) as X. cbn [spec_safe] in X.
    apply andb_true_iff in X as [_ X]. apply orb_true_iff in X as [X|X]; [apply orb_true_iff in X as [X|X]|].
    + destruct pl, dv; cbn in Hne; try discriminate X. discriminate Hne.
    + apply andb_true_iff in X as [_ X]. apply Z.eqb_eq in X. pose proof (count_joint_pos r Ej). lia.
    + apply andb_true_iff in X as [X _]. apply andb_true_iff in X as [_ X]. apply Z.eqb_eq in X. lia.
  - cbn in Ha. inversion Ha; subst r'. cbn. lia.
  - cbn in Ha. inversion Ha; subst r'. cbn. lia.
Qed.

Lemma step_accounting r s c r' :
  ND (peers r) -> ND (peers r') -> wf_step s = true ->
  exec_step r s = RDone c r' -> is_finish r' s = true ->
  conf_ver r' = conf_ver r + nominal s /\ conf_ver_changed r' s = nominal s.
Proof. intros Hnd Hnd' Hwf He Hf. split; [exact (exec_conf_ver r s c r' Hnd Hwf He)|exact (finished_counts r' s Hnd' Hf)]. Qed.

Lemma plan_check_cons g r s rest : plan_check g r (s :: rest) = None ->
  (exec_step r s = RSkip /\ plan_check g r rest = None)
  \/ exists c r', exec_step r s = RDone c r' /\ nodup_stores (peers r') = true /\ is_finish r' s = true /\ plan_check g r' rest = None.
Proof.
  cbn [plan_check]. destruct (exec_step r s) as [|e| |c|c r'] eqn:E; try discriminate.
  - intros H. left. auto.
  - intros H. right. exists c, r'. destruct (trans_violation g r r') eqn:Et; [discriminate|].
    destruct (is_finish r' s) eqn:Ef; cbn [negb] in H; [|discriminate]. repeat split; auto.
    unfold trans_violation in Et. destruct (negb (leader_kept r r')); [discriminate|]. destruct (negb (leader_to_valid r r')); [discriminate|].
    destruct (nodup_stores (peers r')); [reflexivity|discriminate].
Qed.

Theorem heartbeats_fine_general g : forall ss done r cv0,
  nodup_stores (peers r) = true ->
  plan_check g r ss = None -> monotone_from done r ss = true ->
  conf_ver r - cv0 <= cvc_sum r done ->
  heartbeats_fine cv0 done r ss = true.
Proof.
  induction ss as [|s rest IH]; intros done r cv0 Hnd Hpc Hmono Hinv; [reflexivity|].
  cbn [heartbeats_fine monotone_from] in *.
  pose proof (cvc_le_nominal r s) as [Hc0 _].
  destruct (plan_check_cons g r s rest Hpc) as [(E & Hrest)|(c & r' & E & Hnd' & Hf & Hrest)]; rewrite E in *.
  - apply IH; auto. rewrite cvc_sum_snoc. lia.
  - apply andb_true_iff in Hmono as [M1 M2]. apply andb_true_iff in M1 as [Hw M1].
    destruct (exec_step_done _ _ _ _ E) as (_ & Hs & _ & _).
    destruct (step_accounting r s c r' (proj1 (nodup_stores_ND _) Hnd) (proj1 (nodup_stores_ND _) Hnd') Hw E Hf) as [Acv Acc].
    apply andb_true_iff. split; [apply andb_true_iff; split|].
    + apply Z.leb_le. rewrite cvc_sum_snoc. lia.
    + unfold safe. rewrite Hs. reflexivity.
    + apply IH; auto. rewrite cvc_sum_snoc, Acc. pose proof (cvc_sum_mono r r' done M1). lia.
Qed.

(* from the start of the plan: nothing passed yet, conf_ver is the operator's *)
Lemma heartbeats_fine_accepted g r0 ss :
  nodup_stores (peers r0) = true -> plan_ok g r0 ss = true -> monotone_from [] r0 ss = true ->
  heartbeats_fine (conf_ver r0) [] r0 ss = true.
Proof.
  intros Hnd Hok Hm. apply (heartbeats_fine_general g); auto.
  - unfold plan_ok in Hok. destruct (plan_check g r0 ss); [discriminate|reflexivity].
  - unfold cvc_sum. cbn. lia.
Qed.

Lemma check_stale_keeps c o s r :
  check_safety r s = None -> 0 <= conf_ver r - o_cv o -> conf_ver r - o_cv o <= op_conf_ver_changed o r ->
  check_stale c o s r = (c, false).
Proof.
  intros Hs H0 Hle. unfold check_stale. rewrite Hs. cbn [is_some].
  rewrite stale_cmp_ok.
  assert (Hm : (conf_ver r - o_cv o) mod two64 <= conf_ver r - o_cv o) by (apply Z.mod_le; [exact H0|reflexivity]).
  destruct ((op_conf_ver_changed o r) <? ((conf_ver r - o_cv o) mod two64)) eqn:E; [apply Z.ltb_lt in E; lia|reflexivity].
Qed.

