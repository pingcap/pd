(* C06 — storage clauses: heartbeats handled one at a time. *)
From PDV Require Import lib.Base model.C07_Region proof.C07_RegionProof proof.C07_Spec model.C06_Heartbeat
  proof.C06_HeartbeatProof.
Local Open Scope Z_scope.

Lemma th_get_set l t p : th_get (th_set l t p) t = Some p.
Proof. unfold th_set. cbn. rewrite Z.eqb_refl. reflexivity. Qed.
Lemma th_del_set l t p : th_del (th_set l t p) t = th_del l t.
Proof. unfold th_set. cbn. rewrite Z.eqb_refl. reflexivity. Qed.
Lemma th_del_none l t : th_get l t = None -> th_del l t = l.
Proof.
  induction l as [|[k v] l IH]; cbn; [reflexivity|]. destruct (k =? t); [discriminate|]. intros H. rewrite IH; auto.
Qed.
Lemma th_get_del l t : th_get (th_del l t) t = None -> th_del (th_del l t) t = th_del l t.
Proof. apply th_del_none. Qed.

Lemma finish_store todo : forall fuel h t,
  (length todo < fuel)%nat -> th_get (h_threads h) t = Some (PStore todo) ->
  finish fuel h t = (HState (h_cache h) (fold_left apply_sop todo (h_store h)) (th_del (h_threads h) t), HOk).
Proof.
  induction todo as [|o rest IH]; intros fuel h t F TG; (destruct fuel as [|fuel]; [cbn in F; lia|]); cbn [finish].
  - unfold step. rewrite TG. reflexivity.
  - unfold step. rewrite TG. destruct rest as [|o2 rest2].
    + reflexivity.
    + rewrite IH; cbn [h_cache h_store h_threads].
      * rewrite th_del_set. reflexivity.
      * cbn in F |- *. lia.
      * apply th_get_set.
Qed.

Lemma finish_S fuel h t :
  finish (S fuel) h t = let '(h', res) := step h t in match res with HParked => finish fuel h' t | _ => (h', res) end.
Proof. reflexivity. Qed.

(* in the shape `finish` has after the locked section: its writes, if any, are run to the end *)
Lemma finish_parked fuel c s l t todo : (length todo < fuel)%nat ->
  match res_of todo with
  | HParked => finish fuel (HState c s (park l t todo)) t
  | _ => (HState c s (park l t todo), res_of todo)
  end = (HState c (fold_left apply_sop todo s) (th_del l t), HOk).
Proof.
  intros F. destruct todo as [|o todo]; [reflexivity|]. cbn [res_of park].
  rewrite (finish_store (o :: todo)); cbn [h_cache h_store h_threads]; [rewrite th_del_set; reflexivity|exact F|apply th_get_set].
Qed.

Lemma step_put h t r fl : th_get (h_threads h) t = Some (PLock r fl) -> f_cache fl = true -> accepted (h_cache h) r ->
  step h t = (HState (fst (put_region (h_cache h) r)) (h_store h)
                     (park (h_threads h) t (store_ops (snd (put_region (h_cache h) r)) r fl)),
              res_of (store_ops (snd (put_region (h_cache h) r)) r fl)).
Proof.
  intros TG FC A. unfold step. rewrite TG, FC. unfold accepted in A.
  destruct (precheck (h_cache h) r) as [origin err]. cbn [snd] in A. subst err.
  destruct (put_region (h_cache h) r) as [c' ov]. cbn [fst snd]. destruct (store_ops ov r fl); reflexivity.
Qed.

(* a heartbeat that is not answered at once always puts (flags_not_early) *)
Definition seq_result (h : hstate) (r : region) : hstate * hres :=
  let '(origin, err) := precheck (h_cache h) r in
  if err then (h, HErr)
  else
    let fl := compute_flags r origin in
    if idle fl then (h, HOk)
    else
      let '(c', ov) := put_region (h_cache h) r in
      (HState c' (fold_left apply_sop (store_ops ov r fl) (h_store h)) (h_threads h), HOk).

Lemma store_ops_len ov r fl : (length (store_ops ov r fl) <= S (length ov))%nat.
Proof. unfold store_ops. rewrite app_length, map_length. destruct (f_kv fl); cbn; lia. Qed.

Lemma displaced_len c r : Inv c -> wf_region r = true ->
  (length (snd (put_region c r)) <= length (items (tree c)))%nat.
Proof.
  intros I W. destruct (Inv_put c r I W) as (_ & _ & E). rewrite E. unfold displaced, cached.
  induction (items (tree c)) as [|a l IH]; cbn; [lia|]. destruct (_ && _); cbn; lia.
Qed.

Lemma heartbeat_seq h r : Inv (h_cache h) -> wf_region r = true -> th_get (h_threads h) (-1) = None ->
  heartbeat h r = seq_result h r.
Proof.
  intros I W TG. unfold heartbeat, seq_result, begin, idle. rewrite TG.
  destruct (precheck (h_cache h) r) as [origin err] eqn:PC. destruct err; [reflexivity|].
  destruct (negb _ && negb _ && negb _) eqn:ND; [reflexivity|]. apply flags_not_early in ND.
  set (fl := compute_flags r origin) in *.
  set (h1 := HState (h_cache h) (h_store h) (th_set (h_threads h) (-1) (PLock r fl))).
  assert (TG1 : th_get (h_threads h1) (-1) = Some (PLock r fl)) by apply th_get_set.
  assert (A : accepted (h_cache h1) r) by (unfold accepted; cbn [h1 h_cache]; rewrite PC; reflexivity).
  unfold fuel_of. rewrite TG1, finish_S, (step_put h1 _ _ _ TG1 ND A). cbn [h1 h_cache h_store h_threads].
  pose proof (displaced_len _ r I W) as OL. destruct (put_region (h_cache h) r) as [c' ov]. cbn [fst snd] in *.
  rewrite finish_parked, th_del_set, (th_del_none _ _ TG); [reflexivity|].
  pose proof (store_ops_len ov r fl). lia.
Qed.

(* what the storage holds or is about to write: the keys of the kv and of the write-back batch *)
Definition keys (l : kvmap) : list Z := map fst l.
Definition kc (l : kvmap) : Prop := forall k v, In (k, v) l -> k = r_id v.
Definition held (s : storage) (id : Z) : Prop := In id (keys (s_kv s)) \/ In id (keys (s_batch s)).
Definition store_ok (s : storage) : Prop :=
  (s_wb s = false -> s_batch s = []) /\ NoDup (keys (s_kv s)) /\ NoDup (keys (s_batch s)) /\ kc (s_batch s).
Definition store_sub (h : hstate) : Prop :=
  store_ok (h_store h) /\ forall id, held (h_store h) id -> get_region (h_cache h) id <> None.

Lemma keys_put l id r k : In k (keys (regs_put l id r)) <-> k = id \/ In k (keys l).
Proof.
  induction l as [|[k0 v0] l IH]; cbn; [intuition|].
  destruct (Z.eqb_spec k0 id) as [->|NE]; cbn; [|rewrite IH]; intuition.
Qed.

Lemma keys_del l id k : NoDup (keys l) -> (In k (keys (regs_del l id)) <-> k <> id /\ In k (keys l)).
Proof.
  induction l as [|[k0 v0] l IH]; cbn; intros N; [tauto|]. inversion N as [|? ? N1 N2]; subst.
  destruct (Z.eqb_spec k0 id) as [->|NE]; cbn; [|rewrite (IH N2)]; intuition congruence.
Qed.

Lemma kc_put l r : NoDup (keys l) -> kc l -> kc (kv_put l r).
Proof. intros N KC k v H. apply (regs_put_in _ _ _ _ _ N) in H as [[E1 E2]|[_ H]]; [subst; reflexivity|auto]. Qed.
Lemma kc_del l id : NoDup (keys l) -> kc l -> kc (kv_del l id).
Proof. intros N KC k v H. apply (regs_del_in _ _ _ _ N) in H as [_ H]. auto. Qed.

Lemma load_held s id x : load_region s id = Some x -> held s id.
Proof.
  unfold load_region. intros H. left. revert H.
  induction (s_kv s) as [|[k v] l IH]; cbn; [discriminate|]. destruct (Z.eqb_spec k id) as [->|NE]; auto.
Qed.

Lemma flush_keys batch : forall m, NoDup (keys m) -> kc batch ->
  let m' := fold_left (fun m kv => kv_put m (snd kv)) batch m in
  NoDup (keys m') /\ forall k, In k (keys m') -> In k (keys m) \/ In k (keys batch).
Proof.
  induction batch as [|[k0 v0] b IH]; intros m N KC; cbn.
  - auto.
  - assert (KC' : kc b) by (intros k v H; apply KC; right; exact H).
    assert (E0 : k0 = r_id v0) by (apply KC; left; reflexivity).
    destruct (IH (kv_put m v0) (regs_put_nodup _ _ _ N) KC') as [N' SUB]. split; [exact N'|].
    intros k H. apply SUB in H as [H|H]; [|right; right; exact H].
    unfold kv_put in H. apply keys_put in H as [H|H]; [right; left; cbn; congruence|left; exact H].
Qed.

Lemma flush_ok s : store_ok s -> store_ok (flush s) /\ forall id, held (flush s) id -> held s id.
Proof.
  intros (WB & N1 & N2 & KC). destruct (flush_keys (s_batch s) (s_kv s) N1 KC) as [N' SUB].
  split.
  - unfold flush, store_ok. cbn [s_wb s_kv s_batch]. split; [reflexivity|]. split; [exact N'|]. split; [constructor|].
    intros k v H; destruct H.
  - intros id [H|H]; [|destruct H]. unfold flush in H. cbn [s_kv] in H. apply SUB in H. exact H.
Qed.

Lemma delete_ok s r : store_ok s ->
  store_ok (delete_region s r) /\ forall id, held (delete_region s r) id <-> (held s id /\ id <> r_id r).
Proof.
  intros (WB & N1 & N2 & KC). unfold delete_region.
  (* without write-back the batch is empty, and deleting from it changes nothing *)
  replace (if s_wb s then kv_del (s_batch s) (r_id r) else s_batch s) with (kv_del (s_batch s) (r_id r))
    by (destruct (s_wb s); [reflexivity|rewrite (WB eq_refl); reflexivity]).
  unfold held, store_ok, kv_del. cbn [s_wb s_kv s_batch]. split.
  - split; [intros E; rewrite (WB E); reflexivity|]. split; [apply regs_del_nodup, N1|].
    split; [apply regs_del_nodup, N2|apply kc_del; auto].
  - intros id. rewrite (keys_del _ _ _ N1), (keys_del _ _ _ N2). tauto.
Qed.

Lemma save_ok s r : store_ok s ->
  store_ok (save_region s r) /\ forall id, held (save_region s r) id -> id = r_id r \/ held s id.
Proof.
  intros OK. pose proof OK as (WB & N1 & N2 & KC). unfold save_region.
  destruct (s_wb s) eqn:W.
  - set (s1 := Storage true (s_kv s) (kv_put (s_batch s) r) (s_count s)).
    assert (OK1 : forall c, store_ok (Storage true (s_kv s) (kv_put (s_batch s) r) c)).
    { intros c. split; [discriminate|]. split; [exact N1|]. split; [apply regs_put_nodup, N2|apply kc_put; auto]. }
    assert (H1 : forall c id, held (Storage true (s_kv s) (kv_put (s_batch s) r) c) id -> id = r_id r \/ held s id).
    { intros c id [H|H]; cbn [s_kv s_batch] in H; [right; left; exact H|].
      apply keys_put in H as [H|H]; [auto|right; right; exact H]. }
    destruct (s_count s <? batch_size - 1).
    + split; [apply OK1|apply H1].
    + destruct (flush_ok _ (OK1 (s_count s))) as [A B]. split; [exact A|]. intros id H. apply B in H. apply H1 in H. exact H.
  - split.
    + split; [intros _; apply WB; reflexivity|]. split; [apply regs_put_nodup, N1|]. split; [exact N2|exact KC].
    + intros id [H|H]; cbn [s_kv s_batch] in H; [|right; right; exact H].
      apply keys_put in H as [H|H]; [auto|right; left; exact H].
Qed.

Lemma fold_dels s ov : store_ok s ->
  let s' := fold_left apply_sop (map SDel ov) s in
  store_ok s' /\ forall id, held s' id <-> (held s id /\ ~ In id (map r_id ov)).
Proof.
  revert s. induction ov as [|o ov IH]; intros s OK; cbn.
  - split; [exact OK|]. intros id. tauto.
  - destruct (delete_ok s o OK) as (OK1 & H1).
    destruct (IH (delete_region s o) OK1) as (A & C). split; [exact A|].
    intros id. rewrite C, H1. split.
    + intros [[H NE] NI]. split; [exact H|]. intros [E|H']; [congruence|contradiction].
    + intros [H NI]. split; [split; [exact H|intros E; apply NI; left; congruence]|intros H'; apply NI; right; exact H'].
Qed.

Theorem storage_subset_seq_pf h r : Inv (h_cache h) -> wf_region r = true -> th_get (h_threads h) (-1) = None ->
  store_sub h -> store_sub (fst (heartbeat h r)).
Proof.
  intros I W TG (OK & SUB). rewrite (heartbeat_seq _ _ I W TG). unfold seq_result.
  destruct (precheck (h_cache h) r) as [origin err]. destruct err; [cbn; split; [exact OK|exact SUB]|].
  cbv zeta. set (fl := compute_flags r origin).
  destruct (idle fl); [cbn; split; [exact OK|exact SUB]|].
  destruct (Inv_put _ r I W) as (I' & ET & EO).
  destruct (put_region (h_cache h) r) as [c' ov] eqn:SR. cbn [fst snd] in *.
  unfold store_ops. rewrite fold_left_app.
  destruct (fold_dels (h_store h) ov OK) as (A & C).
  set (s1 := fold_left apply_sop (map SDel ov) (h_store h)) in *.
  assert (KEEP : forall id, held s1 id -> get_region c' id <> None).
  { intros id L. apply C in L as [L NI]. rewrite EO in NI. change c' with (fst (c', ov)). rewrite <- SR.
    apply served_after_put; auto. }
  destruct (f_kv fl); cbn [fold_left h_cache h_store].
  - unfold apply_sop. destruct (save_ok s1 r A) as [A' B']. split; [exact A'|].
    intros id L. apply B' in L as [->|L]; [|apply KEEP, L].
    change c' with (fst (c', ov)). rewrite <- SR. apply served_put_self; assumption.
  - split; [exact A|exact KEEP].
Qed.

Theorem displaced_gone_from_storage_seq_pf h r x :
  Inv (h_cache h) -> wf_region r = true -> th_get (h_threads h) (-1) = None -> store_sub h ->
  get_region (h_cache (fst (heartbeat h r))) (r_id x) = None ->
  load_region (h_store (fst (heartbeat h r))) (r_id x) = None /\ ~ held (h_store (fst (heartbeat h r))) (r_id x).
Proof.
  intros I W TG SS GN. destruct (storage_subset_seq_pf h r I W TG SS) as (_ & SUB).
  assert (NH : ~ held (h_store (fst (heartbeat h r))) (r_id x)) by (intros H; exact (SUB _ H GN)).
  split; [|exact NH].
  destruct (load_region _ (r_id x)) as [y|] eqn:L; [|reflexivity]. exfalso. apply NH. eapply load_held; eauto.
Qed.

Definition seq_op (o : hop) : Prop :=
  match o with OHb r => wf_region r = true | OFlush => True | _ => False end.
Definition seq_ops (wb : bool) (ops : list hop) : hstate :=
  fold_left (fun h o => fst (h_step h o)) ops (h_init wb).
Definition seq_run (wb : bool) (rs : list region) : hstate :=
  fold_left (fun h r => fst (heartbeat h r)) rs (h_init wb).

Lemma hb_step_fst h r : fst (h_step h (OHb r)) = fst (heartbeat h r).
Proof. cbn. destruct (heartbeat h r). reflexivity. Qed.

Definition seq_inv (h : hstate) : Prop := Inv (h_cache h) /\ h_threads h = [] /\ store_sub h.

Lemma seq_inv_step h o : seq_op o -> seq_inv h -> seq_inv (fst (h_step h o)).
Proof.
  intros W (I & T & SS). destruct o as [r| | | | | | | |]; cbn in W; try contradiction.
  - assert (TG : th_get (h_threads h) (-1) = None) by (rewrite T; reflexivity).
    rewrite hb_step_fst. split; [|split; [|apply storage_subset_seq_pf; auto]]; rewrite (heartbeat_seq _ _ I W TG);
      unfold seq_result; destruct (precheck (h_cache h) r) as [origin err]; destruct err; auto;
      cbv zeta; destruct (idle _); auto.
    + destruct (Inv_put _ r I W) as (I' & _ & _). destruct (put_region (h_cache h) r). exact I'.
    + destruct (put_region (h_cache h) r). exact T.
  - destruct SS as [OK SUB]. destruct (flush_ok _ OK) as [A B].
    split; [exact I|]. split; [exact T|]. split; [exact A|]. intros id H. apply SUB, B, H.
Qed.

Theorem storage_subset_ops_pf wb ops : Forall seq_op ops -> seq_inv (seq_ops wb ops).
Proof.
  intros F. unfold seq_ops. assert (I0 : seq_inv (h_init wb)).
  { split; [apply Inv_empty|]. split; [reflexivity|]. split; [|intros id [[]|[]]].
    cbn. split; [reflexivity|]. split; [constructor|]. split; [constructor|]. intros k v H; destruct H. }
  revert I0. generalize (h_init wb). induction F as [|o ops W F IH]; intros h I0; cbn [fold_left]; [exact I0|].
  apply IH, seq_inv_step; assumption.
Qed.

Lemma seq_run_ops wb rs : seq_run wb rs = seq_ops wb (map OHb rs).
Proof.
  unfold seq_run, seq_ops. generalize (h_init wb). induction rs as [|r rs IH]; intros h; cbn [map fold_left]; [reflexivity|].
  rewrite hb_step_fst. apply IH.
Qed.

Theorem storage_subset_run_pf wb rs : Forall (fun r => wf_region r = true) rs ->
  let h := seq_run wb rs in
  Inv (h_cache h) /\ h_threads h = [] /\ store_sub h.
Proof.
  intros F. cbv zeta. rewrite seq_run_ops. apply storage_subset_ops_pf, Forall_map, F.
Qed.

(* heartbeats one at a time on either backend, then a flush: storage holds served regions only (DeleteRegion also
   drops the pending entry of the write-back batch, /repo 8a5de01) *)
Definition storage_subset_full : Prop :=
  forall wb rs, Forall (fun r => wf_region r = true) rs ->
  let h := fold_left (fun h o => fst (h_step h o)) (map OHb rs ++ [OFlush]) (h_init wb) in
  forall id x, load_region (h_store h) id = Some x -> get_region (h_cache h) id <> None.

Theorem storage_subset_full_pf : storage_subset_full.
Proof.
  intros wb rs F. cbv zeta. intros id x L.
  assert (FO : Forall seq_op (map OHb rs ++ [OFlush])).
  { apply Forall_app. split; [apply Forall_map, F|repeat constructor]. }
  destruct (storage_subset_ops_pf wb _ FO) as (_ & _ & (_ & SUB)). apply SUB. eapply load_held; eauto.
Qed.

(* region 1 saved to the batch, displaced by region 2, flush: only region 2 is in storage *)
Definition witness_writeback : list region :=
  [Region 1 (K [97]) (K [99]) [Peer 11 1 false; Peer 12 2 false] 11 [] 10 1 1 1 1;
   Region 2 (K [97]) (K [99]) [Peer 21 1 false; Peer 22 2 false] 21 [] 10 2 1 1 2].

Example witness_writeback_behaves :
  let h := fold_left (fun h o => fst (h_step h o)) (map OHb witness_writeback ++ [OFlush]) (h_init true) in
  load_region (h_store h) 1 = None /\ map fst (s_kv (h_store h)) = [2] /\ map r_id (cached (h_cache h)) = [2].
Proof. vm_compute. auto. Qed.
