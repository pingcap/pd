(* C16 — the sync stream: what the follower decodes from the leader's messages, and what its region
   cache holds afterwards. *)
From Coq Require Import String.
From PDV Require Import lib.Base lib.C07_List gen.Gen_C16 model.C16_Syncer proof.C16_BufferProof.
Local Open Scope Z_scope.
Local Open Scope list_scope.

(* the follower cannot tell "no leader" from a leader peer with id 0 *)
Definition norm (r : rinfo) : rinfo := RI (meta r) (norm_leader r) (stat r).
Definition leaders_valid (rs : list rinfo) : Prop :=
  forall r p, In r rs -> leader r = Some p -> p_id p <> 0.

Lemma norm_valid r : (forall p, leader r = Some p -> p_id p <> 0) -> norm r = r.
Proof.
  intros H. destruct r as [m l s]. unfold norm, norm_leader; cbn in *. f_equal.
  destruct l as [p|]; [|reflexivity]. specialize (H p eq_refl).
  destruct (Z.eqb_spec (p_id p) 0); [contradiction|reflexivity].
Qed.

Lemma map_norm_valid rs : leaders_valid rs -> map norm rs = rs.
Proof.
  induction rs as [|r rs IH]; intros H; cbn [map]; [reflexivity|]. f_equal.
  - apply norm_valid. intros p Hp. apply (H r p); [left; reflexivity|exact Hp].
  - apply IH. intros r' p Hin. apply H. right. exact Hin.
Qed.

Definition aligned_msg (start : Z) (acc : list rinfo) : msg :=
  Msg start (map meta acc) (map stat acc) (map leader_or_zero acc).

Lemma decode_at_aligned start pre x post :
  decode_at (aligned_msg start (pre ++ x :: post)) (length pre) (meta x) = norm x.
Proof.
  unfold decode_at, aligned_msg; cbn [g_leaders g_stats g_regions].
  rewrite !map_length, Nat.eqb_refl.
  rewrite !map_app; cbn [map].
  rewrite nth_error_app2 by (rewrite map_length; lia).
  rewrite map_length, Nat.sub_diag; cbn [nth_error].
  rewrite app_nth2 by (rewrite map_length; lia).
  rewrite map_length, Nat.sub_diag; cbn [nth].
  unfold norm, norm_leader, leader_or_zero. f_equal.
  destruct (leader x); reflexivity.
Qed.

Lemma decode_from_aligned start : forall post pre,
  decode_from (aligned_msg start (pre ++ post)) (length pre) (map meta post) = map norm post.
Proof.
  induction post as [|x post IH]; intros pre; cbn [map decode_from]; [reflexivity|].
  rewrite decode_at_aligned. f_equal.
  specialize (IH (pre ++ [x])). rewrite <- app_assoc in IH. cbn [app] in IH.
  rewrite app_length in IH. cbn [length] in IH. rewrite Nat.add_1_r in IH. exact IH.
Qed.

Lemma decode_aligned start acc : decode (aligned_msg start acc) = map norm acc.
Proof. exact (decode_from_aligned start acc []). Qed.

Definition decode_all (ms : list msg) : list rinfo := concat (map decode ms).

Definition all_truncated (trunc : list string) : Prop :=
  mem_str "Regions" trunc = true /\ mem_str "RegionStats" trunc = true /\ mem_str "RegionLeaders" trunc = true.

Lemma is_nil_false {X} (l : list X) : l <> [] -> (match l with [] => true | _ => false end) = false.
Proof. destruct l; [congruence|reflexivity]. Qed.

(* every accumulator reset after a send: the batches decode to the leader's regions, whatever the
   number of regions and the batch size *)
Lemma fs_loop_all_truncated trunc batch : all_truncated trunc ->
  forall rs acc last, (rs <> [] \/ acc = []) ->
    decode_all (fs_loop trunc batch rs (map meta acc) (map stat acc) (map leader_or_zero acc) last) = map norm (acc ++ rs).
Proof.
  intros (Hm & Hs & Hl). induction rs as [|r rest IH]; intros acc last Hne.
  - destruct Hne as [Hne| ->]; [congruence|]. reflexivity.
  - cbn [fs_loop]. rewrite <- !map_last.
    destruct ((Z.of_nat (length (map meta (acc ++ [r]))) <? batch) &&
              negb (match rest with [] => true | _ => false end)) eqn:E.
    + apply andb_true_iff in E as [_ E]. apply negb_true_iff in E.
      rewrite IH, <- app_assoc; [reflexivity|]. left. intros ->. discriminate.
    + unfold keep. rewrite Hm, Hs, Hl. fold (aligned_msg last (acc ++ [r])).
      unfold decode_all in *. cbn [map concat]. rewrite decode_aligned, (IH [] _), <- map_app, <- app_assoc; [reflexivity|].
      destruct rest; [right; reflexivity|left; discriminate].
Qed.

Theorem full_sync_decodes_all_truncated trunc batch rs : all_truncated trunc ->
  decode_all (full_sync trunc batch rs) = map norm rs.
Proof.
  intros H. apply (fs_loop_all_truncated trunc batch H rs [] 0). destruct rs; [right; reflexivity|left; discriminate].
Qed.

(* the code as it is truncates all three accumulators (regenerated list) *)
Lemma code_all_truncated : all_truncated Gen_C16.full_sync_truncated.
Proof. repeat split. Qed.

Lemma full_sync_impl_decodes rs : leaders_valid rs -> decode_all (full_sync_impl rs) = rs.
Proof.
  intros Hv. unfold full_sync_impl. rewrite full_sync_decodes_all_truncated by exact code_all_truncated.
  apply map_norm_valid, Hv.
Qed.

Lemma run_server_decodes : forall fuel next pending, (length pending <= fuel)%nat ->
  decode_all (run_server_batches fuel next pending) = map norm pending.
Proof.
  induction fuel as [|fuel IH]; intros next pending Hf.
  - destruct pending; [reflexivity|cbn in Hf; lia].
  - destruct pending as [|first rest]; [reflexivity|].
    cbn [run_server_batches].
    set (k := Z.to_nat (Z.min (Z.of_nat (length rest)) maxSyncRegionBatchSize)).
    change (Msg next _ _ _) with (aligned_msg next (first :: firstn k rest)).
    unfold decode_all in *. cbn [map concat]. rewrite decode_aligned.
    rewrite IH.
    + rewrite <- map_app. cbn [app]. rewrite firstn_skipn. reflexivity.
    + rewrite skipn_length. cbn [length] in Hf. lia.
Qed.

(* a step whose effect on the cache is a replay of what it decodes: so is a run of such steps *)
Lemma cache_fold {M} (step : fstate -> M -> fstate) (dec : M -> list rinfo) :
  (forall f m, f_cache (step f m) = fold_left check_and_put (dec m) (f_cache f)) ->
  forall ms f, f_cache (fold_left step ms f) = fold_left check_and_put (concat (map dec ms)) (f_cache f).
Proof.
  intros H ms. induction ms as [|m ms IH]; intros f; cbn [fold_left map concat]; [reflexivity|].
  rewrite IH, H, fold_left_app. reflexivity.
Qed.

Lemma with_oks_fst rs : forall oks, map fst (with_oks rs oks) = rs.
Proof. induction rs as [|r rs IH]; intros oks; cbn [with_oks map fst]; [reflexivity|]. rewrite IH. reflexivity. Qed.

Lemma apply_msg_ok_nil f m : apply_msg f m = apply_msg_ok f m [].
Proof.
  unfold apply_msg, apply_msg_ok. generalize (decode m) as rs.
  generalize (if next_index (buf (f_hist f)) =? g_start m then f
              else FS (f_cache f) (f_saved f) (reset_with_index (f_hist f) (g_start m) true)) as f1.
  intros f1 rs. revert f1. induction rs as [|r rs IH]; intros f1; cbn [with_oks fold_left]; [reflexivity|apply IH].
Qed.

Lemma cache_apply_msg_ok f m oks : f_cache (apply_msg_ok f m oks) = fold_left check_and_put (decode m) (f_cache f).
Proof.
  unfold apply_msg_ok. rewrite <- (with_oks_fst (decode m) oks) at 2.
  generalize (with_oks (decode m) oks) as ros.
  assert (G : forall ros f1, f_cache (fold_left apply_region_ok ros f1) = fold_left check_and_put (map fst ros) (f_cache f1)).
  { induction ros as [|[r ok] ros IH]; intros f1; cbn [fold_left map fst]; [reflexivity|].
    rewrite IH. destruct ok; reflexivity. }
  intros ros. rewrite G. destruct (next_index (buf (f_hist f)) =? g_start m); reflexivity.
Qed.

Lemma cache_apply_msg f m : f_cache (apply_msg f m) = fold_left check_and_put (decode m) (f_cache f).
Proof. rewrite apply_msg_ok_nil. apply cache_apply_msg_ok. Qed.

Lemma cache_apply_msgs ms f :
  f_cache (fold_left apply_msg ms f) = fold_left check_and_put (decode_all ms) (f_cache f).
Proof. apply (cache_fold apply_msg decode cache_apply_msg). Qed.

Lemma cache_run_msgs_ok (oks : msg -> list bool) ms f :
  f_cache (fold_left (fun f m => apply_msg_ok f m (oks m)) ms f) = fold_left check_and_put (decode_all ms) (f_cache f).
Proof. apply (cache_fold (fun f m => apply_msg_ok f m (oks m)) decode). intros. apply cache_apply_msg_ok. Qed.

Definition delivered (s : session) : list rinfo := decode_all (firstn (s_delivered s) (s_msgs s)).

Lemma index_record {A} (s : bstate A) r ok : index (buf (record s r ok)) = index (buf s) + 1.
Proof. unfold record. destruct (flushc (buf s) - 1 <=? 0); reflexivity. Qed.

Lemma index_apply_regions_ok ros : forall f,
  index (buf (f_hist (fold_left apply_region_ok ros f))) =
  index (buf (f_hist f)) + Z.of_nat (length (filter snd ros)).
Proof.
  induction ros as [|[r ok] ros IH]; intros f; cbn [fold_left filter snd length]; [lia|].
  rewrite IH. destruct ok; cbn [apply_region_ok filter snd length f_hist].
  - unfold apply_region; cbn [f_hist]. rewrite index_record. lia.
  - reflexivity.
Qed.

Theorem follower_index_after_msg_ok_pf f m oks :
  next_index (buf (f_hist (apply_msg_ok f m oks))) =
  g_start m + Z.of_nat (length (filter snd (with_oks (decode m) oks))).
Proof.
  unfold apply_msg_ok, next_index.
  destruct (Z.eqb_spec (index (buf (f_hist f))) (g_start m)) as [E|_]; rewrite index_apply_regions_ok; [rewrite E|]; reflexivity.
Qed.

Lemma decode_from_length m : forall rs i, length (decode_from m i rs) = length rs.
Proof. induction rs as [|r rs IH]; intros i; cbn; [reflexivity|]. rewrite IH. reflexivity. Qed.

Definition rid (r : rinfo) : Z := m_id (meta r).

(* a valid region set, as GetRegions() of a BasicCluster returns it: distinct ids, disjoint ranges *)
Fixpoint region_set (rs : list rinfo) : Prop :=
  match rs with
  | [] => True
  | r :: rest => (forall o, In o rest -> m_id (meta o) <> m_id (meta r) /\ intersects (meta r) (meta o) = false) /\
                 region_set rest
  end.

Lemma intersects_sym a b : intersects a b = intersects b a.
Proof. unfold intersects. apply andb_comm. Qed.

(* the same, symmetrically *)
Definition rset (l : list rinfo) : Prop :=
  NoDup (map rid l) /\
  forall a b, In a l -> In b l -> rid a <> rid b -> intersects (meta a) (meta b) = false.

Lemma region_set_rset : forall l, region_set l -> rset l.
Proof.
  induction l as [|r l IH]; intros H; [split; [constructor|intros a b []]|].
  destruct H as [Hr Hl]. destruct (IH Hl) as [N P]. split.
  - cbn [map]. constructor; [|exact N]. intros Hin. apply in_map_iff in Hin as (o & E & Ho).
    destruct (Hr o Ho) as [Hne _]. unfold rid in E. congruence.
  - intros a b [<-|Ha] [<-|Hb] Hne.
    + congruence.
    + exact (proj2 (Hr b Hb)).
    + rewrite intersects_sym. exact (proj2 (Hr a Ha)).
    + apply P; assumption.
Qed.

Lemma rset_rev l : rset l -> rset (rev l).
Proof.
  intros [N P]. split; [rewrite map_rev; apply NoDup_rev, N|].
  intros a b Ha Hb. apply P; apply in_rev; assumption.
Qed.

Lemma find_id_unique l r : NoDup (map rid l) -> In r l -> find_id l (rid r) = Some r.
Proof.
  intros N Hr. unfold find_id. destruct (find _ l) as [x|] eqn:E.
  - apply find_some in E as [Hx E]. apply Z.eqb_eq in E. f_equal. apply (NoDup_map_eq rid l); assumption.
  - apply (find_none _ _ E) in Hr. apply Z.eqb_neq in Hr. contradiction.
Qed.

Lemma find_id_none c id : (forall x, In x c -> rid x <> id) -> find_id c id = None.
Proof.
  intros H. unfold find_id. destruct (find _ c) as [x|] eqn:E; [|reflexivity].
  apply find_some in E as [Hx E]. apply Z.eqb_eq in E. exfalso. exact (H x Hx E).
Qed.

Lemma find_id_app l1 l2 id : find_id (l1 ++ l2) id = match find_id l1 id with Some x => Some x | None => find_id l2 id end.
Proof.
  unfold find_id. induction l1 as [|x l1 IH]; cbn [app find]; [reflexivity|].
  destruct (m_id (meta x) =? id); [reflexivity|exact IH].
Qed.

Lemma intersects_same_range a a' b : same_range a a' = true -> intersects a b = intersects a' b.
Proof.
  unfold same_range, intersects. intros H. apply andb_true_iff in H as [H1 H2].
  apply Z.eqb_eq in H1. apply Z.eqb_eq in H2. rewrite H1, H2. reflexivity.
Qed.

(* CheckAndPutRegion of a region that meets nothing in the cache but older versions of itself: it is accepted and
   replaces them *)
Lemma check_and_put_fresh c r :
  (forall x, In x c -> rid x <> rid r -> intersects (meta x) (meta r) = false) ->
  (forall x, In x c -> rid x = rid r -> same_range (meta x) (meta r) = true /\
     m_version (meta x) <= m_version (meta r) /\ m_confver (meta x) <= m_confver (meta r)) ->
  check_and_put c r = r :: filter (fun x => negb (rid x =? rid r)) c.
Proof.
  intros Hdis Hsame.
  assert (Hacc : accepts c r = true).
  { unfold accepts. destruct (find_id c (m_id (meta r))) as [o|] eqn:Ef.
    - apply find_some in Ef as [Ho Eo]. apply Z.eqb_eq in Eo.
      destruct (Hsame o Ho Eo) as (-> & Hv & Hc). cbn [existsb].
      destruct (Z.ltb_spec (m_version (meta r)) (m_version (meta o))); [lia|].
      destruct (Z.ltb_spec (m_confver (meta r)) (m_confver (meta o))); [lia|reflexivity].
    - rewrite filter_false_nil; [reflexivity|]. intros x Hx. apply Hdis; [exact Hx|].
      apply (find_none _ _ Ef) in Hx. apply Z.eqb_neq in Hx. exact Hx. }
  unfold check_and_put. rewrite Hacc. unfold put. f_equal. apply filter_ext_in. intros x Hx. fold (rid x) (rid r).
  destruct (Z.eqb_spec (rid x) (rid r)) as [E|E]; [reflexivity|]. rewrite (Hdis x Hx E). reflexivity.
Qed.

(* every old entry is an older version (same id, same range, epochs not larger) of a region the leader holds *)
Definition older_versions (old regions : list rinfo) : Prop :=
  forall o, In o old -> exists r, In r regions /\ rid o = rid r /\ same_range (meta o) (meta r) = true /\
                                  m_version (meta o) <= m_version (meta r) /\ m_confver (meta o) <= m_confver (meta r).

Definition not_in (done : list rinfo) (o : rinfo) : bool := negb (existsb (fun d => rid d =? rid o) done).

Lemma not_in_snoc done r o : not_in (done ++ [r]) o = not_in done o && negb (rid o =? rid r).
Proof. unfold not_in. rewrite existsb_app. cbn [existsb]. rewrite orb_false_r, negb_orb, (Z.eqb_sym (rid r)). reflexivity. Qed.

Lemma replay_step regions old done r rest :
  regions = done ++ r :: rest -> rset regions -> older_versions old regions ->
  check_and_put (rev done ++ filter (not_in done) old) r = rev (done ++ [r]) ++ filter (not_in (done ++ [r])) old.
Proof.
  intros -> [N P] Holder.
  assert (Hr : In r (done ++ r :: rest)) by (apply in_or_app; right; left; reflexivity).
  assert (Hd : forall x, In x done -> In x (done ++ r :: rest) /\ rid x <> rid r).
  { intros x Hx. split; [apply in_or_app; left; exact Hx|]. intros E.
    rewrite map_app in N. cbn [map] in N. apply NoDup_remove_2 in N. apply N, in_or_app. left. rewrite <- E. apply in_map, Hx. }
  rewrite check_and_put_fresh.
  - rewrite rev_app_distr, filter_app, filter_filter. cbn [rev app]. f_equal. f_equal.
    + apply filter_true_id. intros x Hx. apply in_rev in Hx. apply negb_true_iff, Z.eqb_neq, (Hd x Hx).
    + apply filter_ext. intros o. symmetry. apply not_in_snoc.
  - intros x Hx Hne. apply in_app_or in Hx as [Hx|Hx].
    + apply in_rev in Hx. apply P; [apply (Hd x Hx)|exact Hr|exact Hne].
    + apply filter_In in Hx as [Hx _]. destruct (Holder x Hx) as (r' & Hr' & Eid & Hsr & _).
      rewrite (intersects_same_range _ _ _ Hsr). apply P; [exact Hr'|exact Hr|congruence].
  - intros x Hx E. apply in_app_or in Hx as [Hx|Hx].
    + apply in_rev in Hx. destruct (Hd x Hx) as [_ Hne]. contradiction.
    + apply filter_In in Hx as [Hx _]. destruct (Holder x Hx) as (r' & Hr' & Eid & Hv).
      rewrite (NoDup_map_eq rid _ r' r N Hr' Hr) in Hv by congruence. exact Hv.
Qed.

Theorem replay_region_set regions old : rset regions -> older_versions old regions ->
  fold_left check_and_put regions old = rev regions ++ filter (not_in regions) old.
Proof.
  intros Hrs Holder.
  assert (G : forall rest done, regions = done ++ rest ->
            fold_left check_and_put rest (rev done ++ filter (not_in done) old) = rev regions ++ filter (not_in regions) old).
  { induction rest as [|r rest IH]; intros done E; cbn [fold_left].
    - rewrite app_nil_r in E. subst done. reflexivity.
    - rewrite (replay_step regions old done r rest E Hrs Holder). apply IH. rewrite <- app_assoc. exact E. }
  rewrite <- (G regions [] eq_refl). cbn [rev app]. rewrite filter_true_id; reflexivity.
Qed.

Corollary replay_holds regions old r : region_set regions -> older_versions old regions -> In r regions ->
  find_id (fold_left check_and_put regions old) (m_id (meta r)) = Some r.
Proof.
  intros Hs Holder Hin. apply region_set_rset in Hs. rewrite replay_region_set, find_id_app by assumption.
  fold (rid r). rewrite (find_id_unique (rev regions) r); [reflexivity|apply (rset_rev _ Hs)|apply in_rev; rewrite rev_involutive; exact Hin].
Qed.

Corollary replay_empty regions : region_set regions -> fold_left check_and_put regions [] = rev regions.
Proof.
  intros Hs. rewrite replay_region_set; [apply app_nil_r|apply region_set_rset, Hs|intros o []].
Qed.

Theorem follower_holds_decoded cap kv ms rs :
  decode_all ms = rs -> region_set rs ->
  let f := fold_left apply_msg ms (finit cap kv) in
  f_cache f = rev rs /\ forall r, In r rs -> find_id (f_cache f) (m_id (meta r)) = Some r.
Proof.
  intros Hd Hs f. unfold f. rewrite cache_apply_msgs, Hd. cbn [finit f_cache]. split; [apply replay_empty, Hs|].
  intros r. apply replay_holds; [exact Hs|intros o []].
Qed.

Theorem follower_equals_leader_if_all_truncated_pf trunc batch cap kv regions :
  all_truncated trunc -> region_set regions -> leaders_valid regions ->
  let f := fold_left apply_msg (full_sync trunc batch regions) (finit cap kv) in
  forall r, In r regions -> find_id (f_cache f) (m_id (meta r)) = Some r.
Proof.
  intros Ht Hs Hv f. apply follower_holds_decoded; [|exact Hs].
  rewrite full_sync_decodes_all_truncated by exact Ht. apply map_norm_valid. exact Hv.
Qed.

Theorem follower_equals_leader_for_sent_pf cap kv regions :
  region_set regions -> leaders_valid regions ->
  let f := fold_left apply_msg (full_sync_impl regions) (finit cap kv) in
  forall r, In r regions -> find_id (f_cache f) (m_id (meta r)) = Some r.
Proof. exact (follower_equals_leader_if_all_truncated_pf _ _ cap kv regions code_all_truncated). Qed.

Theorem follower_equals_leader_one_batch_pf cap kv regions :
  region_set regions -> leaders_valid regions ->
  Z.of_nat (length regions) <= Gen_C16.maxSyncRegionBatchSize ->
  let f := fold_left apply_msg (full_sync_impl regions) (finit cap kv) in
  forall r, In r regions -> find_id (f_cache f) (m_id (meta r)) = Some r.
Proof. intros Hs Hv _. apply follower_equals_leader_for_sent_pf; assumption. Qed.

Theorem full_sync_over_stale_cache_pf trunc batch cap kv regions old :
  all_truncated trunc -> region_set regions -> leaders_valid regions -> older_versions old regions ->
  let f0 := finit cap kv in
  let f := fold_left apply_msg (full_sync trunc batch regions) (FS old (f_saved f0) (f_hist f0)) in
  forall r, In r regions -> find_id (f_cache f) (m_id (meta r)) = Some r.
Proof.
  intros Ht Hrs Hv Holder f0 f r. unfold f. rewrite cache_apply_msgs. cbn [f_cache].
  rewrite full_sync_decodes_all_truncated, map_norm_valid by assumption. apply replay_holds; assumption.
Qed.

Theorem incremental_sync_replays_pf start records f : leaders_valid records ->
  f_cache (apply_msg f (incr_msg start records)) = fold_left check_and_put records (f_cache f).
Proof. intros Hv. rewrite cache_apply_msg. unfold incr_msg. fold (aligned_msg start records). rewrite decode_aligned, map_norm_valid by exact Hv. reflexivity. Qed.

Lemma somes_map_Some {X} (l : list X) : somes (map Some l) = l.
Proof. induction l as [|x l IH]; cbn; [reflexivity|]. rewrite IH. reflexivity. Qed.

(* which branch syncHistoryRegion takes, in terms of the log specification of the leader's buffer *)
Theorem sync_history_incremental_pf cap ops regions start :
  let s := run_state brun_op (binit cap) ops in
  let a := run_state (@arun_op rinfo) (ainit cap) ops in
  a_first a <= start < a_next a ->
  sync_history (buf s) regions start =
  (KIncr, [incr_msg start (skipn (Z.to_nat (start - a_base a)) (a_log a))]).
Proof.
  intros s a Hw. destruct (records_from_exact_pf cap ops start) as (Hn & Hf & Hin & _).
  fold s a in Hn, Hf, Hin. unfold sync_history. rewrite (Hin Hw).
  assert (Hlen : (Z.to_nat (start - a_base a) < length (a_log a))%nat).
  { unfold a_first, a_next in Hw. lia. }
  destruct (skipn (Z.to_nat (start - a_base a)) (a_log a)) as [|x l] eqn:E.
  - apply (f_equal (@length _)) in E. rewrite skipn_length in E. cbn in E. lia.
  - cbn [map]. rewrite <- (somes_map_Some (x :: l)) at 1. reflexivity.
Qed.

Theorem sync_history_full_pf cap ops regions :
  let s := run_state brun_op (binit cap) ops in
  let a := run_state (@arun_op rinfo) (ainit cap) ops in
  0 < a_first a ->
  sync_history (buf s) regions 0 = (KFull, full_sync_impl regions).
Proof.
  intros s a Hw. destruct (records_from_exact_pf cap ops 0) as (Hn & Hf & _ & Hout).
  fold s a in Hn, Hf, Hout. unfold sync_history. rewrite Hout by lia.
  rewrite Hn. replace (a_next a =? 0) with false; [reflexivity|].
  pose proof (ring_cap _ _ _ (proj1 (proj2 (sim_run ops _ _ (rel_init cap))))) as Hc. fold a in Hc.
  symmetry. apply Z.eqb_neq. unfold a_first, a_next in *. lia.
Qed.

Lemma decode_all_app a b : decode_all (a ++ b) = decode_all a ++ decode_all b.
Proof. unfold decode_all. rewrite map_app, concat_app. reflexivity. Qed.

Lemma delivered_is_prefix ms k : exists j, decode_all (firstn k ms) = firstn j (decode_all ms).
Proof.
  exists (length (decode_all (firstn k ms))). rewrite <- (firstn_skipn k ms) at 3. rewrite decode_all_app.
  rewrite firstn_app, Nat.sub_diag, firstn_all. cbn [firstn]. rewrite app_nil_r. reflexivity.
Qed.

Lemma in_firstn {X} : forall n (l : list X) x, In x (firstn n l) -> In x l.
Proof.
  induction n as [|n IH]; intros [|y l] x H; cbn [firstn] in H; try contradiction.
  destruct H as [->|H]; [left; reflexivity|right; apply IH; exact H].
Qed.

Lemma region_set_firstn j : forall rs, region_set rs -> region_set (firstn j rs).
Proof.
  induction j as [|j IH]; intros [|r rs] H; cbn [firstn region_set]; auto.
  destruct H as [H1 H2]. split; [|apply IH; exact H2].
  intros o Ho. apply H1. apply (in_firstn j). exact Ho.
Qed.

Theorem cut_full_sync_pf cap kv regions k fails :
  region_set regions -> leaders_valid regions ->
  let f := run_session (finit cap kv) (Sess (full_sync_impl regions) k fails) in
  exists j, f_cache f = rev (firstn j regions) /\
            forall r, In r (firstn j regions) -> find_id (f_cache f) (m_id (meta r)) = Some r.
Proof.
  intros Hs Hv f. unfold f, run_session. cbn [s_delivered s_msgs s_fails].
  rewrite cache_run_msgs_ok. cbn [finit f_cache].
  destruct (delivered_is_prefix (full_sync_impl regions) k) as [j ->]. rewrite (full_sync_impl_decodes _ Hv).
  exists j. pose proof (region_set_firstn j regions Hs) as Hsj. split; [apply replay_empty, Hsj|].
  intros r. apply replay_holds; [exact Hsj|intros o []].
Qed.

Lemma older_versions_prefix j regions : older_versions (rev (firstn j regions)) regions.
Proof.
  intros o Ho. apply in_rev in Ho. exists o. split; [apply (in_firstn j); exact Ho|].
  split; [reflexivity|]. split; [|lia]. unfold same_range. rewrite !Z.eqb_refl. reflexivity.
Qed.

Theorem reconnect_full_sync_converges_pf cap kv regions k fails fails2 :
  region_set regions -> leaders_valid regions ->
  let f1 := run_session (finit cap kv) (Sess (full_sync_impl regions) k fails) in
  let ms := full_sync_impl regions in
  let f2 := run_session f1 (Sess ms (length ms) fails2) in
  forall r, In r regions -> find_id (f_cache f2) (m_id (meta r)) = Some r.
Proof.
  intros Hs Hv f1 ms f2 r.
  destruct (cut_full_sync_pf cap kv regions k fails Hs Hv) as (j & Hc & _). fold f1 in Hc.
  unfold f2, run_session. cbn [s_delivered s_msgs s_fails]. rewrite firstn_all, cache_run_msgs_ok, Hc.
  unfold ms. rewrite (full_sync_impl_decodes _ Hv). apply replay_holds; [exact Hs|apply older_versions_prefix].
Qed.

(* a set of two batches (the S7 scenario) *)
Definition mk_region (i : Z) : rinfo :=
  RI (Meta i i (i + 1) 1 1 [Peer (1000 + i) 1 false; Peer (2000 + i) 2 false])
     (Some (Peer (1000 + i) 1 false)) (Stat i 0 0 0).
Definition witness_regions : list rinfo := map (fun n => mk_region (Z.of_nat n)) (seq 1 101).

Lemma witness_region_set : region_set witness_regions.
Proof.
  assert (G : forall n k, region_set (map (fun n => mk_region (Z.of_nat n)) (seq k n))).
  { induction n as [|n IH]; intros k; cbn [seq map region_set]; [exact I|]. split; [|apply IH].
    intros o Ho. apply in_map_iff in Ho as (j & <- & Hj). apply in_seq in Hj.
    unfold mk_region, intersects; cbn. split; lia. }
  apply G.
Qed.

Lemma witness_leaders_valid : leaders_valid witness_regions.
Proof.
  intros r p Hin Hl. apply in_map_iff in Hin as (j & Hr & Hj). apply in_seq in Hj. subst r.
  unfold mk_region in Hl; cbn [leader] in Hl.
  replace p with (Peer (1000 + Z.of_nat j) 1 false) by congruence. cbn [p_id]. lia.
Qed.

(* region 101, in the second batch, keeps its own leader *)
Lemma witness_aligned :
  let f := fold_left apply_msg (full_sync_impl witness_regions) (finit 10000 None) in
  option_map leader (find_id (f_cache f) 101) = Some (Some (Peer 1101 1 false)).
Proof. vm_compute. reflexivity. Qed.
