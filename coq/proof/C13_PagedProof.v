(* C13 — the paged prefix scan returns every key of the range exactly once, for every ascending key
   list and every page size >= 1.  The step that carries the proof is `next_key_succ`: last ++ [0] is the
   immediate successor of `last` in the byte-string order — what Gen_C13.load_next_key must say. *)
From Coq Require Import Sorting.Sorted.
From PDV Require Import lib.Base lib.C07_List lib.C12_Order lib.C13_Map gen.Gen_C13 model.C13_Rules model.C13_Paged proof.C13_RulesProof.
Local Open Scope list_scope.

(* k < last ++ [0]  <->  k <= last *)
Lemma next_key_succ l : forall k, key_ltb k (next_key l) = negb (key_ltb l k).
Proof.
  unfold next_key, key_ltb, key_cmp.
  induction l as [|a l IH]; intros [|b t]; cbn.
  - reflexivity.
  - destruct (N.compare_spec b 0) as [E|E|E]; cbn.
    + subst. destruct t; reflexivity.
    + lia.
    + reflexivity.
  - reflexivity.
  - rewrite (N.compare_antisym b a). destruct (N.compare b a); cbn; [apply IH|reflexivity|reflexivity].
Qed.

Lemma firstn_all_short {A} n (l : list A) : (length (firstn n l) < n)%nat -> firstn n l = l.
Proof.
  revert l; induction n as [|n IH]; intros l H; [cbn in H; lia|].
  destruct l as [|x r]; [reflexivity|]. cbn in *. f_equal. apply IH. lia.
Qed.

Lemma last_key_app l x : last_key (l ++ [x]) = Some x.
Proof. induction l as [|y r IH]; [reflexivity|]. cbn. destruct (r ++ [x]) eqn:E; [destruct r; discriminate|]. exact IH. Qed.

Lemma filter_gt_split (pre : list key) x rest :
  StronglySorted key_lt (pre ++ x :: rest) ->
  filter (fun k => key_ltb x k) (pre ++ x :: rest) = rest.
Proof.
  intros S. rewrite filter_app. cbn [filter].
  assert (Hx : key_ltb x x = false) by (unfold key_ltb; rewrite key_cmp_refl; reflexivity). rewrite Hx.
  assert (Hpre : filter (fun k => key_ltb x k) pre = []).
  { apply filter_false_nil. intros y Hy.
    assert (L : key_lt y x) by (apply (ssorted_app_rel key_lt pre (x :: rest) S y x Hy); left; reflexivity).
    unfold key_ltb. unfold key_lt in L. rewrite (g_anti _ good_key y x), L. reflexivity. }
  rewrite Hpre. cbn. apply ssorted_app_r in S. inversion S as [|? ? _ F]; subst. rewrite Forall_forall in F.
  apply filter_true_id. intros y Hy. apply key_ltb_lt. apply F; exact Hy.
Qed.

Theorem paged_complete limit : (1 <= limit)%nat -> forall fuel lo hi keys,
  StronglySorted key_lt keys ->
  (length (filter (in_range lo hi) keys) < fuel)%nat ->
  paged fuel limit lo hi keys = Some (filter (in_range lo hi) keys).
Proof.
  intros Hl. induction fuel as [|fuel IH]; intros lo hi keys Sk Hf; [lia|].
  cbn [paged]. unfold load_range. destruct limit as [|n]; [lia|].
  set (F := filter (in_range lo hi) keys) in *.
  destruct (Nat.ltb_spec (length (firstn (S n) F)) (S n)) as [Hs|Hs].
  - rewrite firstn_all_short by exact Hs. reflexivity.
  - assert (Hlen : length (firstn (S n) F) = S n) by (pose proof (firstn_le_length (S n) F); rewrite firstn_length in *; lia).
    destruct (exists_last (l := firstn (S n) F)) as (pre & l & Epre); [intros E0; rewrite E0 in Hlen; discriminate|].
    rewrite Epre at 1. rewrite last_key_app.
    assert (EF : F = pre ++ l :: skipn (S n) F).
    { rewrite <- (firstn_skipn (S n) F) at 1. rewrite Epre, <- app_assoc. reflexivity. }
    assert (SF : StronglySorted key_lt F) by (apply StronglySorted_filter; exact Sk).
    assert (Hin : In l F) by (rewrite EF; apply in_or_app; right; left; reflexivity).
    apply filter_In in Hin as [_ Hrange]. unfold in_range in Hrange. apply andb_true_iff in Hrange as [Hlo Hhi].
    assert (Enext : filter (in_range (next_key l) hi) keys = skipn (S n) F).
    { rewrite <- (filter_gt_split pre l (skipn (S n) F)) by (rewrite <- EF; exact SF). rewrite <- EF.
      unfold F. rewrite filter_filter. apply filter_ext. intros k. rewrite andb_comm. unfold in_range.
      rewrite next_key_succ, negb_involutive.
      destruct (key_ltb l k) eqn:Elk; cbn [andb]; [|reflexivity].
      (* lo <= l < k *)
      assert (key_ltb k lo = false).
      { destruct (key_ltb k lo) eqn:E1; [|reflexivity]. exfalso. apply key_ltb_lt in E1, Elk.
        apply (key_lt_irrefl k). eapply key_lt_trans; [exact E1|]. eapply key_le_lt_trans; [|exact Elk].
        apply key_not_lt_le. intros X. apply key_ltb_lt in X. rewrite X in Hlo. discriminate. }
      rewrite H. reflexivity. }
    rewrite IH; [| exact Sk |].
    + rewrite Enext. cbn [option_map]. f_equal. apply firstn_skipn.
    + rewrite Enext. rewrite skipn_length. rewrite firstn_length in Hlen. lia.
Qed.

Lemma filter_len_le {A} (f : A -> bool) l : (length (filter f l) <= length l)%nat.
Proof. induction l as [|x r IH]; cbn; [lia|]. destruct (f x); cbn; lia. Qed.

Lemma page_limit_pos : (1 <= page_limit)%nat.
Proof. vm_compute. lia. Qed.

(* LoadRangeByPrefix returns every key of [prefix, GetPrefixRangeEnd(prefix)) exactly once, in order *)
Theorem load_range_by_prefix_complete prefix keys :
  StronglySorted key_lt keys ->
  load_range_by_prefix prefix keys = Some (filter (in_range prefix (prefix_end prefix)) keys).
Proof.
  intros S. unfold load_range_by_prefix. apply (paged_complete page_limit page_limit_pos); [exact S|].
  pose proof (filter_len_le (in_range prefix (prefix_end prefix)) keys). lia.
Qed.

(* ... and that range is "has the prefix" (prefixes whose last byte is below 0xff, as rules/ and rule_group/) *)
Lemma prefix_end_snoc q b : (b <? 255)%N = true -> prefix_end (q ++ [b]) = q ++ [(b + 1)%N].
Proof.
  intros H. unfold prefix_end. rewrite rev_app_distr. cbn. rewrite H. cbn. rewrite rev_involutive. reflexivity.
Qed.

(* by induction on q; at the last byte b the first byte c of k is below b, equal to it, or above it *)
Lemma prefix_range q : forall b k, in_range (q ++ [b]) (q ++ [(b + 1)%N]) k = is_prefix (q ++ [b]) k.
Proof.
  unfold in_range, key_ltb, key_cmp.
  induction q as [|a q IH]; intros b k.
  - destruct k as [|c t]; cbn; [reflexivity|].
    destruct (N.compare_spec c b) as [E|E|E]; cbn.
    + subst c. rewrite N.eqb_refl. cbn. destruct t; cbn; (destruct (N.compare_spec b (b + 1)) as [X|X|X]; try lia; reflexivity).
    + destruct (N.eqb_spec b c); [lia|reflexivity].
    + destruct (N.eqb_spec b c); [lia|]. cbn.
      destruct (N.compare_spec c (b + 1)) as [X|X|X]; cbn; try lia; try reflexivity. destruct t; reflexivity.
  - destruct k as [|c t]; cbn; [reflexivity|].
    destruct (N.compare_spec c a) as [E|E|E]; cbn.
    + subst c. rewrite N.eqb_refl. cbn. apply IH.
    + destruct (N.eqb_spec a c); [lia|reflexivity].
    + destruct (N.eqb_spec a c); [lia|reflexivity].
Qed.

(* why the seeded successor is wrong: GetPrefixRangeEnd(last) is not the successor of last — every key that
   extends `last` lies strictly between them *)
Example prefix_end_is_not_the_successor :
  let l := [1]%N in let k := [1; 0]%N in
  key_ltb l k = true /\ key_ltb k (prefix_end l) = true /\ key_ltb k (next_key l) = false.
Proof. vm_compute. repeat split. Qed.
