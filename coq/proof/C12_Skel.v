(* Structural obligations on the code (regenerated gen/Gen_C12.v): model/C12_Fit.v was
   written against exactly these tables and statement texts.  A change of the comparison order, of a
   role/operator case, of the search (fitRule / enumPeers / compareBest / updateOrphanPeers) or of the
   helper functions breaks a `reflexivity` below; the check then searches for a failing input
   (DESIGN.md section 4). *)
From Coq Require Import ZArith List String.
From PDV Require Import lib.Skel gen.Gen_C12.
Import ListNotations.
Open Scope string_scope.

Lemma replicaBaseScore_ok : replicaBaseScore =
  (100)%Z.
Proof. reflexivity. Qed.

Lemma rule_fit_order_ok : rule_fit_order =
  ["len(_v0.Peers) < len(_v1.Peers) => return -1"; "len(_v0.Peers) > len(_v1.Peers) => return 1"; "len(_v0.PeersWithDifferentRole) > len(_v1.PeersWithDifferentRole) => return -1"; "len(_v0.PeersWithDifferentRole) < len(_v1.PeersWithDifferentRole) => return 1"; "_v0.IsolationScore < _v1.IsolationScore => return -1"; "_v0.IsolationScore > _v1.IsolationScore => return 1"; "default => return 0"].
Proof. reflexivity. Qed.

Lemma region_fit_order_ok : region_fit_order =
  ["len(_v0.OrphanPeers) < len(_v1.OrphanPeers) => return 1"; "len(_v0.OrphanPeers) > len(_v1.OrphanPeers) => return -1"; "default => return 0"].
Proof. reflexivity. Qed.

Lemma role_strict_cases_ok : role_strict_cases =
  ["_v1 == Voter => return !core.IsLearner(_v0.Peer)"; "_v1 == Leader => return _v0.isLeader"; "_v1 == Follower => return !core.IsLearner(_v0.Peer) && !_v0.isLeader"; "_v1 == Learner => return core.IsLearner(_v0.Peer)"].
Proof. reflexivity. Qed.

Lemma compare_best_cases_ok : compare_best_cases =
  ["_v4 == 1 => _v0.bestFit.RuleFits[_v2] = _v3; for _v6 := _v2 + 1; _v6 < len(_v0.rules); _v6++ { _v0.bestFit.RuleFits[_v6] = nil }; _v0.fitRule(_v2 + 1); _v0.updateOrphanPeers(_v2 + 1); return true"; "_v4 == 0 => if _v0.fitRule(_v2 + 1) { _v0.bestFit.RuleFits[_v2] = _v3 return true }"].
Proof. reflexivity. Qed.

Lemma match_store_cases_ok : match_store_cases =
  ["_v0.Op == In => _v2 := _v1.GetLabelValue(_v0.Key); return _v2 != """" && slice.AnyOf(_v0.Values, func(_v3 int) bool { return _v0.Values[_v3] == _v2 })"; "_v0.Op == NotIn => _v4 := _v1.GetLabelValue(_v0.Key); return _v4 == """" || slice.NoneOf(_v0.Values, func(_v5 int) bool { return _v0.Values[_v5] == _v4 })"; "_v0.Op == Exists => return _v1.GetLabelValue(_v0.Key) != """""; "_v0.Op == NotExists => return _v1.GetLabelValue(_v0.Key) == """""].
Proof. reflexivity. Qed.

Lemma body_RegionFit_IsSatisfied_ok : body_RegionFit_IsSatisfied =
  ["if len(_v0.RuleFits) == 0 { return false }"; "for _, _v1 := range _v0.RuleFits { if !_v1.IsSatisfied() { return false } }"; "return len(_v0.OrphanPeers) == 0"].
Proof. reflexivity. Qed.

Lemma body_RuleFit_IsSatisfied_ok : body_RuleFit_IsSatisfied =
  ["return len(_v0.Peers) == _v0.Rule.Count && len(_v0.PeersWithDifferentRole) == 0"].
Proof. reflexivity. Qed.

Lemma body_CompareRegionFit_ok : body_CompareRegionFit =
  ["for _v2 := range _v0.RuleFits { if _v2 >= len(_v1.RuleFits) { break } if _v3 := compareRuleFit(_v0.RuleFits[_v2], _v1.RuleFits[_v2]); _v3 != 0 { return _v3 } }"; "switch { case len(_v0.OrphanPeers) < len(_v1.OrphanPeers): return 1 case len(_v0.OrphanPeers) > len(_v1.OrphanPeers): return -1 default: return 0 }"].
Proof. reflexivity. Qed.

Lemma body_FitRegion_ok : body_FitRegion =
  ["_v3 := newFitWorker(_v0, _v1, _v2)"; "_v3.run()"; "return &_v3.bestFit"].
Proof. reflexivity. Qed.

Lemma body_newFitWorker_ok : body_newFitWorker =
  ["_v3 := _v1.GetPeers()"; "_v4 := make([]*fitPeer, 0, len(_v3))"; "for _, _v5 := range _v3 { _v4 = append(_v4, &fitPeer{ Peer: _v5, store: _v0.GetStore(_v5.GetStoreId()), isLeader: _v1.GetLeader().GetId() == _v5.GetId(), }) }"; "sort.Slice(_v4, func(_v6, _v7 int) bool { return _v4[_v6].GetId() < _v4[_v7].GetId() })"; "return &fitWorker{ _v0: _v0.GetStores(), bestFit: RegionFit{RuleFits: make([]*RuleFit, len(_v2))}, _v4: _v4, _v2: _v2, }"].
Proof. reflexivity. Qed.

Lemma body_fitWorker_run_ok : body_fitWorker_run =
  ["_v0.fitRule(0)"; "_v0.updateOrphanPeers(0)"].
Proof. reflexivity. Qed.

Lemma body_fitWorker_fitRule_ok : body_fitWorker_fitRule =
  ["if _v1 >= len(_v0.rules) { return false }"; "var _v2 []*fitPeer"; "if checkRule(_v0.rules[_v1], _v0.stores) { for _, _v3 := range _v0.peers { if MatchLabelConstraints(_v3.store, _v0.rules[_v1].LabelConstraints) && _v3.matchRoleLoose(_v0.rules[_v1].Role) && !_v3.selected { _v2 = append(_v2, _v3) } } }"; "_v4 := _v0.rules[_v1].Count"; "if len(_v2) < _v4 { _v4 = len(_v2) }"; "return _v0.enumPeers(_v2, nil, _v1, _v4)"].
Proof. reflexivity. Qed.

Lemma body_fitWorker_enumPeers_ok : body_fitWorker_enumPeers =
  ["if len(_v2) == _v4 { return _v0.compareBest(_v2, _v3) }"; "var _v5 bool"; "for _v6, _v7 := range _v1 { _v7.selected = true _v5 = _v0.enumPeers(_v1[_v6+1:], append(_v2, _v7), _v3, _v4) || _v5 _v7.selected = false }"; "return _v5"].
Proof. reflexivity. Qed.

Lemma body_fitWorker_compareBest_ok : body_fitWorker_compareBest =
  ["_v3 := newRuleFit(_v0.rules[_v2], _v1)"; "_v4 := 1"; "if _v5 := _v0.bestFit.RuleFits[_v2]; _v5 != nil { _v4 = compareRuleFit(_v3, _v5) }"; "switch _v4 { case 1: _v0.bestFit.RuleFits[_v2] = _v3 for _v6 := _v2 + 1; _v6 < len(_v0.rules); _v6++ { _v0.bestFit.RuleFits[_v6] = nil } _v0.fitRule(_v2 + 1) _v0.updateOrphanPeers(_v2 + 1) return true case 0: if _v0.fitRule(_v2 + 1) { _v0.bestFit.RuleFits[_v2] = _v3 return true } }"; "return false"].
Proof. reflexivity. Qed.

Lemma body_fitWorker_updateOrphanPeers_ok : body_fitWorker_updateOrphanPeers =
  ["if _v1 != len(_v0.rules) { return }"; "_v0.bestFit.OrphanPeers = _v0.bestFit.OrphanPeers[:0]"; "for _, _v2 := range _v0.peers { if !_v2.selected { _v0.bestFit.OrphanPeers = append(_v0.bestFit.OrphanPeers, _v2.Peer) } }"].
Proof. reflexivity. Qed.

Lemma body_newRuleFit_ok : body_newRuleFit =
  ["_v2 := &RuleFit{Rule: _v0, IsolationScore: isolationScore(_v1, _v0.LocationLabels)}"; "for _, _v3 := range _v1 { _v2.Peers = append(_v2.Peers, _v3.Peer) if !_v3.matchRoleStrict(_v0.Role) { _v2.PeersWithDifferentRole = append(_v2.PeersWithDifferentRole, _v3.Peer) } }"; "return _v2"].
Proof. reflexivity. Qed.

Lemma body_fitPeer_matchRoleLoose_ok : body_fitPeer_matchRoleLoose =
  ["return _v1 != Learner || core.IsLearner(_v0.Peer)"].
Proof. reflexivity. Qed.

Lemma body_isolationScore_ok : body_isolationScore =
  ["var _v2 float64"; "if len(_v1) == 0 || len(_v0) <= 1 { return 0 }"; "const replicaBaseScore = 100"; "for _v3, _v4 := range _v0 { for _, _v5 := range _v0[_v3+1:] { if _v6 := _v4.store.CompareLocation(_v5.store, _v1); _v6 != -1 { _v2 += math.Pow(replicaBaseScore, float64(len(_v1)-_v6-1)) } } }"; "return _v2"].
Proof. reflexivity. Qed.

Lemma body_isExclusiveLabel_ok : body_isExclusiveLabel =
  ["return strings.HasPrefix(_v0, ""$"") || slice.AnyOf(legacyExclusiveLabels, func(_v1 int) bool { return _v0 == legacyExclusiveLabels[_v1] })"].
Proof. reflexivity. Qed.

Lemma body_MatchLabelConstraints_ok : body_MatchLabelConstraints =
  ["if _v0 == nil { return false }"; "for _, _v2 := range _v0.GetLabels() { if isExclusiveLabel(_v2.GetKey()) && slice.NoneOf(_v1, func(_v3 int) bool { return _v1[_v3].Key == _v2.GetKey() }) { return false } }"; "return slice.AllOf(_v1, func(_v4 int) bool { return _v1[_v4].MatchStore(_v0) })"].
Proof. reflexivity. Qed.

Lemma body_checkRule_ok : body_checkRule =
  ["for _, _v2 := range _v1 { if MatchLabelConstraints(_v2, _v0.LabelConstraints) { return true } }"; "return false"].
Proof. reflexivity. Qed.

Lemma body_StoreInfo_GetLabelValue_ok : body_StoreInfo_GetLabelValue =
  ["for _, _v2 := range _v0.GetLabels() { if strings.EqualFold(_v2.GetKey(), _v1) { return _v2.GetValue() } }"; "return """""].
Proof. reflexivity. Qed.

Lemma body_StoreInfo_CompareLocation_ok : body_StoreInfo_CompareLocation =
  ["for _v3, _v4 := range _v2 { _v5, _v6 := _v0.GetLabelValue(_v4), _v1.GetLabelValue(_v4) if _v5 != """" && _v6 != """" && !strings.EqualFold(_v5, _v6) { return _v3 } }"; "return -1"].
Proof. reflexivity. Qed.

Lemma adjust_rule_guards_ok : adjust_rule_guards =
  ["_v4 != nil"; "_v4 != nil"; "len(_v1.EndKey) > 0 && bytes.Compare(_v1.EndKey, _v1.StartKey) <= 0"; "_v4 != nil"; "_v4 != nil"; "_v2 != _v1.GroupID"; "_v1.GroupID == """""; "_v1.ID == """""; "!validateRole(_v1.Role)"; "_v1.Count <= 0"; "_v1.Role == Leader && _v1.Count > 1"; "!validateOp(_v5.Op)"; "len(_v6) > 0 && !checkRule(_v1, _v6)"].
Proof. reflexivity. Qed.

Lemma legacy_exclusive_labels_ok : legacy_exclusive_labels =
  ["engine"; "exclusive"].
Proof. reflexivity. Qed.

Lemma exclusive_prefix_ok : exclusive_prefix =
  "$".
Proof. reflexivity. Qed.

Lemma role_voter_ok : role_voter =
  "voter".
Proof. reflexivity. Qed.

Lemma role_leader_ok : role_leader =
  "leader".
Proof. reflexivity. Qed.

Lemma role_follower_ok : role_follower =
  "follower".
Proof. reflexivity. Qed.

Lemma role_learner_ok : role_learner =
  "learner".
Proof. reflexivity. Qed.

Lemma op_in_ok : op_in =
  "in".
Proof. reflexivity. Qed.

Lemma op_notin_ok : op_notin =
  "notIn".
Proof. reflexivity. Qed.

Lemma op_exists_ok : op_exists =
  "exists".
Proof. reflexivity. Qed.

Lemma op_notexists_ok : op_notexists =
  "notExists".
Proof. reflexivity. Qed.

(* the guard that keeps non-positive counts away from FitRegion sits in RuleManager.adjustRule, which every
   rule a RuleManager serves has passed (SetRule / SetRules / Batch / bundles / loadRules): with a negative
   Count the search never calls compareBest and leaves a nil RuleFit (driver probe `negative-count`) *)
Lemma body_RuleManager_FitRegion_ok : body_RuleManager_FitRegion =
  ["_v3 := _v0.GetRulesForApplyRegion(_v2)"; "return FitRegion(_v1, _v2, _v3)"].
Proof. reflexivity. Qed.

Lemma count_guard_present : exists v, In (v ++ ".Count <= 0") adjust_rule_guards.
Proof. exists "_v1". vm_compute. tauto. Qed.
