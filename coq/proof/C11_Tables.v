(* C11 — obligations on what the translator regenerates from /repo (gen/Gen_C11.v): the StoreStateFilter
   table (as for C10), the filter literals of the scatterer and of the schedulers, and the source text of
   the scatter selection functions the model transcribes. *)
From PDV Require Import lib.Skel lib.C10_Cluster gen.Gen_C11 model.C11_Scatter proof.C11_Pins.
Local Open Scope string_scope.

Lemma scatter_flags_ok : Gen_C11.scatter_flags = [MoveRegion; ScatterRegion].
Proof. reflexivity. Qed.
Lemma scatter_excludes :
  forallb (excludes Gen_C11.conds Gen_C11.temp_conds Gen_C11.target_dispatch Gen_C11.scatter_flags)
          [isTombstone; isOffline; isDown; isDisconnected; isBusy] = true.
Proof. reflexivity. Qed.

Lemma move_flags_ok : Gen_C11.balance_region_target_flags = [MoveRegion] /\ Gen_C11.shuffle_region_flags = [MoveRegion]
                      /\ Gen_C11.balance_region_source_flags = [MoveRegion]
                      /\ Gen_C11.hot_move_flags = [MoveRegion] /\ Gen_C11.shuffle_hot_flags = [MoveRegion].
Proof. repeat split; reflexivity. Qed.
Lemma move_excludes :
  forallb (excludes Gen_C11.conds Gen_C11.temp_conds Gen_C11.target_dispatch [MoveRegion])
          [isTombstone; isOffline; isDown; isDisconnected; isBusy; exceedAddLimit; tooManySnapshots; tooManyPendingPeers] = true.
Proof. reflexivity. Qed.

Lemma leader_flags_ok : Gen_C11.balance_leader_flags = [TransferLeader] /\ Gen_C11.shuffle_leader_flags = [TransferLeader]
                        /\ Gen_C11.evict_leader_flags = [TransferLeader] /\ Gen_C11.label_flags = [TransferLeader]
                        /\ Gen_C11.hot_leader_flags = [TransferLeader].
Proof. repeat split; reflexivity. Qed.
Lemma leader_excludes :
  forallb (excludes Gen_C11.conds Gen_C11.temp_conds Gen_C11.target_dispatch [TransferLeader])
          [isTombstone; isOffline; isDown; pauseLeaderTransfer; isDisconnected; isBusy; hasRejectLeaderProperty] = true.
Proof. reflexivity. Qed.

Lemma cond_src_ok : Gen_C11.cond_src =
  [(exceedAddLimit, "!store.IsAvailable(storelimit.AddPeer)"); (exceedRemoveLimit, "!store.IsAvailable(storelimit.RemovePeer)");
   (hasRejectLeaderProperty, "opts.CheckLabelProperty(opt.RejectLeader, store.GetLabels())"); (isBusy, "store.IsBusy()");
   (isDisconnected, "store.IsDisconnected()"); (isDown, "store.DownTime() > opt.GetMaxStoreDownTime()"); (isOffline, "store.IsOffline()");
   (isTombstone, "store.IsTombstone()"); (pauseLeaderTransfer, "!store.AllowLeaderTransfer()");
   (tooManyPendingPeers, "opt.GetMaxPendingPeerCount() > 0 && store.GetPendingPeerCount() > int(opt.GetMaxPendingPeerCount())");
   (tooManySnapshots, "(uint64(store.GetSendingSnapCount()) > opt.GetMaxSnapshotCount() || uint64(store.GetReceivingSnapCount()) > opt.GetMaxSnapshotCount())")].
Proof. reflexivity. Qed.

(* balance-region: the region's own stores are excluded from the targets, and the state filter is there *)
Lemma balance_region_filters_ok : Gen_C11.balance_region_filters =
  ["filter.NewExcludedFilter(s.GetName(), nil, plan.region.GetStoreIds())"; "filter.NewPlacementSafeguard(s.GetName(), plan.cluster, plan.region, plan.source)";
   "filter.NewRegionScoreFilter(s.GetName(), plan.source, plan.cluster.GetOpts())"; "filter.NewSpecialUseFilter(s.GetName())";
   "&filter.StoreStateFilter{ActionScope: s.GetName(), MoveRegion: true}"].
Proof. exact pin_balance_region_filters. Qed.

Lemma move_leader_chain_ok : Gen_C11.chain_CreateMoveLeaderOperator = ["NewBuilder(desc, cluster, region)"; "RemovePeer(oldStore)"; "AddPeer(peer)"; "SetLeader(peer.GetStoreId())"; "Build(kind)"].
Proof. exact pin_chain_CreateMoveLeaderOperator. Qed.
Lemma skel_grant_ok : Gen_C11.skel_grant_Schedule = [RLock "s.conf.mu"; DeferRUnlock "s.conf.mu"; ForE [Call "RandFollowerRegion"; Call "CreateForceTransferLeaderOperator"]; Ret].
Proof. exact pin_skel_grant_Schedule. Qed.
