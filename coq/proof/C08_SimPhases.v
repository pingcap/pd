(* C08 — how plan_check moves through one step of each kind the builder emits, under explicit preconditions on the
   region (general in the number of peers).  Each lemma shows that the step is accepted (step_accepted of
   proof/C08_PlanProof.v) and that the invariant Inv holds afterwards; that no clause is violated then follows from
   the invariant alone for every step that leaves the leader where it is. *)
From Coq Require Import String.
From PDV Require Import lib.Base gen.Gen_C08 model.C08_Steps model.C08_Builder proof.C08_ListFacts proof.C08_PlanProof.
Local Open Scope list_scope.
Local Open Scope Z_scope.

Definition NJ (ps : list peer) : Prop := forall p, In p ps -> prole p = Voter \/ prole p = Learner.

Lemma NJ_not_joint ps : NJ ps -> existsb in_joint ps = false.
Proof.
  intros H. destruct (existsb in_joint ps) eqn:E; [|reflexivity].
  apply existsb_exists in E as (p & Hp & Hj). destruct (H p Hp) as [R|R]; unfold in_joint in Hj; rewrite R in Hj; discriminate.
Qed.

Lemma NJ_of_not_joint ps : existsb in_joint ps = false -> NJ ps.
Proof.
  intros H p Hp. destruct (prole p) eqn:E; auto; exfalso;
    assert (X : existsb in_joint ps = true) by (apply existsb_exists; exists p; split; [exact Hp|unfold in_joint; rewrite E; reflexivity]);
    congruence.
Qed.

Lemma NJ_count ps : NJ ps -> Z.of_nat (length (filter in_joint ps)) = 0.
Proof.
  intros H. replace (filter in_joint ps) with (@nil peer); [reflexivity|].
  symmetry. induction ps as [|p r IH]; cbn [filter]; [reflexivity|].
  destruct (H p (or_introl eq_refl)) as [R|R]; unfold in_joint at 1; rewrite R; apply IH; intros q Hq; apply H; right; exact Hq.
Qed.

Definition LeaderOK (r : region) : Prop := exists p, lk (peers r) (leader r) = Some p /\ is_learner p = false.

Record Inv (g : goal) (r : region) : Prop := {
  inv_nd : ND (peers r);
  inv_leader : LeaderOK r;
  inv_old : g_min_voters g <= voters_old (peers r);
  inv_new : g_min_voters g <= voters_new (peers r)
}.

Lemma trans_ok g r r' :
  leader_kept r r' = true -> leader_to_valid r r' = true -> ND (peers r') ->
  g_min_voters g <= voters_old (peers r') -> g_min_voters g <= voters_new (peers r') ->
  trans_violation g r r' = None.
Proof.
  intros H1 H2 H3 H4 H5. unfold trans_violation. rewrite H1, H2. cbn [negb].
  apply nodup_stores_ND in H3. rewrite H3. cbn [negb].
  destruct (voters_old (peers r') <? g_min_voters g) eqn:E1; [apply Z.ltb_lt in E1; lia|].
  destruct (voters_new (peers r') <? g_min_voters g) eqn:E2; [apply Z.ltb_lt in E2; lia|]. reflexivity.
Qed.

Lemma leader_kept_same_lk r r' :
  LeaderOK r -> (forall p, lk (peers r) (leader r) = Some p -> exists p', lk (peers r') (leader r) = Some p' /\ (is_learner p = false -> is_learner p' = false)) ->
  leader_kept r r' = true.
Proof.
  intros (p & Hp & Hl) H. unfold leader_kept. destruct (H p Hp) as (p' & Hp' & Hl'). unfold get_store_peer. fold (lk (peers r') (leader r)).
  rewrite Hp'. rewrite (Hl' Hl). cbn. apply orb_true_r.
Qed.

Lemma leader_to_valid_same r r' : leader r' = leader r -> leader_to_valid r r' = true.
Proof. intros H. unfold leader_to_valid. rewrite H, Z.eqb_refl. reflexivity. Qed.

Lemma plan_check_step g r s r' :
  step_accepted r s r' -> trans_violation g r r' = None -> forall rest, plan_check g r (s :: rest) = plan_check g r' rest.
Proof.
  intros (F & S & (c & C & A) & F') T rest. cbn [plan_check]. unfold exec_step. rewrite F, S, C, A, T, F'. reflexivity.
Qed.

(* every step but TransferLeader leaves the leader where it is: the clauses then follow from the invariant afterwards *)
Lemma trans_ok_stay g r r' : leader r' = leader r -> Inv g r' -> trans_violation g r r' = None.
Proof.
  intros El [Hnd (p & Hp & Hl) Ho Hn]. apply trans_ok; auto; [|apply leader_to_valid_same; exact El].
  unfold leader_kept, get_store_peer. fold (lk (peers r') (leader r)). rewrite <- El, Hp, Hl. apply orb_true_r.
Qed.

Lemma NJ_voters ps : NJ ps -> voters_old ps = voters_new ps.
Proof.
  intros H. unfold voters_old, voters_new. apply countb_ext. intros p Hp.
  destruct (H p Hp) as [R|R]; unfold old_voter, new_voter; rewrite R; reflexivity.
Qed.

Lemma NJ_replace ps st p : NJ ps -> (prole p = Voter \/ prole p = Learner) -> NJ (replace_peer ps st p).
Proof.
  intros H Hp q Hq. unfold replace_peer in Hq. apply in_map_iff in Hq as (x & <- & Hx).
  destruct (on_store st x); [exact Hp|apply H; exact Hx].
Qed.

Lemma Inv_edit g r ps' st dv :
  Inv g r -> ND ps' -> NJ ps' ->
  (forall s, s <> st -> lk ps' s = lk (peers r) s) ->
  (leader r = st -> exists p, lk ps' st = Some p /\ is_learner p = false) ->
  g_min_voters g <= voters_new ps' ->
  Inv g (set_peers r ps' dv).
Proof.
  intros [Hnd (p & Hp & Hl) Ho Hn] Hnd' Hnj' Hlk Hlead Hv. constructor; cbn [peers set_peers leader]; auto.
  - unfold LeaderOK; cbn [peers set_peers leader]. destruct (Z.eq_dec (leader r) st) as [E|E].
    + rewrite E. apply Hlead. exact E.
    + exists p. rewrite (Hlk _ E). auto.
  - rewrite (NJ_voters _ Hnj'). exact Hv.
Qed.

Definition add_step (light : bool) (st id : Z) : step := if light then AddLightLearner st id else AddLearner st id.

Lemma pc_add_learner g r light st id :
  Inv g r -> NJ (peers r) -> lk (peers r) st = None ->
  let r' := set_peers r (peers r ++ [Peer st id Learner]) 1 in
  (forall rest, plan_check g r (add_step light st id :: rest) = plan_check g r' rest) /\ Inv g r' /\ NJ (peers r').
Proof.
  intros I Hnj Hlk r'. pose proof (inv_nd _ _ I) as Hnd.
  assert (Hnd' : ND (peers r')) by (apply ND_app; [exact Hnd|repeat constructor; intros []|intros q [<-|[]]; exact Hlk]).
  assert (Hnj' : NJ (peers r')) by (intros p Hin; apply in_app_or in Hin as [Hin|[<-|[]]]; [apply Hnj; exact Hin|right; reflexivity]).
  assert (Hlk' : lk (peers r') st = Some (Peer st id Learner)).
  { unfold r'; cbn [peers set_peers]. rewrite lk_snoc, Hlk. cbn [pstore]. rewrite Z.eqb_refl. reflexivity. }
  assert (I' : Inv g r').
  { apply Inv_edit with (st := st); auto.
    - intros s Hs. rewrite lk_snoc. destruct (lk (peers r) s); [reflexivity|]. cbn [pstore].
      destruct (st =? s) eqn:E; [apply Z.eqb_eq in E; congruence|reflexivity].
    - intros El. destruct (inv_leader _ _ I) as (p & Hp & _). rewrite El, Hlk in Hp. discriminate.
    - pose proof (inv_new _ _ I). unfold voters_new in *. rewrite countb_app. unfold countb at 2; cbn. lia. }
  split; [|split; assumption].
  apply plan_check_step; [|apply trans_ok_stay; [reflexivity|exact I']].
  repeat split.
  - destruct light; cbn [add_step is_finish]; rewrite (get_store_learner_lk r st Hnd), Hlk; reflexivity.
  - destruct light; cbn [add_step check_safety]; rewrite get_store_peer_lk, Hlk; reflexivity.
  - exists (add_learner_node id st). split; [destruct light; cbn [add_step cmd_of_step]; rewrite get_store_peer_lk, Hlk; reflexivity|].
    unfold add_learner_node, apply_cmd, is_in_joint. rewrite (NJ_not_joint _ Hnj). unfold apply_change. cbn [pstore pid].
    fold (lk (peers r) st). rewrite Hlk. reflexivity.
  - destruct light; cbn [add_step is_finish]; rewrite (get_store_learner_lk r' st Hnd'), Hlk'; cbn; apply Z.eqb_refl.
Qed.

Lemma pc_transfer g r from to q :
  Inv g r -> lk (peers r) to = Some q -> (prole q = Voter \/ prole q = Incoming) -> leader r <> to ->
  let r' := set_leader r to in
  (forall rest, plan_check g r (TransferLeader from to :: rest) = plan_check g r' rest) /\ Inv g r'.
Proof.
  intros I Hq Hrole Hne r'. destruct I as [Hnd Hld Ho Hn].
  assert (Hql : is_learner q = false) by (unfold is_learner; destruct Hrole as [-> | ->]; reflexivity).
  assert (Hqs : pstore q = to) by (apply lk_Some in Hq; tauto).
  split; [|constructor; try assumption; exists q; auto].
  apply plan_check_step.
  - repeat split; cbn [is_finish check_safety cmd_of_step].
    + apply Z.eqb_neq. exact Hne.
    + rewrite get_store_peer_lk, Hq, Hql. reflexivity.
    + exists (CTransferLeader (Some q)). rewrite get_store_peer_lk, Hq. split; [reflexivity|].
      unfold apply_cmd. rewrite get_store_peer_lk, Hqs, Hq, Z.eqb_refl, Hql. reflexivity.
    + apply Z.eqb_refl.
  - apply trans_ok; auto.
    + apply leader_kept_same_lk; [exact Hld|]. intros p Hp. exists p. auto.
    + unfold leader_to_valid. cbn [leader set_leader r']. rewrite get_store_peer_lk, Hq.
      destruct Hrole as [-> | ->]; apply orb_true_r.
Qed.

Lemma pc_promote g r st id :
  Inv g r -> NJ (peers r) -> lk (peers r) st = Some (Peer st id Learner) ->
  let r' := set_peers r (replace_peer (peers r) st (Peer st id Voter)) 1 in
  (forall rest, plan_check g r (PromoteLearner st id :: rest) = plan_check g r' rest) /\ Inv g r' /\ NJ (peers r')
  /\ voters_new (peers r') = voters_new (peers r) + 1.
Proof.
  intros I Hnj Hp r'. pose proof (inv_nd _ _ I) as Hnd.
  assert (Hnd' : ND (peers r')) by (apply ND_replace; [reflexivity|exact Hnd]).
  assert (Hlk' : forall s, lk (peers r') s = if s =? st then Some (Peer st id Voter) else lk (peers r) s).
  { intros s. unfold r'; cbn [peers set_peers]. rewrite lk_replace by reflexivity. rewrite Hp. reflexivity. }
  assert (Hnj' : NJ (peers r')) by (apply NJ_replace; [exact Hnj|left; reflexivity]).
  assert (Hvn : voters_new (peers r') = voters_new (peers r) + 1).
  { unfold r', voters_new; cbn [peers set_peers]. rewrite (countb_replace _ _ _ _ _ Hnd Hp). cbn. lia. }
  assert (I' : Inv g r').
  { apply Inv_edit with (st := st); auto.
    - intros s Hs. change (lk (peers r') s = lk (peers r) s). rewrite Hlk'. apply Z.eqb_neq in Hs. rewrite Hs. reflexivity.
    - intros _. change (exists p, lk (peers r') st = Some p /\ is_learner p = false). rewrite Hlk', Z.eqb_refl. eauto.
    - change (g_min_voters g <= voters_new (peers r')). pose proof (inv_new _ _ I). lia. }
  split; [|auto].
  apply plan_check_step; [|apply trans_ok_stay; [reflexivity|exact I']].
  repeat split; cbn [is_finish check_safety cmd_of_step].
  - rewrite (get_store_voter_lk r st Hnd), Hp. reflexivity.
  - rewrite get_store_peer_lk, Hp. cbn [oid pid]. rewrite Z.eqb_refl. reflexivity.
  - exists (add_node id st). split; [reflexivity|].
    unfold add_node, apply_cmd, is_in_joint. rewrite (NJ_not_joint _ Hnj). unfold apply_change. cbn [pstore pid].
    fold (lk (peers r) st). rewrite Hp. cbn [pid prole]. rewrite Z.eqb_refl. reflexivity.
  - rewrite (get_store_voter_lk r' st Hnd'), Hlk', Z.eqb_refl. cbn. apply Z.eqb_refl.
Qed.

(* peer ids are pairwise distinct: the demoted peer's id is not the leader's *)
Lemma pc_demote g r st id :
  Inv g r -> NJ (peers r) -> NoDup (map pid (peers r)) -> leader r <> 0 ->
  lk (peers r) st = Some (Peer st id Voter) -> leader r <> st ->
  g_min_voters g + 1 <= voters_new (peers r) ->
  let r' := set_peers r (replace_peer (peers r) st (Peer st id Learner)) 1 in
  (forall rest, plan_check g r (DemoteFollower st id :: rest) = plan_check g r' rest) /\ Inv g r' /\ NJ (peers r')
  /\ voters_new (peers r') = voters_new (peers r) - 1.
Proof.
  intros I Hnj Hids Hl0 Hp Hne Hmin r'. pose proof (inv_nd _ _ I) as Hnd.
  assert (Hnd' : ND (peers r')) by (apply ND_replace; [reflexivity|exact Hnd]).
  assert (Hlk' : forall s, lk (peers r') s = if s =? st then Some (Peer st id Learner) else lk (peers r) s).
  { intros s. unfold r'; cbn [peers set_peers]. rewrite lk_replace by reflexivity. rewrite Hp. reflexivity. }
  assert (Hnj' : NJ (peers r')) by (apply NJ_replace; [exact Hnj|right; reflexivity]).
  assert (Hvn : voters_new (peers r') = voters_new (peers r) - 1).
  { unfold r', voters_new; cbn [peers set_peers]. rewrite (countb_replace _ _ _ _ _ Hnd Hp). cbn. lia. }
  assert (I' : Inv g r').
  { apply Inv_edit with (st := st); auto.
    - intros s Hs. change (lk (peers r') s = lk (peers r) s). rewrite Hlk'. apply Z.eqb_neq in Hs. rewrite Hs. reflexivity.
    - intros C. contradiction.
    - change (g_min_voters g <= voters_new (peers r')). lia. }
  split; [|auto].
  apply plan_check_step; [|apply trans_ok_stay; [reflexivity|exact I']].
  (* the leader's peer is another peer, hence has another id *)
  assert (Hlid : (id =? leader_id r) = false).
  { destruct (inv_leader _ _ I) as (lp & Hlp & _). unfold leader_id. destruct (leader r =? 0) eqn:E0; [apply Z.eqb_eq in E0; contradiction|].
    rewrite get_store_peer_lk, Hlp. cbn [oid]. apply Z.eqb_neq. intros C.
    apply lk_Some in Hlp as [Hin1 Hs1]. pose proof (proj1 (lk_Some _ _ _ Hp)) as Hin2.
    assert (X : lp = Peer st id Voter).
    { clear - Hids Hin1 Hin2 C. induction (peers r) as [|q l IH]; [contradiction|].
      cbn [map] in Hids. inversion Hids as [|x0 l0 Hn Hd]; subst x0 l0.
      destruct Hin1 as [<-|H1], Hin2 as [E2|H2].
      - exact E2.
      - exfalso. apply Hn. rewrite <- C. change id with (pid (Peer st id Voter)). apply in_map. exact H2.
      - exfalso. apply Hn. subst q. cbn [pid]. rewrite C. apply in_map. exact H1.
      - apply IH; assumption. }
    subst lp. cbn in Hs1. congruence. }
  repeat split; cbn [is_finish check_safety cmd_of_step].
  - rewrite (get_store_learner_lk r st Hnd), Hp. reflexivity.
  - rewrite get_store_peer_lk, Hp. cbn [oid pid]. rewrite Z.eqb_refl, Hlid. reflexivity.
  - exists (add_learner_node id st). split; [reflexivity|].
    unfold add_learner_node, apply_cmd, is_in_joint. rewrite (NJ_not_joint _ Hnj). unfold apply_change. cbn [pstore pid].
    fold (lk (peers r) st). rewrite Hp. cbn [pid prole]. rewrite Z.eqb_refl. cbn [negb andb].
    destruct (st =? leader r) eqn:E; [apply Z.eqb_eq in E; congruence|reflexivity].
  - rewrite (get_store_learner_lk r' st Hnd'), Hlk', Z.eqb_refl. cbn. apply Z.eqb_refl.
Qed.

Lemma pc_remove g r st id ro :
  Inv g r -> NJ (peers r) -> lk (peers r) st = Some (Peer st id ro) -> leader r <> st ->
  g_min_voters g + b2z (new_voter (Peer st id ro)) <= voters_new (peers r) ->
  let r' := set_peers r (remove_store (peers r) st) 1 in
  (forall rest, plan_check g r (RemovePeer st id :: rest) = plan_check g r' rest) /\ Inv g r' /\ NJ (peers r')
  /\ voters_new (peers r') = voters_new (peers r) - b2z (new_voter (Peer st id ro)).
Proof.
  intros I Hnj Hp Hne Hmin r'. pose proof (inv_nd _ _ I) as Hnd.
  assert (Hnd' : ND (peers r')) by (apply ND_filter; exact Hnd).
  assert (Hlk' : forall s, lk (peers r') s = if s =? st then None else lk (peers r) s).
  { intros s. unfold r'; cbn [peers set_peers]. apply lk_remove_store. exact Hnd. }
  assert (Hnj' : NJ (peers r')).
  { intros p Hin. apply Hnj. unfold r', remove_store in Hin; cbn in Hin. apply filter_In in Hin. tauto. }
  assert (Hvn : voters_new (peers r') = voters_new (peers r) - b2z (new_voter (Peer st id ro))).
  { unfold r', voters_new; cbn [peers set_peers]. apply (countb_remove _ _ _ _ Hnd Hp). }
  assert (I' : Inv g r').
  { apply Inv_edit with (st := st); auto.
    - intros s Hs. change (lk (peers r') s = lk (peers r) s). rewrite Hlk'. apply Z.eqb_neq in Hs. rewrite Hs. reflexivity.
    - intros C. contradiction.
    - change (g_min_voters g <= voters_new (peers r')). lia. }
  split; [|auto].
  apply plan_check_step; [|apply trans_ok_stay; [reflexivity|exact I']].
  repeat split; cbn [is_finish check_safety cmd_of_step].
  - rewrite get_store_peer_lk, Hp. reflexivity.
  - destruct (st =? leader r) eqn:E; [apply Z.eqb_eq in E; congruence|reflexivity].
  - exists (CChangePeer RemoveNode (Some (Peer st id ro))). rewrite get_store_peer_lk, Hp. split; [reflexivity|].
    unfold apply_cmd, is_in_joint. rewrite (NJ_not_joint _ Hnj). unfold apply_change. cbn [pstore].
    fold (lk (peers r) st). rewrite Hp. unfold peer_eqb; cbn [pstore pid prole]. rewrite !Z.eqb_refl.
    assert (Er : role_eqb ro ro = true) by (destruct ro; reflexivity). rewrite Er. cbn [andb negb].
    destruct (st =? leader r) eqn:E; [apply Z.eqb_eq in E; congruence|reflexivity].
  - rewrite get_store_peer_lk, Hlk', Z.eqb_refl. reflexivity.
Qed.

Definition memst (st : Z) (l : list (Z * Z)) : bool := existsb (fun x => fst x =? st) l.

Definition enter_role (P D : list (Z * Z)) (p : peer) : peer :=
  if memst (pstore p) P then Peer (pstore p) (pid p) Incoming
  else if memst (pstore p) D then Peer (pstore p) (pid p) Demoting else p.

Lemma enter_role_store P D p : pstore (enter_role P D p) = pstore p.
Proof. unfold enter_role. destruct (memst (pstore p) P); [reflexivity|]. destruct (memst (pstore p) D); reflexivity. Qed.

Lemma memst_false st l : ~ In st (map fst l) -> memst st l = false.
Proof.
  intros H. unfold memst. destruct (existsb (fun x => fst x =? st) l) eqn:E; [|reflexivity].
  apply existsb_exists in E as (x & Hx & Hs). apply Z.eqb_eq in Hs. exfalso. apply H. apply in_map_iff. eauto.
Qed.

Lemma memst_true st l x : In x l -> fst x = st -> memst st l = true.
Proof. intros H E. unfold memst. apply existsb_exists. exists x. split; [exact H|apply Z.eqb_eq; exact E]. Qed.

Lemma apply_changes_app j L cs1 : forall ps cs2 ps1,
  apply_changes j L ps cs1 = Some ps1 -> apply_changes j L ps (cs1 ++ cs2) = apply_changes j L ps1 cs2.
Proof.
  induction cs1 as [|c r IH]; intros ps cs2 ps1 H; cbn [apply_changes app] in *; [inversion H; reflexivity|].
  destruct (apply_change j L ps c) as [ps'|]; [|discriminate]. apply IH. exact H.
Qed.

Lemma apply_changes_promote L : forall P ps,
  ND ps -> (forall x, In x P -> lk ps (fst x) = Some (Peer (fst x) (snd x) Learner)) -> NoDup (map fst P) ->
  apply_changes true L ps (map (fun x => (AddNode, Peer (fst x) (snd x) Voter)) P) = Some (map (enter_role P []) ps).
Proof.
  induction P as [|x P IH]; intros ps Hnd HP Hnp; cbn [map apply_changes].
  - f_equal. symmetry. erewrite map_ext; [apply map_id|]. intros p. unfold enter_role; cbn. reflexivity.
  - pose proof (HP x (or_introl eq_refl)) as Hx.
    unfold apply_change. cbn [pstore pid]. fold (lk ps (fst x)). rewrite Hx. cbn [pid prole]. rewrite Z.eqb_refl. cbn [negb].
    inversion Hnp as [|? ? Hn Hd]; subst.
    set (ps' := replace_peer ps (fst x) (Peer (fst x) (snd x) Incoming)).
    assert (Hnd' : ND ps') by (apply ND_replace; [reflexivity|exact Hnd]).
    assert (HP' : forall y, In y P -> lk ps' (fst y) = Some (Peer (fst y) (snd y) Learner)).
    { intros y Hy. unfold ps'. rewrite lk_replace by reflexivity.
      destruct (fst y =? fst x) eqn:E; [apply Z.eqb_eq in E; exfalso; apply Hn; rewrite <- E; apply in_map; exact Hy|].
      apply HP. right. exact Hy. }
    rewrite (IH ps' Hnd' HP' Hd). f_equal. unfold ps', replace_peer. rewrite map_map. apply map_ext_in.
    intros q Hq. destruct (on_store (fst x) q) eqn:E.
    + apply on_store_true in E. assert (q = Peer (fst x) (snd x) Learner) as -> by (apply (uniq_peer ps q _ Hnd Hq); rewrite E; exact Hx).
      unfold enter_role; cbn [pstore pid]. rewrite (memst_false _ _ Hn). cbn.
      rewrite Z.eqb_refl. cbn. reflexivity.
    + unfold enter_role. cbn [memst existsb]. unfold on_store in E. rewrite (Z.eqb_sym (fst x) (pstore q)) in *.
      rewrite E. cbn [orb]. reflexivity.
Qed.

Lemma apply_changes_demote L : forall D ps,
  ND ps -> (forall x, In x D -> lk ps (fst x) = Some (Peer (fst x) (snd x) Voter)) -> NoDup (map fst D) ->
  apply_changes true L ps (map (fun x => (AddLearnerNode, Peer (fst x) (snd x) Learner)) D) = Some (map (enter_role [] D) ps).
Proof.
  induction D as [|x D IH]; intros ps Hnd HD Hnp; cbn [map apply_changes].
  - f_equal. symmetry. erewrite map_ext; [apply map_id|]. intros p. unfold enter_role; cbn. reflexivity.
  - pose proof (HD x (or_introl eq_refl)) as Hx.
    unfold apply_change. cbn [pstore pid]. fold (lk ps (fst x)). rewrite Hx. cbn [pid prole]. rewrite Z.eqb_refl. cbn [negb andb].
    inversion Hnp as [|? ? Hn Hd]; subst.
    set (ps' := replace_peer ps (fst x) (Peer (fst x) (snd x) Demoting)).
    assert (Hnd' : ND ps') by (apply ND_replace; [reflexivity|exact Hnd]).
    assert (HD' : forall y, In y D -> lk ps' (fst y) = Some (Peer (fst y) (snd y) Voter)).
    { intros y Hy. unfold ps'. rewrite lk_replace by reflexivity.
      destruct (fst y =? fst x) eqn:E; [apply Z.eqb_eq in E; exfalso; apply Hn; rewrite <- E; apply in_map; exact Hy|].
      apply HD. right. exact Hy. }
    rewrite (IH ps' Hnd' HD' Hd). f_equal.
    unfold ps', replace_peer. rewrite map_map. apply map_ext_in.
    intros q Hq. destruct (on_store (fst x) q) eqn:E.
    + apply on_store_true in E. assert (q = Peer (fst x) (snd x) Voter) as -> by (apply (uniq_peer ps q _ Hnd Hq); rewrite E; exact Hx).
      unfold enter_role; cbn [pstore pid]. rewrite (memst_false _ _ Hn). cbn. rewrite Z.eqb_refl. cbn. reflexivity.
    + unfold enter_role. cbn [memst existsb]. unfold on_store in E. rewrite (Z.eqb_sym (fst x) (pstore q)) in *.
      rewrite E. cbn [orb]. reflexivity.
Qed.

Lemma enter_role_compose P D q :
  (forall x, In x D -> ~ In (fst x) (map fst P)) ->
  enter_role [] D (enter_role P [] q) = enter_role P D q.
Proof.
  intros Hdisj.
  assert (H0 : forall st, memst st [] = false) by reflexivity.
  destruct (memst (pstore q) P) eqn:E.
  - assert (E2 : memst (pstore q) D = false).
    { destruct (memst (pstore q) D) eqn:E2; [|reflexivity].
      unfold memst in E, E2. apply existsb_exists in E2 as (x & Hx & Hs). apply Z.eqb_eq in Hs.
      apply existsb_exists in E as (y & Hy & Hs2). apply Z.eqb_eq in Hs2.
      exfalso. apply (Hdisj x Hx). rewrite Hs, <- Hs2. apply in_map. exact Hy. }
    unfold enter_role. rewrite E. cbn [pstore pid]. rewrite H0, E2. reflexivity.
  - unfold enter_role. rewrite E, H0. cbn [pstore pid]. rewrite H0.
    destruct (memst (pstore q) D); reflexivity.
Qed.

Lemma apply_changes_enter L P D ps :
  ND ps ->
  (forall x, In x P -> lk ps (fst x) = Some (Peer (fst x) (snd x) Learner)) ->
  (forall x, In x D -> lk ps (fst x) = Some (Peer (fst x) (snd x) Voter)) ->
  NoDup (map fst P) -> NoDup (map fst D) -> (forall x, In x D -> ~ In (fst x) (map fst P)) ->
  apply_changes true L ps (v2_request P D) = Some (map (enter_role P D) ps).
Proof.
  intros Hnd HP HD HnP HnD Hdisj. unfold v2_request.
  rewrite (apply_changes_app true L _ ps _ _ (apply_changes_promote L P ps Hnd HP HnP)).
  rewrite apply_changes_demote; [| | |exact HnD].
  - f_equal. rewrite map_map. apply map_ext. intros q. apply enter_role_compose. exact Hdisj.
  - apply ND_map; [intros q; apply enter_role_store|exact Hnd].
  - intros x Hx. rewrite lk_map by (intros q; apply enter_role_store). rewrite (HD x Hx). cbn [option_map].
    unfold enter_role; cbn [pstore]. rewrite (memst_false _ P (Hdisj x Hx)). cbn. reflexivity.
Qed.

Lemma scan_pairs_out r cls tl : forall l ij nj dl,
  (forall x, In x l -> exists p, lk (peers r) (fst x) = Some p /\ pid p = snd x /\ cls (prole p) = JOut) ->
  scan_pairs r cls tl l (ij, nj, dl) = inr (ij, nj || negb (Nat.eqb (length l) 0), dl).
Proof.
  induction l as [|x l IH]; intros ij nj dl H; cbn [scan_pairs length Nat.eqb negb].
  - rewrite orb_false_r. reflexivity.
  - destruct (H x (or_introl eq_refl)) as (p & Hp & Hid & Hc). unfold get_store_peer. fold (lk (peers r) (fst x)). rewrite Hp.
    cbn [oid orole]. rewrite Hid, Z.eqb_refl. cbn [negb]. rewrite Hc.
    rewrite IH by (intros y Hy; apply H; right; exact Hy). rewrite orb_true_r. cbn [orb]. reflexivity.
Qed.

Lemma scan_pairs_in r cls tl : forall l ij nj dl,
  (forall x, In x l -> exists p, lk (peers r) (fst x) = Some p /\ pid p = snd x /\ cls (prole p) = JIn /\ (tl = true -> pstore p <> leader r)) ->
  scan_pairs r cls tl l (ij, nj, dl) = inr (ij || negb (Nat.eqb (length l) 0), nj, dl).
Proof.
  induction l as [|x l IH]; intros ij nj dl H; cbn [scan_pairs length Nat.eqb negb].
  - rewrite orb_false_r. reflexivity.
  - destruct (H x (or_introl eq_refl)) as (p & Hp & Hid & Hc & Hl). unfold get_store_peer. fold (lk (peers r) (fst x)). rewrite Hp.
    cbn [oid orole ostore]. rewrite Hid, Z.eqb_refl. cbn [negb]. rewrite Hc.
    assert (E : tl && (pstore p =? leader r) = false).
    { destruct tl; [|reflexivity]. cbn. apply Z.eqb_neq. apply Hl. reflexivity. }
    rewrite E, orb_false_r.
    rewrite IH by (intros y Hy; apply H; right; exact Hy). rewrite orb_true_r. reflexivity.
Qed.

Lemma apply_cmd_v2_nonempty r cs : cs <> [] ->
  apply_cmd r (CChangePeerV2 cs) =
  if is_in_joint r then None
  else match apply_changes true (leader r) (peers r) cs with
       | Some ps => Some (set_peers r ps (Z.of_nat (length cs)))
       | None => None
       end.
Proof. destruct cs; [intros H; contradiction H; reflexivity|reflexivity]. Qed.

Lemma v2_request_nonempty P D : P ++ D <> [] -> v2_request P D <> [].
Proof.
  intros H E. unfold v2_request in E. apply app_eq_nil in E as [E1 E2]. apply map_eq_nil in E1, E2. subst. apply H. reflexivity.
Qed.

Lemma pc_enter g r P D :
  Inv g r -> NJ (peers r) ->
  (forall x, In x P -> lk (peers r) (fst x) = Some (Peer (fst x) (snd x) Learner)) ->
  (forall x, In x D -> lk (peers r) (fst x) = Some (Peer (fst x) (snd x) Voter)) ->
  NoDup (map fst P) -> NoDup (map fst D) -> (forall x, In x D -> ~ In (fst x) (map fst P)) ->
  P ++ D <> [] ->
  let r' := set_peers r (map (enter_role P D) (peers r)) (Z.of_nat (length (v2_request P D))) in
  g_min_voters g <= voters_new (peers r') ->
  (forall rest, plan_check g r (ChangePeerV2Enter P D :: rest) = plan_check g r' rest) /\ Inv g r'.
Proof.
  intros I Hnj HP HD HnP HnD Hdisj Hne r' Hvn. destruct I as [Hnd Hld Ho Hn].
  assert (Hnd' : ND (peers r')) by (apply ND_map; [intros q; apply enter_role_store|exact Hnd]).
  assert (Hlk' : forall s, lk (peers r') s = option_map (enter_role P D) (lk (peers r) s)).
  { intros s. unfold r'; cbn [peers set_peers]. apply lk_map. intros q. apply enter_role_store. }
  assert (HP' : forall x, In x P -> lk (peers r') (fst x) = Some (Peer (fst x) (snd x) Incoming)).
  { intros x Hx. rewrite Hlk', (HP x Hx). cbn [option_map]. unfold enter_role; cbn [pstore pid].
    rewrite (memst_true _ P x Hx eq_refl). reflexivity. }
  assert (HD' : forall x, In x D -> lk (peers r') (fst x) = Some (Peer (fst x) (snd x) Demoting)).
  { intros x Hx. rewrite Hlk', (HD x Hx). cbn [option_map]. unfold enter_role; cbn [pstore pid].
    rewrite (memst_false _ P (Hdisj x Hx)), (memst_true _ D x Hx eq_refl). reflexivity. }
  assert (Hvo : voters_old (peers r') = voters_old (peers r)).
  { unfold r', voters_old; cbn [peers set_peers]. rewrite countb_map. apply countb_ext. intros q Hq.
    unfold enter_role. destruct (memst (pstore q) P) eqn:E1.
    - unfold memst in E1. apply existsb_exists in E1 as (x & Hx & Hs). apply Z.eqb_eq in Hs.
      assert (q = Peer (fst x) (snd x) Learner) as -> by (apply (uniq_peer _ q _ Hnd Hq); rewrite <- Hs; apply HP; exact Hx).
      reflexivity.
    - destruct (memst (pstore q) D) eqn:E2; [|reflexivity].
      unfold memst in E2. apply existsb_exists in E2 as (x & Hx & Hs). apply Z.eqb_eq in Hs.
      assert (q = Peer (fst x) (snd x) Voter) as -> by (apply (uniq_peer _ q _ Hnd Hq); rewrite <- Hs; apply HD; exact Hx).
      reflexivity. }
  assert (Hld' : LeaderOK r').
  { destruct Hld as (p & Hp & Hl). exists (enter_role P D p). split; [change (leader r') with (leader r); rewrite Hlk', Hp; reflexivity|].
    unfold enter_role. destruct (memst (pstore p) P); [reflexivity|]. destruct (memst (pstore p) D); [reflexivity|exact Hl]. }
  assert (I' : Inv g r') by (constructor; auto; lia).
  split; [|exact I'].
  assert (Hnf : is_finish r (ChangePeerV2Enter P D) = false).
  { cbn [is_finish]. destruct P as [|x P'].
    - destruct D as [|x D']; [contradiction Hne; reflexivity|]. cbn [forallb andb].
      rewrite (get_store_voter_lk r _ Hnd), (HD x (or_introl eq_refl)). cbn. rewrite Z.eqb_refl. reflexivity.
    - cbn [forallb]. rewrite (get_store_voter_lk r _ Hnd), (HP x (or_introl eq_refl)). cbn.
      rewrite andb_false_r. reflexivity. }
  assert (Hsafe : check_safety r (ChangePeerV2Enter P D) = None).
  { cbn [check_safety].
    rewrite (scan_pairs_out r enter_promote_cls false P false false false).
    2:{ intros x Hx. eexists. split; [apply HP; exact Hx|]. cbn. auto. }
    rewrite (scan_pairs_out r enter_demote_cls false D).
    2:{ intros x Hx. eexists. split; [apply HD; exact Hx|]. cbn. auto. }
    unfold joint_verdict. unfold count_joint. rewrite (NJ_count _ Hnj). cbn [orb andb negb Z.eqb].
    destruct (negb (Nat.eqb (length P) 0) || negb (Nat.eqb (length D) 0)); reflexivity. }
  assert (Happ : apply_cmd r (CChangePeerV2 (v2_request P D)) = Some r').
  { rewrite (apply_cmd_v2_nonempty r _ (v2_request_nonempty P D Hne)).
    unfold is_in_joint. rewrite (NJ_not_joint _ Hnj).
    rewrite (apply_changes_enter (leader r) P D (peers r) Hnd HP HD HnP HnD Hdisj). reflexivity. }
  assert (Hf : is_finish r' (ChangePeerV2Enter P D) = true).
  { cbn [is_finish]. apply andb_true_iff. split; apply forallb_forall; intros x Hx;
      rewrite (get_store_voter_lk r' _ Hnd'); [rewrite (HP' x Hx)|rewrite (HD' x Hx)]; cbn; rewrite Z.eqb_refl; reflexivity. }
  apply plan_check_step; [|apply trans_ok_stay; [reflexivity|exact I']].
  split; [exact Hnf|split; [exact Hsafe|split; [eexists; split; [reflexivity|exact Happ]|exact Hf]]].
Qed.

Lemma leave_role_store p : pstore (leave_role p) = pstore p.
Proof. unfold leave_role. destruct (prole p); reflexivity. Qed.

Lemma NJ_leave ps : NJ (map leave_role ps).
Proof.
  intros p Hin. apply in_map_iff in Hin as (q & <- & _). unfold leave_role. destruct (prole q) eqn:E; cbn; auto.
Qed.

Lemma pc_leave g r P D :
  Inv g r ->
  (forall x, In x P -> lk (peers r) (fst x) = Some (Peer (fst x) (snd x) Incoming)) ->
  (forall x, In x D -> lk (peers r) (fst x) = Some (Peer (fst x) (snd x) Demoting)) ->
  count_joint r = Z.of_nat (length P + length D) ->
  P ++ D <> [] ->
  (exists p, lk (peers r) (leader r) = Some p /\ (prole p = Voter \/ prole p = Incoming)) ->
  let r' := set_peers r (map leave_role (peers r)) (count_joint r) in
  (forall rest, plan_check g r (ChangePeerV2Leave P D :: rest) = plan_check g r' rest) /\ Inv g r' /\ NJ (peers r').
Proof.
  intros I HP HD Hcount Hne (lp & Hlp & Hlrole) r'. destruct I as [Hnd Hld Ho Hn].
  assert (Hnd' : ND (peers r')) by (apply ND_map; [intros q; apply leave_role_store|exact Hnd]).
  assert (Hlk' : forall s, lk (peers r') s = option_map leave_role (lk (peers r) s)).
  { intros s. unfold r'; cbn [peers set_peers]. apply lk_map. intros q. apply leave_role_store. }
  assert (Hvo : voters_old (peers r') = voters_new (peers r)).
  { unfold r', voters_old, voters_new; cbn [peers set_peers]. rewrite countb_map. apply countb_ext. intros q _.
    unfold leave_role. destruct (prole q) eqn:E; unfold old_voter, new_voter; cbn [prole]; rewrite ?E; reflexivity. }
  assert (Hvn : voters_new (peers r') = voters_new (peers r)).
  { unfold r', voters_new; cbn [peers set_peers]. rewrite countb_map. apply countb_ext. intros q _.
    unfold leave_role. destruct (prole q) eqn:E; unfold new_voter; cbn [prole]; rewrite ?E; reflexivity. }
  assert (Hld' : LeaderOK r').
  { exists (leave_role lp). split; [change (leader r') with (leader r); rewrite Hlk', Hlp; reflexivity|].
    destruct lp as [ls li lro]; cbn in Hlrole |- *. destruct Hlrole; subst lro; reflexivity. }
  assert (Hjoint : is_in_joint r = true).
  { unfold is_in_joint. apply existsb_exists. destruct P as [|x P'].
    - destruct D as [|x D']; [contradiction Hne; reflexivity|].
      exists (Peer (fst x) (snd x) Demoting). split; [|reflexivity]. apply (lk_Some _ _ _ (HD x (or_introl eq_refl))).
    - exists (Peer (fst x) (snd x) Incoming). split; [|reflexivity]. apply (lk_Some _ _ _ (HP x (or_introl eq_refl))). }
  assert (I' : Inv g r') by (constructor; auto; lia).
  split; [|split; [exact I'|unfold r'; cbn; apply NJ_leave]].
  assert (Hnf : is_finish r (ChangePeerV2Leave P D) = false).
  { cbn [is_finish]. rewrite Hjoint. cbn [negb]. rewrite andb_false_r. reflexivity. }
  assert (Hsafe : check_safety r (ChangePeerV2Leave P D) = None).
  { cbn [check_safety].
    rewrite (scan_pairs_in r leave_promote_cls false P false false false).
    2:{ intros x Hx. eexists. split; [apply HP; exact Hx|]. cbn. repeat split; auto. discriminate. }
    rewrite (scan_pairs_in r leave_demote_cls true D).
    2:{ intros x Hx. eexists. split; [apply HD; exact Hx|]. cbn. repeat split; auto. intros _ C.
        (* a demoting peer on the leader's store would be the leader's peer *)
        rewrite <- C in Hlp. rewrite (HD x Hx) in Hlp. inversion Hlp; subst lp. cbn in Hlrole. destruct Hlrole; discriminate. }
    unfold joint_verdict. rewrite Hcount. rewrite Z.eqb_refl. cbn [negb andb orb].
    rewrite !andb_false_r. cbn. reflexivity. }
  assert (Happ : apply_cmd r (CChangePeerV2 []) = Some r').
  { unfold apply_cmd. rewrite Hjoint. cbn [negb]. unfold get_store_peer. fold (lk (peers r) (leader r)). rewrite Hlp.
    cbn [orole is_some]. destruct Hlrole as [-> | ->]; reflexivity. }
  assert (Hf : is_finish r' (ChangePeerV2Leave P D) = true).
  { cbn [is_finish]. apply andb_true_iff. split; [apply andb_true_iff; split|].
    - apply forallb_forall. intros x Hx. rewrite (get_store_voter_lk r' _ Hnd'), Hlk', (HP x Hx). cbn. rewrite Z.eqb_refl. reflexivity.
    - apply forallb_forall. intros x Hx. unfold dv_finished. rewrite (get_store_learner_lk r' _ Hnd'), Hlk', (HD x Hx). cbn.
      apply Z.eqb_refl.
    - unfold is_in_joint, r'; cbn [peers set_peers]. rewrite (NJ_not_joint _ (NJ_leave (peers r))). reflexivity. }
  apply plan_check_step; [|apply trans_ok_stay; [reflexivity|exact I']].
  split; [exact Hnf|split; [exact Hsafe|split; [eexists; split; [reflexivity|exact Happ]|exact Hf]]].
Qed.

Lemma pc_enter_empty g r rest : plan_check g r (ChangePeerV2Enter [] [] :: rest) = plan_check g r rest.
Proof. reflexivity. Qed.

Lemma pc_leave_empty g r rest : NJ (peers r) -> plan_check g r (ChangePeerV2Leave [] [] :: rest) = plan_check g r rest.
Proof.
  intros H. cbn [plan_check]. unfold exec_step. cbn [is_finish forallb andb]. unfold is_in_joint. rewrite (NJ_not_joint _ H). reflexivity.
Qed.
