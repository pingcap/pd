(* C07 — classifyVoterAndLearner sorts the voters and the learners with sort.Sort(peerSlice) (by peer id).  The model
   uses a stable insertion sort (what sort.Sort does below 12 elements).  When the peer ids of a region are distinct
   - they come from PD's id allocator - the result does not depend on the algorithm at all: it is THE sorted
   permutation.  So the model is faithful for any number of peers, relying only on the contract of sort.Sort
   (the result is a permutation of the input, sorted by Less). *)
From Coq Require Import Permutation Sorting.Sorted.
From PDV Require Import lib.Base lib.C07_Key model.C07_BTreeSpec model.C07_Region proof.C07_RegionProof.
Local Open Scope Z_scope.

Definition id_le (a b : peer) : Prop := p_id a <= p_id b.

Lemma ins_peer_in p l x : In x (ins_peer p l) <-> x = p \/ In x l.
Proof.
  induction l as [|y l IH]; cbn; [intuition|]. destruct (p_id p <? p_id y); cbn; [intuition|]. rewrite IH. intuition.
Qed.

Lemma ins_peer_sorted p l : StronglySorted id_le l -> StronglySorted id_le (ins_peer p l).
Proof.
  induction l as [|y l IH]; intros S; cbn; [constructor; [constructor|constructor]|].
  inversion S as [|? ? S' F]; subst. destruct (Z.ltb_spec (p_id p) (p_id y)) as [L|G].
  - constructor; [exact S|]. constructor; [unfold id_le; lia|].
    rewrite Forall_forall in *. intros z Hz. specialize (F z Hz). unfold id_le in *. lia.
  - constructor; [apply IH, S'|]. rewrite Forall_forall in *. intros z Hz. apply ins_peer_in in Hz as [->|Hz]; [unfold id_le; lia|auto].
Qed.

Theorem sort_peers_sorted l : StronglySorted id_le (sort_peers l).
Proof.
  unfold sort_peers. assert (G : forall acc, StronglySorted id_le acc -> StronglySorted id_le (fold_left (fun acc p => ins_peer p acc) l acc)).
  { induction l as [|p l IH]; intros acc S; cbn; [exact S|]. apply IH, ins_peer_sorted, S. }
  apply G. constructor.
Qed.

Lemma sorted_perm_unique (l1 : list peer) : forall l2,
  NoDup (map p_id l1) -> StronglySorted id_le l1 -> StronglySorted id_le l2 -> Permutation l1 l2 -> l1 = l2.
Proof.
  induction l1 as [|a r1 IH]; intros l2 N S1 S2 P.
  - apply Permutation_nil in P. congruence.
  - destruct l2 as [|b r2]; [apply Permutation_sym, Permutation_nil in P; discriminate|].
    inversion S1 as [|? ? S1' F1]; subst. inversion S2 as [|? ? S2' F2]; subst. inversion N as [|? ? NA N']; subst.
    assert (E : a = b).
    { assert (Hb : In b (a :: r1)) by (eapply Permutation_in; [apply Permutation_sym, P|left; reflexivity]).
      assert (Ha : In a (b :: r2)) by (eapply Permutation_in; [exact P|left; reflexivity]).
      destruct Hb as [E|Hb]; [exact E|]. destruct Ha as [E|Ha]; [auto|].
      rewrite Forall_forall in F1, F2. pose proof (F1 b Hb) as L1. pose proof (F2 a Ha) as L2. unfold id_le in *.
      exfalso. apply NA. assert (EQ : p_id a = p_id b) by lia. rewrite EQ. apply in_map, Hb. }
    subst b. f_equal. apply IH; auto. eapply Permutation_cons_inv; eauto.
Qed.
