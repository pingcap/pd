(* C09 — the state of the controller model (model/C09_OpCtl.v): association lists, the operator table, and the
   frame relation: what every function of the controller guarantees about the state it returns.  The functions
   themselves, the events and the histories are in proof/C09_LeftProof.v. *)
From PDV Require Import lib.Base model.C08_Steps model.C09_OpCtl proof.C09_StatusProof.
Local Open Scope Z_scope.

Lemma alist_get_In {A} (l : list (Z * A)) k v : alist_get l k = Some v -> In (k, v) l.
Proof.
  unfold alist_get. destruct (find (fun e => fst e =? k) l) as [e|] eqn:E; [|discriminate].
  intros H; inversion H; subst. apply find_some in E as [E1 E2]. apply Z.eqb_eq in E2.
  destruct e as [k' v']; cbn in *; subst; exact E1.
Qed.

Lemma alist_get_None {A} (l : list (Z * A)) k v : alist_get l k = None -> ~ In (k, v) l.
Proof.
  unfold alist_get. destruct (find (fun e => fst e =? k) l) eqn:E; [discriminate|]. intros _ Hin.
  pose proof (find_none _ _ E _ Hin) as N. cbn in N. rewrite Z.eqb_refl in N. discriminate.
Qed.

Lemma alist_unique {A} (l : list (Z * A)) k v v' :
  NoDup (map fst l) -> In (k, v) l -> alist_get l k = Some v' -> v = v'.
Proof.
  unfold alist_get. induction l as [|[k0 v0] r IH]; cbn; intros Hnd Hin Hget; [contradiction|].
  inversion Hnd as [|? ? Hn Hd]; subst. destruct (k0 =? k) eqn:E.
  - apply Z.eqb_eq in E; subst k0. inversion Hget; subst v'. destruct Hin as [Hin|Hin]; [congruence|].
    exfalso. apply Hn. apply in_map_iff. exists (k, v). auto.
  - destruct Hin as [Hin|Hin]; [inversion Hin; subst; rewrite Z.eqb_refl in E; discriminate|]. apply IH; auto.
Qed.

Lemma alist_del_In {A} (l : list (Z * A)) k x : In x (alist_del l k) <-> In x l /\ fst x <> k.
Proof. unfold alist_del. rewrite filter_In, negb_true_iff, Z.eqb_neq. reflexivity. Qed.

Lemma alist_del_keys {A} (l : list (Z * A)) k : NoDup (map fst l) -> NoDup (map fst (alist_del l k)).
Proof.
  unfold alist_del. induction l as [|x r IH]; cbn; intros H; [constructor|].
  inversion H as [|? ? Hn Hd]; subst. destruct (negb (fst x =? k)); cbn; [|auto].
  constructor; [|auto]. intros C. apply Hn. apply in_map_iff in C as (y & Hy & Hin).
  apply filter_In in Hin as [Hin _]. apply in_map_iff. exists y. auto.
Qed.

Lemma alist_get_del {A} (l : list (Z * A)) k k' : alist_get (alist_del l k) k' = if k =? k' then None else alist_get l k'.
Proof.
  unfold alist_get, alist_del. induction l as [|x r IH]; cbn [filter find]; [destruct (k =? k'); reflexivity|].
  destruct (fst x =? k) eqn:E; cbn [negb find].
  - apply Z.eqb_eq in E. rewrite IH, E. destruct (k =? k'); reflexivity.
  - destruct (fst x =? k') eqn:E'; [|exact IH]. apply Z.eqb_eq in E'. rewrite <- E', Z.eqb_sym, E. reflexivity.
Qed.

Lemma alist_set_In {A} (l : list (Z * A)) k v x : In x (alist_set l k v) -> x = (k, v) \/ In x l.
Proof. unfold alist_set. intros [H|H]; [left; auto|right; apply alist_del_In in H; tauto]. Qed.

Lemma alist_set_keys {A} (l : list (Z * A)) k v : NoDup (map fst l) -> NoDup (map fst (alist_set l k v)).
Proof.
  intros H. unfold alist_set. cbn. constructor; [|apply alist_del_keys; exact H].
  intros C. apply in_map_iff in C as (y & Hy & Hin). apply alist_del_In in Hin as [_ Hne]. congruence.
Qed.

Lemma alist_get_set {A} (l : list (Z * A)) k v k' : alist_get (alist_set l k v) k' = if k =? k' then Some v else alist_get l k'.
Proof.
  pose proof (alist_get_del l k k') as D. unfold alist_get, alist_set in *. cbn [find fst].
  destruct (k =? k'); [reflexivity|exact D].
Qed.

Lemma get_op_id c id o : get_op c id = Some o -> o_id o = id.
Proof. unfold get_op. intros H. apply find_some in H as [_ H]. apply Z.eqb_eq in H. exact H. Qed.

Lemma find_put l o' id :
  find (fun o => o_id o =? id) (put_op l o') =
  option_map (fun x => if o_id x =? o_id o' then o' else x) (find (fun o => o_id o =? id) l).
Proof.
  unfold put_op. induction l as [|x r IH]; cbn [map find option_map]; [reflexivity|].
  destruct (o_id x =? o_id o') eqn:E.
  - assert (E' : o_id x = o_id o') by (apply Z.eqb_eq; exact E).
    replace (o_id o' =? id) with (o_id x =? id) by (rewrite E'; reflexivity).
    destruct (o_id x =? id) eqn:E2; cbn [option_map]; [rewrite E; reflexivity|exact IH].
  - destruct (o_id x =? id) eqn:E2; cbn [option_map]; [rewrite E; reflexivity|exact IH].
Qed.

Lemma get_set_op c o' id :
  get_op (set_op c o') id = option_map (fun x => if o_id x =? o_id o' then o' else x) (get_op c id).
Proof. unfold get_op, set_op, set_ops, upd; cbn [ops]. apply find_put. Qed.

(* writing back the operator that was read under id, moved along rel: it is found under id again, everybody else
   is found unchanged *)
Lemma get_op_update c id o o' : get_op c id = Some o -> rel o o' -> get_op (set_op c o') id = Some o'.
Proof.
  intros Ho R. rewrite get_set_op, Ho. cbn [option_map]. rewrite (rel_id _ _ R), Z.eqb_refl. reflexivity.
Qed.

Lemma set_op_rel c id o o' i x :
  get_op c id = Some o -> rel o o' -> get_op c i = Some x -> rel x (if o_id x =? o_id o' then o' else x).
Proof.
  intros Ho R Hx. destruct (o_id x =? o_id o') eqn:E; [|apply rel_refl].
  apply Z.eqb_eq in E. rewrite (rel_id _ _ R), (get_op_id _ _ _ Ho), (get_op_id _ _ _ Hx) in E. subst i.
  replace x with o by congruence. exact R.
Qed.

Lemma get_op_app c o id x : get_op c id = Some x -> get_op (set_ops c (ops c ++ [o])) id = Some x.
Proof.
  unfold get_op, set_ops, upd; cbn [ops]. induction (ops c) as [|y r IH]; cbn; [discriminate|]. destruct (o_id y =? id); auto.
Qed.

(* one running operator per region *)
Definition RInv (c : ctl) : Prop := NoDup (map fst (running c)).

Definition ops_fwd (c c' : ctl) : Prop :=
  forall id x, get_op c id = Some x -> exists x', get_op c' id = Some x' /\ rel x x'.
Definition ops_bwd (c c' : ctl) : Prop :=
  forall id x', get_op c' id = Some x' -> exists x, get_op c id = Some x /\ rel x x'.

(* the operator carries exactly the epoch of the region PD has cached *)
Definition epoch_ok (c : ctl) (rid id : Z) : Prop :=
  exists o r, get_op c id = Some o /\ o_rid o = rid /\ alist_get (cache c) rid = Some r
              /\ conf_ver r = o_cv o /\ rng r = o_ver o.

(* whoever is running afterwards was running before or carries the cached epoch *)
Definition adm (c c' : ctl) : Prop :=
  forall rid id, In (rid, id) (running c') -> In (rid, id) (running c) \/ epoch_ok c rid id.

(* every record is truthful: it names an existing operator of that region together with the end status that
   operator has (GetOperatorStatus of a region without running operator reports exactly this) *)
Definition Rec (c : ctl) : Prop :=
  forall rid id st, alist_get (records c) rid = Some (id, st) ->
    exists o, get_op c id = Some o /\ o_st o = st /\ is_end_status st = true /\ o_rid o = rid.

Record Frame (c c' : ctl) : Prop := {
  fr_cache : cache c' = cache c;
  fr_truth : truth c' = truth c;
  fr_maxw : max_waiting c' = max_waiting c;
  fr_fwd : ops_fwd c c';
  fr_bwd : ops_bwd c c';
  fr_rinv : RInv c -> RInv c';
  fr_adm : adm c c';
  fr_rec : Rec c -> Rec c';
  fr_keep : forall rid, alist_get (records c) rid <> None -> alist_get (records c') rid <> None
}.

Lemma ops_fwd_same c c' : ops c' = ops c -> ops_fwd c c'.
Proof. intros H id x Hx. exists x. unfold get_op in *. rewrite H. auto using rel_refl. Qed.

Lemma ops_fwd_trans a b c : ops_fwd a b -> ops_fwd b c -> ops_fwd a c.
Proof.
  intros F G id x Hx. destruct (F _ _ Hx) as (y & Hy & R1). destruct (G _ _ Hy) as (z & Hz & R2).
  exists z. split; [exact Hz|eapply rel_trans; eauto].
Qed.

Lemma Rec_fwd c c' : ops_fwd c c' -> records c' = records c -> Rec c -> Rec c'.
Proof.
  intros F E Rc rid id st Hr. rewrite E in Hr. destruct (Rc _ _ _ Hr) as (x & Hx & Hst & Hend & Hrid).
  destruct (F _ _ Hx) as (x' & Hx' & R). exists x'. subst st.
  rewrite (rel_end _ _ R Hend), (rel_rid _ _ R). auto.
Qed.

Lemma Frame_refl c : Frame c c.
Proof.
  constructor; auto; unfold ops_fwd, ops_bwd, adm; intros; eauto using rel_refl.
Qed.

Lemma epoch_ok_fwd c c' rid id : Frame c c' -> epoch_ok c rid id -> epoch_ok c' rid id.
Proof.
  intros F (o & r & Ho & Hr & Hc & E1 & E2). destruct (fr_fwd _ _ F _ _ Ho) as (o' & Ho' & R).
  destruct (rel_epoch _ _ R) as [R3 R4]. exists o', r. rewrite (fr_cache _ _ F), (rel_rid _ _ R). repeat split; congruence.
Qed.

Lemma epoch_ok_bwd c c' rid id : Frame c c' -> epoch_ok c' rid id -> epoch_ok c rid id.
Proof.
  intros F (o' & r & Ho & Hr & Hc & E1 & E2). destruct (fr_bwd _ _ F _ _ Ho) as (o & Ho' & R).
  destruct (rel_epoch _ _ R) as [R3 R4]. exists o, r. rewrite <- (fr_cache _ _ F), <- (rel_rid _ _ R). repeat split; congruence.
Qed.

Lemma Frame_trans a b c : Frame a b -> Frame b c -> Frame a c.
Proof.
  intros F G. constructor.
  - rewrite (fr_cache _ _ G). apply (fr_cache _ _ F).
  - rewrite (fr_truth _ _ G). apply (fr_truth _ _ F).
  - rewrite (fr_maxw _ _ G). apply (fr_maxw _ _ F).
  - apply (ops_fwd_trans _ _ _ (fr_fwd _ _ F) (fr_fwd _ _ G)).
  - intros id z Hz. destruct (fr_bwd _ _ G _ _ Hz) as (y & Hy & R2). destruct (fr_bwd _ _ F _ _ Hy) as (x & Hx & R1).
    exists x. split; [exact Hx|eapply rel_trans; eauto].
  - intros H. apply (fr_rinv _ _ G), (fr_rinv _ _ F), H.
  - intros rid id H. destruct (fr_adm _ _ G _ _ H) as [H1|H1].
    + apply (fr_adm _ _ F _ _ H1).
    + right. eapply epoch_ok_bwd; eauto.
  - intros H. apply (fr_rec _ _ G), (fr_rec _ _ F), H.
  - intros rid H. apply (fr_keep _ _ G), (fr_keep _ _ F), H.
Qed.

Lemma adm_same c c' : running c' = running c -> adm c c'.
Proof. intros H rid id Hin. left. rewrite <- H. exact Hin. Qed.

Lemma frame_same_ops c c' :
  cache c' = cache c -> truth c' = truth c -> max_waiting c' = max_waiting c -> ops c' = ops c -> records c' = records c ->
  (RInv c -> RInv c') -> adm c c' -> Frame c c'.
Proof.
  intros H1 H2 H3 H4 H7 H5 H6. constructor; auto.
  - apply ops_fwd_same, H4.
  - intros id x Hx. exists x. unfold get_op in *. rewrite <- H4. auto using rel_refl.
  - apply Rec_fwd; [apply ops_fwd_same, H4|exact H7].
  - intros rid H. rewrite H7. exact H.
Qed.

Lemma frame_running_del c k : Frame c (set_running c (alist_del (running c) k)).
Proof.
  apply frame_same_ops; auto.
  - unfold RInv, set_running, upd; cbn [running]. apply alist_del_keys.
  - intros rid id H. cbn in H. apply alist_del_In in H. tauto.
Qed.

Lemma frame_running_set c rid id : epoch_ok c rid id -> Frame c (set_running c (alist_set (running c) rid id)).
Proof.
  intros E. apply frame_same_ops; auto.
  - unfold RInv, set_running, upd; cbn [running]. apply alist_set_keys.
  - intros rid' id' H. cbn in H. apply alist_set_In in H as [H|H]; [inversion H; subst; right; exact E|left; exact H].
Qed.

Lemma frame_op_update c id o o' : get_op c id = Some o -> rel o o' -> Frame c (set_op c o').
Proof.
  intros Ho R. constructor; try reflexivity; auto.
  - intros i x Hx. rewrite get_set_op, Hx. eexists. split; [reflexivity|]. apply (set_op_rel c id o o' i x Ho R Hx).
  - intros i x' Hx'. rewrite get_set_op in Hx'. destruct (get_op c i) as [x|] eqn:Hx; [|discriminate].
    inv Hx'. exists x. split; [reflexivity|]. apply (set_op_rel c id o o' i x Ho R Hx).
  - apply adm_same. reflexivity.
  - apply Rec_fwd; [|reflexivity].
    intros i x Hx. rewrite get_set_op, Hx. eexists. split; [reflexivity|]. apply (set_op_rel c id o o' i x Ho R Hx).
Qed.

Lemma not_end_cancel s : is_end_status s = false -> valid_trans s CANCELED = true.
Proof. destruct s; vm_compute; intros H; try reflexivity; discriminate. Qed.

Lemma op_to_end_cancel o : is_end_status (o_st (fst (op_to o CANCELED))) = true.
Proof.
  destruct (is_end_status (o_st o)) eqn:E.
  - destruct (op_to_status o CANCELED) as [H|[_ H]]; rewrite H; [exact E|reflexivity].
  - unfold op_to. rewrite (not_end_cancel _ E). reflexivity.
Qed.

Definition put_record (c : ctl) (o : opr) : ctl :=
  upd c (truth c) (cache c) (ops c) (running c) (waiting c) (wcount c) (alist_set (records c) (o_rid o) (o_id o, o_st o)) (inbox c).

Lemma frame_record c id o : get_op c id = Some o -> is_end_status (o_st o) = true -> Frame c (put_record c o).
Proof.
  intros Ho He. constructor; try reflexivity; auto.
  - apply ops_fwd_same. reflexivity.
  - intros i x Hx. exists x. split; [exact Hx|apply rel_refl].
  - apply adm_same. reflexivity.
  - intros Rc rid i st Hr. cbn [records put_record upd] in Hr. rewrite alist_get_set in Hr.
    destruct (o_rid o =? rid) eqn:E.
    + apply Z.eqb_eq in E. inv Hr. exists o. rewrite (get_op_id _ _ _ Ho). auto.
    + apply (Rc _ _ _ Hr).
  - intros rid H. cbn [records put_record upd]. rewrite alist_get_set. destruct (o_rid o =? rid); [discriminate|exact H].
Qed.

(* a non-end status is cancelled first; the record keeps the status at that moment *)
Lemma bury_eq c id o : get_op c id = Some o ->
  exists o', rel o o' /\ is_end_status (o_st o') = true /\ bury c id = put_record (set_op c o') o'.
Proof.
  intros Ho. unfold bury. rewrite Ho. destruct (op_is_end o) eqn:E; eexists; (split; [|split; [|reflexivity]]).
  - apply rel_refl.
  - exact E.
  - apply rel_op_to.
  - apply op_to_end_cancel.
Qed.

Lemma cancel_eq c id o : get_op c id = Some o -> cancel c id = set_op c (fst (op_to o CANCELED)).
Proof. unfold cancel. intros ->. reflexivity. Qed.

(* removeOperatorLocked takes the entry of the operator's region out iff it names this operator; the table stays *)
Lemma remove_locked_cases c o :
  remove_locked c o = (set_running c (alist_del (running c) (o_rid o)), true) /\ alist_get (running c) (o_rid o) = Some (o_id o)
  \/ remove_locked c o = (c, false).
Proof.
  unfold remove_locked. destruct (alist_get (running c) (o_rid o)) as [i|]; [|auto].
  destruct (i =? o_id o) eqn:E; [|auto]. apply Z.eqb_eq in E. subst i. auto.
Qed.

Lemma remove_locked_hit c o :
  alist_get (running c) (o_rid o) = Some (o_id o) -> remove_locked c o = (set_running c (alist_del (running c) (o_rid o)), true).
Proof. unfold remove_locked. intros ->. rewrite Z.eqb_refl. reflexivity. Qed.
