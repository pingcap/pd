(* C15 — LoadMinServiceGCSafePoint at the granularity of its single storage operations (model: scan_x / load_min_x /
   svc_update_x): REST deletes between any two of them, a failing LoadRange, a failing or half-failing repair save, failing
   Removes (whose error the code ignores), a failing (re)creation of gc_worker's entry; and the same for the whole
   UpdateServiceGCSafePoint.  Whatever happens: the cluster safe point is untouched, the store stays well-formed,
   gc_worker's never-expiring entry stays, and an answered minimum is a lower bound of every live registration.
   (What is lost under a failing Remove is only "nothing expired is left": the entry stays until a later call.) *)
From Coq Require Import String.
From PDV Require Import lib.Base lib.Skel lib.C15_Guard gen.Gen_C15 model.C15_Gc proof.C15_GcProof.
Local Open Scope Z_scope.

Lemma rest_dels_wf d : forall st, wf_svcs (svcs st) -> wf_svcs (svcs (rest_dels d st)).
Proof.
  induction d as [|k r IH]; intros st H; cbn [rest_dels]; [exact H|]. apply IH. destruct (k =? 0); [exact H | apply wf_remove; exact H].
Qed.

Lemma rest_dels_sub d : forall st k e, sv_get k (svcs (rest_dels d st)) = Some e -> sv_get k (svcs st) = Some e.
Proof.
  induction d as [|x r IH]; intros st k e H; cbn [rest_dels] in H; [exact H|]. apply IH in H.
  destruct (x =? 0); [exact H|]. rewrite get_remove in H. destruct (k =? x); [discriminate|exact H].
Qed.

Lemma rest_dels_get0 d : forall st, sv_get 0 (svcs (rest_dels d st)) = sv_get 0 (svcs st).
Proof.
  induction d as [|x r IH]; intros st; cbn [rest_dels]; [reflexivity|]. rewrite IH.
  destruct (Z.eqb_spec x 0); [reflexivity|]. rewrite get_remove. destruct (Z.eqb_spec 0 x); [congruence|reflexivity].
Qed.

Lemma rest_dels_gcw d st : gcw_ok (svcs st) -> gcw_ok (svcs (rest_dels d st)).
Proof. unfold gcw_ok. rewrite rest_dels_get0. auto. Qed.

Definition lower_bound (now m : Z) (st : store) : Prop :=
  forall k e, sv_get k (svcs st) = Some e -> now <= e_exp e -> m <= e_sp e.

(* what holds of the store after an answer m whatever failed on the way: m may be told to anybody *)
Definition sound (now m : Z) (st : store) : Prop :=
  wf_svcs (svcs st) /\ lower_bound now m st /\ gcw_ok (svcs st).

Lemma sound_load_min now st st' mn :
  wf_svcs (svcs st) -> now <= maxI64 -> load_min now st = (st', mn) -> sound now (e_sp mn) st'.
Proof.
  intros Hwf Hnow H. pose proof (load_min_post _ _ _ _ Hwf Hnow H) as P.
  split; [apply (lm_wf _ _ _ _ P)|]. split; [|apply (lm_gcw _ _ _ _ P)].
  intros k e Hg _. eapply (lm_min _ _ _ _ P); eauto.
Qed.

Lemma sound_dels now m d st : sound now m st -> sound now m (rest_dels d st).
Proof.
  intros (H1 & H2 & H3). split; [apply rest_dels_wf; exact H1|split; [|apply rest_dels_gcw; exact H3]].
  intros k e Hg Hl. apply rest_dels_sub in Hg. eapply H2; eauto.
Qed.

Lemma sound_save now m i e st :
  sound now m st -> is_clean i = true -> e_text e = text_of i -> m <= e_sp e -> 0 <= e_sp e ->
  (e_text e = TGcw -> e_exp e = maxI64) -> sound now m (st_save (key_of i) e st).
Proof.
  intros (Hwf & Hall & Hg) Hc Ht Hm Hp Hinf.
  split; [apply wf_save; [exact Hwf|exact Hp|]; intros n Hk Hx; rewrite Ht in Hx; eapply key_text_ok; eauto|].
  split; [|apply gcw_save; assumption].
  intros k e' H Hl. rewrite get_save in H. destruct (key_of i) as [|n|]; try (eapply Hall; eauto; fail).
  destruct (Z.eqb_spec k n); [inversion H; subst; exact Hm | eapply Hall; eauto].
Qed.

Lemma svc_tail_sound st1 mn i ttl sp now d o :
  sound now (e_sp mn) st1 -> 0 <= sp -> now <= maxI64 ->
  let res := svc_tail st1 mn i ttl sp now d o in
  wf_svcs (svcs (fst res)) /\ gcw_ok (svcs (fst res)) /\ forall r, snd res = Some r -> lower_bound now (r_sp r) (fst res).
Proof.
  intros S1 Hsp Hnow. cbv zeta. unfold svc_tail.
  assert (Hout : forall m y rr, sound now m y -> r_sp rr = m ->
            wf_svcs (svcs y) /\ gcw_ok (svcs y) /\ (forall r, Some rr = Some r -> lower_bound now (r_sp r) y)).
  { intros m y rr (A & B & C) Hrr. split; [exact A|split; [exact C|]]. intros r Hr. inversion Hr; subst. exact B. }
  assert (Hnone : forall m y, sound now m y ->
            wf_svcs (svcs y) /\ gcw_ok (svcs y) /\ (forall r, @None resp = Some r -> lower_bound now (r_sp r) y)).
  { intros m y (A & B & C). split; [exact A|split; [exact C|intros r Hr; discriminate]]. }
  destruct ((0 <? ttl) && (e_sp mn <=? sp)) eqn:Eg; [|apply (Hout _ _ _ S1); reflexivity].
  apply andb_true_iff in Eg as [_ El]. apply Z.leb_le in El.
  destruct (save_service i _ st1) as [stx|] eqn:Es; [|apply (Hnone _ _ S1)].
  apply save_service_spec in Es as (_ & Hinf & Hok). cbn [e_text e_exp] in Hinf.
  pose proof (sound_dels now (e_sp mn) d st1 S1) as S1'.
  assert (S2 : sound now (e_sp mn) (st_save (key_of i) (Entry (text_of i) (exp_of now ttl) sp) (rest_dels d st1))).
  { apply sound_save; cbn [e_text e_exp e_sp]; auto. }
  destruct o; cbn [fst snd]; [|apply (Hnone _ _ S1')|apply (Hnone _ _ S2)].
  destruct (text_eqb (text_of i) (e_text mn)); [|apply (Hout _ _ _ S2); reflexivity].
  match goal with |- context [load_min now ?y] => destruct (load_min now y) as [st3 mn'] eqn:E3 end.
  apply (Hout _ _ _ (sound_load_min now _ st3 mn' (proj1 S2) Hnow E3)). reflexivity.
Qed.

Lemma scan_x_cons env now k e r st has mn :
  scan_x env now ((k, e) :: r) st has mn =
    let st0 := rest_dels (pre_dels (env k)) st in
    let go st1 :=
      if e_exp (repair e) <? now
      then scan_x env now r (match rem_o (env k) with ErrNotApplied => st1 | _ => st_remove (KSvc k) st1 end) (has || is_gcw (e_text e)) mn
      else scan_x env now r st1 (has || is_gcw (e_text e)) (if e_sp (repair e) <? min_sp mn then Some (repair e) else mn) in
    if is_gcw (e_text e) && negb (e_exp e =? maxI64) then
      match rep_o (env k) with
      | Ok => go (st_save (KSvc 0) (repair e) st0)
      | ErrNotApplied => (st0, None)
      | ErrApplied => (st_save (KSvc 0) (repair e) st0, None)
      end
    else go st0.
Proof. reflexivity. Qed.

Lemma scan_x_quiet now : forall es st has mn,
  scan_x (fun _ => quiet_step) now es st has mn
  = (fst (fst (scan now es st has mn)), Some (snd (fst (scan now es st has mn)), snd (scan now es st has mn))).
Proof.
  induction es as [|[k e] r IH]; intros st has mn; [reflexivity|].
  rewrite scan_cons, scan_x_cons. cbn [quiet_step pre_dels rep_o rem_o rest_dels]. cbv zeta.
  destruct (is_gcw (e_text e) && negb (e_exp e =? maxI64)); destruct (e_exp (repair e) <? now); apply IH.
Qed.

Lemma load_min_x_quiet now st : load_min_x quiet_env now st = (fst (load_min now st), Some (snd (load_min now st))).
Proof.
  unfold load_min_x, load_min. cbn [lr_o quiet_env at_key init_o].
  destruct (svcs st) as [|x r] eqn:E; [reflexivity|].
  rewrite scan_x_quiet. destruct (scan now (x :: r) st false None) as [[st1 has] mn]. cbn [fst snd].
  destruct mn as [m|]; [destruct has|]; reflexivity.
Qed.

Lemma svc_update_x_quiet st i ttl sp now d o :
  svc_update_x st i ttl sp now quiet_env d o = svc_update_il st i ttl sp now d o.
Proof.
  unfold svc_update_x, svc_update_il.
  destruct (if ttl <=? 0 then remove_service i st else Some st) as [st0|]; [|reflexivity].
  rewrite load_min_x_quiet. destruct (load_min now st0) as [st1 mn]. reflexivity.
Qed.

Lemma scan_x_acc env now : forall es st has mn st' has' mn',
  scan_x env now es st has mn = (st', Some (has', mn')) ->
  forall st0, snd (fst (scan now es st0 has mn)) = has' /\ snd (scan now es st0 has mn) = mn'.
Proof.
  induction es as [|[k e] r IH]; intros st has mn st' has' mn' H st0.
  - cbn in H. inversion H; subst. auto.
  - rewrite scan_cons. rewrite scan_x_cons in H. cbv zeta in H.
    destruct (is_gcw (e_text e) && negb (e_exp e =? maxI64)); [destruct (rep_o (env k)); try discriminate|];
      destruct (e_exp (repair e) <? now); eapply IH; exact H.
Qed.

(* every entry is an entry of the snapshot S0, possibly repaired: nothing new appears *)
Definition derived (S0 : list (Z * entry)) (st : store) : Prop :=
  forall k e, sv_get k (svcs st) = Some e -> exists e0, sv_get k S0 = Some e0 /\ (e = e0 \/ e = repair e0).

Lemma derived_dels S0 d st : derived S0 st -> derived S0 (rest_dels d st).
Proof. intros H k e Hg. apply rest_dels_sub in Hg. apply H; exact Hg. Qed.

Lemma derived_remove S0 k st : derived S0 st -> derived S0 (st_remove k st).
Proof.
  intros H x e Hg. rewrite get_remove in Hg. destruct k as [|n|]; try (apply H; exact Hg).
  destruct (x =? n); [discriminate|apply H; exact Hg].
Qed.

Section ScanX.
  Variables (env : Z -> lm_step) (now : Z) (S0 : list (Z * entry)).
  Hypothesis HwfS0 : wf_svcs S0.

  (* a store on the way from st0 through the loop: well-formed, nothing new in it, the cluster key as in st0 *)
  Definition on_the_way (st0 y : store) : Prop := wf_svcs (svcs y) /\ derived S0 y /\ gc y = gc st0.

  Lemma otw_dels st0 d y : on_the_way st0 y -> on_the_way st0 (rest_dels d y).
  Proof. intros (A & B & C). split; [apply rest_dels_wf; exact A|]. split; [apply derived_dels; exact B|]. rewrite rest_dels_gc. exact C. Qed.

  Lemma otw_remove st0 k y : on_the_way st0 y -> on_the_way st0 (st_remove (KSvc k) y).
  Proof. intros (A & B & C). split; [apply wf_remove; exact A|]. split; [apply derived_remove; exact B|exact C]. Qed.

  Lemma otw_repair st0 e y : sv_get 0 S0 = Some e -> on_the_way st0 y -> on_the_way st0 (st_save (KSvc 0) (repair e) y).
  Proof using HwfS0.
    intros He (A & B & C). split; [|split; [|exact C]].
    - apply wf_save; [exact A | rewrite repair_sp; destruct HwfS0 as [_ Hw]; apply (Hw _ _ He) | intros n Hn _; inversion Hn; reflexivity].
    - intros x e' Hg. rewrite get_save in Hg. destruct (Z.eqb_spec x 0) as [->|Hne]; [|apply B; exact Hg].
      inversion Hg; subst. exists e. auto.
  Qed.

  Lemma scan_x_inv st0 : forall es y has mn,
    (forall k e, In (k, e) es -> sv_get k S0 = Some e) ->
    on_the_way st0 y -> on_the_way st0 (fst (scan_x env now es y has mn)).
  Proof using HwfS0.
    induction es as [|[k e] r IH]; intros y has mn Hes Hy; [exact Hy|]. rewrite scan_x_cons. cbv zeta.
    assert (Hr : forall k' e', In (k', e') r -> sv_get k' S0 = Some e') by (intros; apply Hes; right; assumption).
    assert (He : sv_get k S0 = Some e) by (apply Hes; left; reflexivity).
    pose proof (otw_dels st0 (pre_dels (env k)) y Hy) as H0.
    assert (Hgo : forall y1 h m, on_the_way st0 y1 ->
              on_the_way st0 (fst (if e_exp (repair e) <? now
                then scan_x env now r (match rem_o (env k) with ErrNotApplied => y1 | _ => st_remove (KSvc k) y1 end) h m
                else scan_x env now r y1 h (if e_sp (repair e) <? min_sp m then Some (repair e) else m)))).
    { intros y1 h m H1. destruct (e_exp (repair e) <? now); apply IH; auto. destruct (rem_o (env k)); auto using otw_remove. }
    destruct (is_gcw (e_text e) && negb (e_exp e =? maxI64)) eqn:Ef; [|apply Hgo; exact H0].
    (* the repair save of a finite gc_worker entry, which sits under gc_worker's key *)
    assert (Hk : k = 0).
    { apply andb_true_iff in Ef as [Ef _]. apply is_gcw_true in Ef. destruct HwfS0 as [_ Hw]. apply (Hw _ _ He). exact Ef. }
    subst k. pose proof (otw_repair st0 e _ He H0) as H1.
    destruct (rep_o (env 0)); cbn [fst]; [apply Hgo; exact H1|exact H0|exact H1].
  Qed.

  Lemma scan_x_keeps_gcw g : e_text g = TGcw -> e_exp g = maxI64 -> now <= maxI64 ->
    forall es st has mn,
    (forall k e, In (k, e) es -> sv_get k S0 = Some e) -> sv_get 0 S0 = Some g ->
    sv_get 0 (svcs st) = Some g ->
    sv_get 0 (svcs (fst (scan_x env now es st has mn))) = Some g.
  Proof.
    intros Hgt Hge Hnow. induction es as [|[k e] r IH]; intros st has mn Hes H0 Hst; [exact Hst|].
    cbn [scan_x]. cbv zeta.
    assert (Hr : forall k' e', In (k', e') r -> sv_get k' S0 = Some e') by (intros; apply Hes; right; assumption).
    assert (He : sv_get k S0 = Some e) by (apply Hes; left; reflexivity).
    assert (Hst0 : sv_get 0 (svcs (rest_dels (pre_dels (env k)) st)) = Some g) by (rewrite rest_dels_get0; exact Hst).
    set (st0 := rest_dels (pre_dels (env k)) st) in *.
    assert (Hnofix : is_gcw (e_text e) && negb (e_exp e =? maxI64) = false).
    { destruct (is_gcw (e_text e)) eqn:Eg; [|reflexivity]. apply is_gcw_true in Eg.
      destruct HwfS0 as [_ Hw]. destruct (Hw _ _ He) as [Hk _]. specialize (Hk Eg). subst k.
      rewrite H0 in He. inversion He; subst. rewrite Hge, Z.eqb_refl. reflexivity. }
    rewrite Hnofix.
    destruct (e_exp e <? now) eqn:Eexp; [|apply IH; assumption].
    apply IH; [exact Hr | exact H0 |].
    assert (Hk0 : k <> 0).
    { intros ->. rewrite H0 in He. inversion He; subst. apply Z.ltb_lt in Eexp. lia. }
    destruct (rem_o (env k)); [| exact Hst0 |]; rewrite get_remove; destruct (Z.eqb_spec 0 k); congruence.
  Qed.
End ScanX.

(* LoadMin under faults, answered or not: the store stays well-formed, gc_worker's entry and the cluster key stay; an answer
   is a non-negative lower bound of what is live *)
Definition lmx_post (now : Z) (st : store) (res : store * option entry) : Prop :=
  wf_svcs (svcs (fst res)) /\ gcw_ok (svcs (fst res)) /\ gc (fst res) = gc st
  /\ forall m, snd res = Some m -> lower_bound now (e_sp m) (fst res) /\ 0 <= e_sp m.

Lemma init_gcw_x_post o v st now :
  wf_svcs (svcs st) -> 0 <= v -> now <= maxI64 -> gcw_ok (svcs st) -> lower_bound now v st ->
  lmx_post now st (init_gcw_x o v st).
Proof.
  intros Hwf Hv Hnow Hg Hlb. cbv zeta.
  assert (Hput : wf_svcs (svcs (fst (init_gcw v st))) /\ gcw_ok (svcs (fst (init_gcw v st)))
                 /\ lower_bound now v (fst (init_gcw v st))).
  { unfold lower_bound. cbn. split; [|split].
    - apply (wf_save (KSvc 0) (Entry TGcw maxI64 v) st Hwf Hv). intros n Hn _. inversion Hn; reflexivity.
    - exists (Entry TGcw maxI64 v). rewrite get_put. auto.
    - intros k e H Hl. rewrite get_put in H. destruct (k =? 0); [inversion H; subst; cbn; lia|eapply Hlb; eauto]. }
  destruct Hput as (P1 & P2 & P3).
  destruct o; cbn [init_gcw_x fst snd].
  - split; [exact P1|split; [exact P2|split; [reflexivity|]]]. intros m Hm. inversion Hm; subst. cbn [snd init_gcw e_sp]. split; [exact P3|exact Hv].
  - split; [exact Hwf|split; [exact Hg|split; [reflexivity|]]]. intros m Hm; discriminate.
  - split; [exact P1|split; [exact P2|split; [reflexivity|]]]. intros m Hm; discriminate.
Qed.

Lemma load_min_x_post x now st :
  wf_svcs (svcs st) -> gcw_ok (svcs st) -> now <= maxI64 ->
  lmx_post now st (load_min_x x now st).
Proof.
  intros Hwf Hg Hnow. cbv zeta. unfold load_min_x.
  destruct (lr_o x); try (cbn [fst snd]; split; [exact Hwf|split; [exact Hg|split; [reflexivity|intros m Hm; discriminate]]]).
  destruct Hg as (g & Hg0 & Hgt & Hge).
  destruct (svcs st) as [|y r] eqn:Ees; [cbn in Hg0; discriminate|]. rewrite <- Ees in *.
  pose proof Hwf as [Hs Hw].
  assert (Hin : forall k e, In (k, e) (svcs st) -> sv_get k (svcs st) = Some e) by (intros; apply sorted_in_get; assumption).
  assert (Hd0 : derived (svcs st) st) by (intros k e H; exists e; auto).
  destruct (scan_x_inv (at_key x) now (svcs st) Hwf st (svcs st) st false None Hin (conj Hwf (conj Hd0 eq_refl))) as (W1 & D1 & G1).
  pose proof (scan_x_keeps_gcw (at_key x) now (svcs st) Hwf g Hgt Hge Hnow (svcs st) st false None Hin Hg0 Hg0) as K1.
  destruct (scan_x (at_key x) now (svcs st) st false None) as [st1 [[has mn]|]] eqn:Escan; cbn [fst snd] in *.
  2:{ split; [exact W1|split; [exists g; auto|split; [exact G1|intros m Hm; discriminate]]]. }
  assert (Hgok1 : gcw_ok (svcs st1)) by (exists g; auto).
  destruct (scan_x_acc _ _ _ _ _ _ _ _ _ Escan st) as [Ehas Emn].
  destruct (scan now (svcs st) st false None) as [[stp hasp] mnp] eqn:Ep. cbn [fst snd] in Ehas, Emn. subst hasp mnp.
  destruct (scan_acc now _ _ _ _ _ _ _ Ep) as (Hhas & _ & Hall & Hwit).
  assert (Hlb : lower_bound now (min_sp mn) st1).
  { intros k e He Hl. destruct (D1 _ _ He) as (e0 & He0 & Hor).
    assert (Heff : eff now e0 = Some (repair e0) -> min_sp mn <= e_sp e).
    { intros Hf. pose proof (Hall _ _ _ (get_in _ _ _ He0) Hf) as Hle. destruct Hor as [->| ->]; [rewrite repair_sp in Hle|]; exact Hle. }
    apply Heff. unfold eff.
    destruct (is_gcw (e_text e0)) eqn:Eg0.
    - rewrite (repair_gcw_exp _ Eg0). destruct (Z.ltb_spec maxI64 now); [lia|reflexivity].
    - rewrite (repair_not_gcw _ Eg0) in *. destruct Hor as [->| ->]; destruct (Z.ltb_spec (e_exp e0) now); try reflexivity; lia. }
  assert (Hpos : forall m0, mn = Some m0 -> 0 <= e_sp m0).
  { intros m0 ->. destruct Hwit as [Hd|(k & e & e1 & Hi & Heff & Hd)]; [discriminate|]. inversion Hd; subst.
    apply eff_live in Heff as [_ ->]. rewrite repair_sp. apply (sorted_in_get _ Hs) in Hi. apply (Hw _ _ Hi). }
  assert (Hhas_true : has = true).
  { rewrite Hhas. cbn [orb]. apply existsb_exists. exists (0, g). split; [apply get_in; exact Hg0|]. cbn. rewrite Hgt. reflexivity. }
  clear Hhas. subst has. destruct mn as [m0|].
  - cbn [fst snd]. split; [exact W1|split; [exact Hgok1|split; [exact G1|]]].
    intros m Hm; inversion Hm; subst; split; [exact Hlb | apply Hpos; reflexivity].
  - assert (Hlb0 : lower_bound now 0 st1) by (intros k e He _; apply (proj2 W1 _ _ He)).
    destruct (init_gcw_x_post (init_o x) 0 st1 now W1 (Z.le_refl 0) Hnow Hgok1 Hlb0) as (A & B & C & D).
    split; [exact A|split; [exact B|split; [congruence|exact D]]].
Qed.

Lemma svc_update_x_post st i ttl sp now x d o :
  wf_svcs (svcs st) -> gcw_ok (svcs st) -> 0 <= sp -> now <= maxI64 ->
  let res := svc_update_x st i ttl sp now x d o in
  wf_svcs (svcs (fst res)) /\ gcw_ok (svcs (fst res)) /\ gc (fst res) = gc st
  /\ forall r, snd res = Some r -> lower_bound now (r_sp r) (fst res).
Proof.
  intros Hwf Hg Hsp Hnow. cbv zeta. rewrite svc_update_x_eq.
  destruct (if ttl <=? 0 then remove_service i st else Some st) as [st0|] eqn:E0.
  2:{ cbn [fst snd]. split; [exact Hwf|split; [exact Hg|split; [reflexivity|intros r Hr; discriminate]]]. }
  assert (Hg0 : gcw_ok (svcs st0)) by (destruct (ttl <=? 0); [eapply gcw_remove; eauto|inv E0; exact Hg]).
  destruct (load_min_x_post x now st0 (pre_remove_wf _ _ _ _ Hwf E0) Hg0 Hnow) as (W1 & K1 & G1 & L1).
  rewrite (pre_remove_gc i ttl st st0 E0) in G1.
  destruct (load_min_x x now st0) as [st1 [mn|]]; cbn [fst snd] in *.
  2:{ split; [exact W1|split; [exact K1|split; [exact G1|intros r Hr; discriminate]]]. }
  destruct (L1 mn eq_refl) as [Hlb _].
  destruct (svc_tail_sound st1 mn i ttl sp now d o (conj W1 (conj Hlb K1)) Hsp Hnow) as (A & B & C).
  split; [exact A|split; [exact B|split; [|exact C]]]. rewrite svc_tail_gc. exact G1.
Qed.
