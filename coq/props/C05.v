(* C05 — Local and global timestamps are mutually consistent.
   Statements with short derivations; the invariants are proved in proof/C05_Proof.v and proof/C05_JoinProof.v,
   structural obligations in proof/C05_Skel.v.

   A label list is one history: local requests of any dc with any counts, physical ticks of any
   allocator (arbitrary values: time-window updates), and the steps of the (serialized) Global
   request: estimate, the reads and writes of the SyncMaxTS handler one allocator at a time over all
   its rounds, the fall-back to the collected maximum, the persist and the answer.  Any number of
   dc-locations n >= 1, any initial memories.  A grant records (who, physical, raw logical, count,
   begin, end); the returned logical is  raw << bits + suffix  (suffix 0 for the Global allocator, d+1
   for dc number d).  `first g` is the first value of the range g, `val g` its last. *)
From Coq Require Import ZArith List.
From PDV Require Import lib.Base gen.Gen_C05 model.C05_TsoGlobal model.C05_Join proof.C05_Proof proof.C05_JoinProof proof.C05_Skel.
Import ListNotations.
Local Open Scope Z_scope.

Definition reach n b g0 l0 (ls : list label) : state := exec step (init n b g0 l0) ls.

(* a Global timestamp (all of its range) is greater than every Local timestamp whose request
   completed before the Global request began *)
Theorem C05_global_above_completed_locals :
  forall n b g0 l0 ls g l d, n <> 0%nat ->
    let s := reach n b g0 l0 ls in
    In g (grants s) -> In l (grants s) -> gwho g = WGlobal -> gwho l = WLocal d ->
    (gte l < gtb g)%nat -> tlt (val l) (first g).
Proof. intros n b g0 l0 ls g l d Hn s. apply (v_c1 _ (inv_exec n b g0 l0 ls Hn)). Qed.

(* every Local timestamp requested after a Global timestamp was returned is greater than it *)
Theorem C05_local_after_global_above :
  forall n b g0 l0 ls g l d, n <> 0%nat ->
    let s := reach n b g0 l0 ls in
    In g (grants s) -> In l (grants s) -> gwho g = WGlobal -> gwho l = WLocal d ->
    (gte g < gtb l)%nat -> tlt (val g) (first l).
Proof. intros n b g0 l0 ls g l d Hn s. apply (v_c2 _ (inv_exec n b g0 l0 ls Hn)). Qed.

(* Global timestamps are ordered by real time (in particular two Global ranges never overlap) *)
Theorem C05_global_ranges_ordered :
  forall n b g0 l0 ls g1 g2, n <> 0%nat ->
    let s := reach n b g0 l0 ls in
    In g1 (grants s) -> In g2 (grants s) -> gwho g1 = WGlobal -> gwho g2 = WGlobal ->
    (gte g1 < gtb g2)%nat -> tlt (val g1) (first g2).
Proof. intros n b g0 l0 ls g1 g2 Hn s. apply (v_c3 _ (inv_exec n b g0 l0 ls Hn)). Qed.

(* the raw order is the order of the returned timestamps, for any suffixes below 2^bits *)
Theorem C05_raw_order_is_returned_order :
  forall p1 r1 p2 r2 b s1 s2, 0 <= b -> 0 <= s1 < 2 ^ b -> 0 <= s2 < 2 ^ b ->
    tlt (p1, r1) (p2, r2) -> tlt (p1, differentiate r1 b s1) (p2, differentiate r2 b s2).
Proof.
  intros p1 r1 p2 r2 b s1 s2 Hb H1 H2 [H|[H Hr]]; cbn in *; [left; exact H|right; split; [exact H|]].
  cbn. apply differentiate_monotone; assumption.
Qed.

(* the client (client/client.go: firstLogical = addLogical(logical, -count+1, bits); i-th = addLogical(first, i, bits))
   hands out exactly the values of the server's range, suffix included *)
Theorem C05_client_batch_values :
  forall raw count b sfx i, 0 <= b ->
    add_logical (add_logical (differentiate raw b sfx) (- count + 1) b) i b = differentiate (raw - count + 1 + i) b sfx.
Proof. exact client_batch_value. Qed.

(* timestamps of different allocators are never equal, as long as both use the same suffix width *)
Theorem C05_cross_allocator_distinct_partial :
  forall r1 r2 b s1 s2, 0 <= b -> 0 <= s1 < 2 ^ b -> 0 <= s2 < 2 ^ b -> s1 <> s2 ->
    differentiate r1 b s1 <> differentiate r2 b s2.
Proof. intros r1 r2 b s1 s2 Hb H1 H2 Hne E. destruct (differentiate_injective _ _ _ _ _ Hb H1 H2 E). contradiction. Qed.

(* ... which the code only converges to: servers learn a new maximum suffix at different times *)
Definition C05_cross_allocator_distinct_full : Prop :=
  forall r1 r2 b1 b2 s1 s2, 0 <= b1 -> 0 <= b2 -> 0 <= s1 < 2 ^ b1 -> 0 <= s2 < 2 ^ b2 -> s1 <> s2 ->
    differentiate r1 b1 s1 <> differentiate r2 b2 s2.
Theorem C05_cross_allocator_distinct_full_refuted : ~ C05_cross_allocator_distinct_full.
Proof. intros H. apply (H 3 1 1 2 1 3); try lia. reflexivity. Qed.   (* dc-1 still at 1 bit: 3<<1+1 = 7 = 1<<2+3 : dc-3 at 2 bits *)

(* the suffix width reported with a timestamp is large enough for every suffix in use *)
Theorem C05_bits_cover_suffixes :
  forall max_suffix sfx, 0 <= sfx <= max_suffix -> sfx < 2 ^ cal_suffix_bits max_suffix.
Proof. exact bits_cover. Qed.

(* suffix assignment by one assigner at a time: a dc keeps its suffix, no two dcs share one, all are >= 1 *)
Theorem C05_suffix_stable_injective :
  forall dcs, let st := fold_left (fun st dc => fst (sfx_assign st dc)) dcs [] in
    sfx_ok st /\
    (forall dc dc' v, sfx_lookup st dc' = Some v -> sfx_lookup (fst (sfx_assign st dc)) dc' = Some v) /\
    (forall dc1 dc2 v, sfx_lookup st dc1 = Some v -> sfx_lookup st dc2 = Some v -> dc1 = dc2).
Proof.
  intros dcs st.
  assert (Hok : sfx_ok st).
  { subst st. assert (G : forall l s0, sfx_ok s0 -> sfx_ok (fold_left (fun st dc => fst (sfx_assign st dc)) l s0)).
    { induction l as [|d t IH]; intros s0 H0; cbn; [exact H0|apply IH, sfx_assign_ok, H0]. }
    apply G. split; [constructor|split; [constructor|intros q []]]. }
  split; [exact Hok|]. split; [intros; apply sfx_assign_stable; assumption|intros; eapply sfx_ok_injective; eauto].
Qed.

(* ---------------------------------------------------------------------------------------------------------
   Datacenters joining later, allocator leaders and the PD leadership moving (model/C05_Join.v): every member has
   its own idea of the suffix width (am.mu.maxSuffix); histories are lists of jlabel: the PD leader's checker
   meeting a dc (suffix assignment), a member's checker refreshing its width, an allocator leader starting on a
   member (first leader of a joined dc, or a move), a dc losing its leader, the PD leadership moving, Local
   answers, ticks and (atomic at this layer) Global answers. *)

(* different widths are harmless as long as both suffixes fit the smaller one ... *)
Theorem C05_distinct_when_suffixes_fit_smaller_width :
  forall r1 r2 b1 b2 s1 s2, 0 <= b1 -> 0 <= b2 -> 0 <= s1 < 2 ^ Z.min b1 b2 -> 0 <= s2 < 2 ^ Z.min b1 b2 -> s1 <> s2 ->
    differentiate r1 b1 s1 <> differentiate r2 b2 s2.
Proof. exact differentiate_distinct_fit. Qed.

(* ... and exactly then: equal values force the wider suffix to look like the other one in the narrow width, and such
   a suffix does collide *)
Theorem C05_equal_values_characterised :
  forall b1 b2 s1 s2, 0 <= b1 <= b2 -> 0 <= s1 < 2 ^ b1 -> 0 <= s2 ->
    ((exists r1 r2, differentiate r1 b1 s1 = differentiate r2 b2 s2) <-> s2 mod 2 ^ b1 = s1).
Proof.
  intros b1 b2 s1 s2 Hb H1 H2. split.
  - intros (r1 & r2 & E). eapply differentiate_eq_residue; eauto.
  - intros R. exists (0 * 2 ^ (b2 - b1) + s2 / 2 ^ b1), 0. apply differentiate_collision; assumption.
Qed.

(* an allocator leader that starts - a dc that joins, or a move - begins at or above the last Global timestamp
   handed out (GetMaxLocalTSO covers every led dc and the Global memory, pd 8ee38c4), so do all memories of led dcs at any time, and every Local answer lies
   above that Global timestamp at the raw level *)
Theorem C05_started_allocator_above_last_global :
  forall leader g0 ls dc m p s', jstep (jreach leader g0 ls) (JStart dc m p) = Some s' ->
    tle (jlastg s') (jl s' dc) /\ jhost s' dc = Some m.
Proof. intros leader g0 ls dc m p s'. apply start_above_last_global. apply jinv_exec. Qed.

Theorem C05_local_above_last_global_with_joins :
  forall leader g0 ls dc c s' r, jstep (jreach leader g0 ls) (JLocal dc c) = Some s' -> hd_error (jout s') = Some r ->
    tlt (jlastg (jreach leader g0 ls)) (jP r, jraw r - jcnt r + 1) /\ jwho r = Some dc.
Proof. intros leader g0 ls dc c s' r. apply local_above_last_global. apply jinv_exec. Qed.

(* the suffix width reported with an answer always covers the suffix used in that answer *)
Theorem C05_reported_width_covers_own_suffix :
  forall leader g0 ls r, In r (jout (jreach leader g0 ls)) -> 0 <= jsfx r < 2 ^ jw r.
Proof. intros leader g0 ls r. apply width_covers_own. apply jinv_exec. Qed.

(* while no serving member lags behind the largest suffix assigned: answers of different allocators differ whatever
   their raw logicals, the reported width covers every suffix, and a Local answer requested after a Global answer was
   returned is greater in the returned order (for that last clause it is enough that the answering member does not lag) *)
Theorem C05_no_lag_allocators_distinct :
  forall leader g0 ls, let s := jreach leader g0 ls in no_lag s ->
    (forall dc1 dc2 m1 m2 v1 v2 r1 r2, dc1 <> dc2 -> jhost s dc1 = Some m1 -> jhost s dc2 = Some m2 ->
       sfx_lookup (jstore s) dc1 = Some v1 -> sfx_lookup (jstore s) dc2 = Some v2 ->
       differentiate r1 (width_of s m1) v1 <> differentiate r2 (width_of s m2) v2) /\
    (forall dc m v r1 r2, jhost s dc = Some m -> sfx_lookup (jstore s) dc = Some v ->
       differentiate r1 (width_of s (jpdl s)) 0 <> differentiate r2 (width_of s m) v).
Proof.
  intros leader g0 ls s NL. pose proof (jinv_exec leader g0 ls) as I. split.
  - intros. eapply nolag_distinct_locals; eauto.
  - intros. eapply nolag_distinct_global_local; eauto.
Qed.

Theorem C05_no_lag_width_covers_every_suffix :
  forall leader g0 ls dc m dc' v', let s := jreach leader g0 ls in no_lag s ->
    jhost s dc = Some m -> sfx_lookup (jstore s) dc' = Some v' -> v' < 2 ^ width_of s m.
Proof. intros leader g0 ls dc m dc' v' s NL. apply nolag_width_covers_all; [apply jinv_exec | exact NL]. Qed.

Theorem C05_local_after_global_returned_with_joins :
  forall leader g0 ls g dc m c s' r, let s := jreach leader g0 ls in
    In g (jout s) -> jwho g = None -> 0 <= jraw g ->
    jhost s dc = Some m -> sfx_max (jstore s) <= jview s m ->
    jstep s (JLocal dc c) = Some s' -> hd_error (jout s') = Some r ->
    forall i, 0 <= i < jcnt r ->
    jP g < jP r \/ (jP g = jP r /\ jlogical g < differentiate (jraw r - i) (jw r) (jsfx r)).
Proof. intros leader g0 ls g dc m c s' r s. apply local_after_global_returned. apply jinv_exec. Qed.

(* A Global request in flight (JGBegin .. JGEnd, any labels in between) is inside the histories above.  A starting
   allocator reads the maximum it begins from under the same mutex as the Global request (syncMu, pd 9d1b437:
   jstep = jstep_gen true): the start waits for the request to end.  Without that exclusion (jstep_gen false) a dc
   that joins while a request is in flight hands out a Local timestamp below the Global answer
   returned before - the history the driver forces on the real cluster with a slow SyncMaxTS request. *)
Theorem C05_join_without_exclusion_breaks_local_after_global :
  let s := exec (jstep_gen false) (jinit 0 (5000, 0)) unexcluded_history in
  exists g r, nth_error (jout s) 1 = Some g /\ nth_error (jout s) 0 = Some r /\
    jwho g = None /\ jwho r = Some 2%nat /\ jP r = jP g /\ jraw r < jraw g /\ jlogical r < jlogical g.
Proof. eexists. eexists. vm_compute. repeat split; reflexivity. Qed.

Theorem C05_join_waits_for_global_request_in_flight :
  let s := exec jstep (jinit 0 (5000, 0)) [JCheckLeader 1; JStart 1 0 1000; JGlobal 1; JGBegin 3; JCheckLeader 2] in
  jstep s (JStart 2 0 1000) = None.
Proof. vm_compute. reflexivity. Qed.

(* without `no_lag` the three clauses of C05_no_lag_* and C05_local_after_global_returned_with_joins fail, on the history the driver's cluster phase runs against three real
   members (dc-4 and dc-5 join; the members serving dc-1..dc-3 have not refreshed their width yet): *)
Definition C05_allocators_distinct_with_joins : Prop :=
  forall leader g0 ls a b, In a (jout (jreach leader g0 ls)) -> In b (jout (jreach leader g0 ls)) ->
    who_eqb (jwho a) (jwho b) = false -> shares_value a b = false.
Theorem C05_allocators_distinct_with_joins_refuted : ~ C05_allocators_distinct_with_joins.
Proof.
  intros H. destruct lag_equal_timestamps as (a & b & Ha & Hb & Hw & Hs).
  rewrite (H 1%nat (1000, 0) cluster_history a b Ha Hb Hw) in Hs. discriminate.
Qed.

Definition C05_width_covers_every_suffix_with_joins : Prop :=
  forall leader g0 ls r v, In r (jout (jreach leader g0 ls)) -> In v (map snd (jstore (jreach leader g0 ls))) -> v < 2 ^ jw r.
Theorem C05_width_covers_every_suffix_with_joins_refuted : ~ C05_width_covers_every_suffix_with_joins.
Proof.
  intros H. destruct lag_width_too_small as (r & v & Hr & Hv & Hle).
  pose proof (H 1%nat (1000, 0) cluster_history r v Hr Hv) as H1. lia.
Qed.

Definition C05_local_after_global_greater_with_joins : Prop :=
  forall leader g0 ls i j g r, nth_error (jout (jreach leader g0 ls)) i = Some g -> nth_error (jout (jreach leader g0 ls)) j = Some r ->
    (j < i)%nat -> jwho g = None -> jwho r <> None -> jP g = jP r -> jlogical g < jlogical r.
Theorem C05_local_after_global_greater_with_joins_refuted : ~ C05_local_after_global_greater_with_joins.
Proof.
  intros H. destruct lag_local_below_earlier_global as (g & r & Hg & Hr & Wg & Wr & HP & Hlt).
  assert (Wr' : jwho r <> None) by (rewrite Wr; discriminate).
  pose proof (H 1%nat (1000, 0) cluster_history 3%nat 2%nat g r Hg Hr ltac:(lia) Wg Wr' HP) as H1. lia.
Qed.

(* the join history is non-vacuous for the positive theorems too: dc-4 starts one hour ahead, at the last Global answer *)
Example C05_join_history_values :
  let s := jreach 1 (1000, 0) cluster_history in
  (map (fun r => (jwho r, jP r, jraw r, jcnt r, jsfx r, jw r)) (jout s), jlastg s) =
  ([(Some 5%nat, 3601000, 27, 24, 5, 3); (Some 1%nat, 3601000, 28, 24, 1, 2); (Some 1%nat, 3601000, 4, 1, 1, 2);
    (None, 3601000, 3, 1, 0, 3); (Some 4%nat, 3601000, 2, 1, 4, 3); (None, 3601000, 1, 1, 0, 2); (None, 1000, 1, 1, 0, 2)],
   (3601000, 3)).
Proof. vm_compute. reflexivity. Qed.

(* non-vacuity: two dcs, locals ahead of the Global allocator, a Global batch of 3 *)
Example C05_nonvacuous :
  let ls := [LLocalGen 0 5; LLocalGen 1 2; LGBegin 3 0; LGRead; LGRead; LGDecide; LGNextPass; LGRead; LLocalGen 0 1; LGRead; LGDecide;
             LGWrite; LGWrite; LGNextPass; LGWrite; LGWrite; LGNextPass; LGWrite; LGWrite; LGNextPass; LGPersist; LGRespond; LLocalGen 1 1] in
  let s := reach 2 2 (100, 0) (fun _ => (100, 10)) ls in
  map (fun g => (gwho g, gP g, gL g, gcount g)) (grants s) =
  [(WLocal 1, 100, 20, 1); (WGlobal, 100, 19, 3); (WLocal 0, 100, 16, 1); (WLocal 1, 100, 12, 2); (WLocal 0, 100, 15, 5)].
Proof. vm_compute. reflexivity. Qed.

Print Assumptions C05_global_above_completed_locals.
Print Assumptions C05_local_after_global_above.
Print Assumptions C05_global_ranges_ordered.
Print Assumptions C05_raw_order_is_returned_order.
Print Assumptions C05_client_batch_values.
Print Assumptions C05_cross_allocator_distinct_partial.
Print Assumptions C05_cross_allocator_distinct_full_refuted.
Print Assumptions C05_bits_cover_suffixes.
Print Assumptions C05_suffix_stable_injective.
Print Assumptions C05_distinct_when_suffixes_fit_smaller_width.
Print Assumptions C05_equal_values_characterised.
Print Assumptions C05_started_allocator_above_last_global.
Print Assumptions C05_local_above_last_global_with_joins.
Print Assumptions C05_reported_width_covers_own_suffix.
Print Assumptions C05_no_lag_allocators_distinct.
Print Assumptions C05_no_lag_width_covers_every_suffix.
Print Assumptions C05_local_after_global_returned_with_joins.
Print Assumptions C05_allocators_distinct_with_joins_refuted.
Print Assumptions C05_width_covers_every_suffix_with_joins_refuted.
Print Assumptions C05_local_after_global_greater_with_joins_refuted.
Print Assumptions C05_join_without_exclusion_breaks_local_after_global.
Print Assumptions C05_join_waits_for_global_request_in_flight.
