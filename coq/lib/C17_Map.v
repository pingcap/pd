(* Finite maps Z -> V as strictly increasing association lists, with the range scan that kv.Base.LoadRange
   performs on zero-padded id keys (key order = id order).  Own library of property C17 (no axioms). *)
From Coq Require Import List ZArith Lia Bool Sorted.
Import ListNotations.
Local Open Scope Z_scope.

Section Map.
  Context {V : Type}.
  Definition amap := list (Z * V).

  Fixpoint lookup (m : amap) (k : Z) : option V :=
    match m with
    | [] => None
    | (k', v) :: r => if k =? k' then Some v else if k <? k' then None else lookup r k
    end.

  Fixpoint put (m : amap) (k : Z) (v : V) : amap :=
    match m with
    | [] => [(k, v)]
    | (k', v') :: r => if k =? k' then (k, v) :: r
                       else if k <? k' then (k, v) :: m
                       else (k', v') :: put r k v
    end.

  Fixpoint del (m : amap) (k : Z) : amap :=
    match m with
    | [] => []
    | (k', v') :: r => if k =? k' then r else if k <? k' then m else (k', v') :: del r k
    end.

  Definition keys (m : amap) : list Z := map fst m.

  (* all keys >= lo, strictly increasing *)
  Fixpoint sorted_from (lo : Z) (m : amap) : Prop :=
    match m with
    | [] => True
    | (k, _) :: r => lo <= k /\ sorted_from (k + 1) r
    end.
  Definition sorted (m : amap) : Prop := exists lo, sorted_from lo m.

  Lemma sorted_from_weaken lo lo' m : lo' <= lo -> sorted_from lo m -> sorted_from lo' m.
  Proof. destruct m as [|[k v] r]; cbn; [auto|]. intros H [H1 H2]; split; [lia|exact H2]. Qed.

  Lemma sorted_from_In lo m k v : sorted_from lo m -> In (k, v) m -> lo <= k.
  Proof.
    revert lo; induction m as [|[k' v'] r IH]; intros lo Hs Hin; [contradiction|].
    destruct Hs as [H1 H2]. destruct Hin as [E|Hin]; [inversion E; subst; exact H1|].
    specialize (IH (k' + 1) H2 Hin). lia.
  Qed.

  Lemma lookup_below lo m k : sorted_from lo m -> k < lo -> lookup m k = None.
  Proof.
    destruct m as [|[k' v'] r]; cbn; [reflexivity|]. intros [H1 _] Hk.
    destruct (k =? k') eqn:E; [lia|]. destruct (k <? k') eqn:E2; [reflexivity|lia].
  Qed.

  Lemma put_sorted lo m k v : sorted_from lo m -> sorted_from (Z.min lo k) (put m k v).
  Proof.
    revert lo; induction m as [|[k' v'] r IH]; intros lo Hs; cbn [put sorted_from].
    - split; [lia|exact I].
    - destruct Hs as [H1 H2]. destruct (k =? k') eqn:E.
      + apply Z.eqb_eq in E; subst. cbn [sorted_from]. split; [lia|exact H2].
      + destruct (k <? k') eqn:E2.
        * cbn [sorted_from]. split; [lia|]. split; [lia|exact H2].
        * cbn [sorted_from]. split; [lia|]. specialize (IH _ H2).
          eapply sorted_from_weaken; [|exact IH]. lia.
  Qed.

  Lemma del_sorted lo m k : sorted_from lo m -> sorted_from lo (del m k).
  Proof.
    revert lo; induction m as [|[k' v'] r IH]; intros lo Hs; cbn [del sorted_from]; [exact I|].
    destruct Hs as [H1 H2]. destruct (k =? k') eqn:E.
    - eapply sorted_from_weaken; [|exact H2]. lia.
    - destruct (k <? k'); cbn [sorted_from]; [split; assumption|]. split; [exact H1|]. apply IH. exact H2.
  Qed.

  Lemma lookup_put lo m k v j : sorted_from lo m ->
    lookup (put m k v) j = if j =? k then Some v else lookup m j.
  Proof.
    revert lo; induction m as [|[k' v'] r IH]; intros lo Hs; cbn [put lookup].
    - destruct (j =? k); [reflexivity|]. destruct (j <? k); reflexivity.
    - destruct Hs as [H1 H2]. destruct (Z.eqb_spec k k') as [<-|Hk]; [cbn [lookup]; destruct (j =? k); reflexivity|].
      destruct (Z.ltb_spec k k'); cbn [lookup]; [|rewrite (IH _ H2)];
        destruct (Z.eqb_spec j k), (Z.ltb_spec j k), (Z.eqb_spec j k'), (Z.ltb_spec j k'); try reflexivity; lia.
  Qed.

  Lemma lookup_del lo m k j : sorted_from lo m ->
    lookup (del m k) j = if j =? k then None else lookup m j.
  Proof.
    revert lo; induction m as [|[k' v'] r IH]; intros lo Hs; cbn [del lookup].
    - destruct (j =? k); reflexivity.
    - destruct Hs as [H1 H2]. destruct (Z.eqb_spec k k') as [<-|Hk].
      + destruct (Z.eqb_spec j k), (Z.ltb_spec j k); try reflexivity; apply (lookup_below _ _ _ H2); lia.
      + destruct (Z.ltb_spec k k'); cbn [lookup]; [|rewrite (IH _ H2)];
          destruct (Z.eqb_spec j k), (Z.eqb_spec j k'), (Z.ltb_spec j k'); try reflexivity; lia.
  Qed.

  Lemma lookup_head lo k v r : sorted_from lo ((k, v) :: r) -> lookup ((k, v) :: r) k = Some v.
  Proof. intros _. cbn. rewrite Z.eqb_refl. reflexivity. Qed.

  (* two sorted maps with the same lookup function are the same list *)
  Lemma sorted_ext : forall m1 m2 lo1 lo2, sorted_from lo1 m1 -> sorted_from lo2 m2 ->
    (forall k, lookup m1 k = lookup m2 k) -> m1 = m2.
  Proof.
    induction m1 as [|[k1 v1] r1 IH]; intros [|[k2 v2] r2] lo1 lo2 H1 H2 Hx.
    - reflexivity.
    - specialize (Hx k2). cbn in Hx. rewrite Z.eqb_refl in Hx. discriminate.
    - specialize (Hx k1). cbn in Hx. rewrite Z.eqb_refl in Hx. discriminate.
    - destruct H1 as [H1a H1b]. destruct H2 as [H2a H2b].
      assert (Hk : k1 = k2).
      { pose proof (Hx k1) as A. pose proof (Hx k2) as B. cbn in A, B. rewrite Z.eqb_refl in A, B.
        destruct (k1 =? k2) eqn:E; [lia|]. destruct (k2 =? k1) eqn:E'; [lia|].
        destruct (k1 <? k2) eqn:E2; [discriminate|]. destruct (k2 <? k1) eqn:E3; [discriminate|]. lia. }
      subst k2.
      assert (Hv : v1 = v2).
      { pose proof (Hx k1) as A. cbn in A. rewrite Z.eqb_refl in A. congruence. }
      subst v2. f_equal. apply (IH r2 _ _ H1b H2b).
      intros k. pose proof (Hx k) as A. cbn in A.
      destruct (k =? k1) eqn:E.
      + apply Z.eqb_eq in E; subst k. rewrite (lookup_below _ _ _ H1b), (lookup_below _ _ _ H2b) by lia. reflexivity.
      + destruct (k <? k1) eqn:E2; [|exact A].
        rewrite (lookup_below _ _ _ H1b), (lookup_below _ _ _ H2b) by lia. reflexivity.
  Qed.

  (* ---------------- the range scan ---------------- *)
  Definition in_range (lo hi : Z) (p : Z * V) : bool := (lo <=? fst p) && (fst p <? hi).
  (* LoadRange(start, end, limit): end exclusive, at most limit (> 0) items, in key order *)
  Definition range (m : amap) (lo hi : Z) (limit : Z) : amap :=
    firstn (Z.to_nat limit) (filter (in_range lo hi) m).

  Lemma filter_below lo hi m b : sorted_from b m -> hi <= b -> filter (in_range lo hi) m = [].
  Proof.
    revert b; induction m as [|[k v] r IH]; intros b Hs Hb; cbn [filter]; [reflexivity|].
    destruct Hs as [H1 H2]. unfold in_range at 1; cbn [fst].
    replace ((lo <=? k) && (k <? hi)) with false by (symmetry; apply andb_false_iff; right; lia).
    apply (IH _ H2). lia.
  Qed.

  Lemma filter_all_from lo hi m b : sorted_from b m -> lo <= b ->
    filter (in_range lo hi) m = filter (fun p => fst p <? hi) m.
  Proof.
    revert b; induction m as [|[k v] r IH]; intros b Hs Hb; cbn [filter]; [reflexivity|].
    destruct Hs as [H1 H2]. unfold in_range at 1; cbn [fst].
    replace (lo <=? k) with true by (symmetry; lia). cbn [andb].
    rewrite (IH _ H2) by lia. reflexivity.
  Qed.

  (* scanning from lo = taking the first n matches, then scanning on right after the last of them *)
  Lemma filter_split_after lo hi : forall m b n r0 k v,
    sorted_from b m -> firstn n (filter (in_range lo hi) m) = r0 ++ [(k, v)] ->
    skipn n (filter (in_range lo hi) m) = filter (in_range (k + 1) hi) m.
  Proof.
    induction m as [|[k' v'] r IH]; intros b n r0 k v Hs E; [destruct n, r0; discriminate|].
    destruct Hs as [H1 H2].
    assert (Hk : forall n' r1, firstn n' (filter (in_range lo hi) r) = r1 ++ [(k, v)] -> k' + 1 <= k).
    { intros n' r1 E'. apply (sorted_from_In _ _ _ v H2). apply (proj1 (filter_In (in_range lo hi) _ r)).
      rewrite <- (firstn_skipn n' (filter _ r)), E'. apply in_or_app. left. apply in_or_app. right. left. reflexivity. }
    cbn [filter] in *. destruct (in_range lo hi (k', v')) eqn:Ei.
    - destruct n as [|n]; [destruct r0; discriminate|]. cbn [firstn skipn] in *. destruct r0 as [|x r0]; cbn [app] in E.
      + inversion E as [[E1 E2 E3]]; subst k' v'. unfold in_range at 1 in Ei. unfold in_range at 2. cbn [fst] in *.
        replace (k + 1 <=? k) with false by (symmetry; lia). cbn [andb].
        pose proof (firstn_skipn n (filter (in_range lo hi) r)) as Hfs. rewrite E3 in Hfs. cbn [app] in Hfs. rewrite Hfs.
        rewrite (filter_all_from lo hi r (k + 1) H2), (filter_all_from (k + 1) hi r (k + 1) H2) by lia. reflexivity.
      + inversion E as [[E1 E2]]. pose proof (Hk n r0 E2). unfold in_range at 2; cbn [fst].
        replace (k + 1 <=? k') with false by (symmetry; lia). exact (IH _ n r0 k v H2 E2).
    - pose proof (Hk n r0 E). unfold in_range at 2; cbn [fst].
      replace (k + 1 <=? k') with false by (symmetry; lia). exact (IH _ n r0 k v H2 E).
  Qed.
End Map.
Arguments amap : clear implicits.

Lemma put_sorted0 {V} (m : amap V) k v : sorted_from 0 m -> 0 <= k -> sorted_from 0 (put m k v).
Proof. intros H Hk. pose proof (put_sorted 0 m k v H) as P. rewrite Z.min_l in P by lia. exact P. Qed.

Lemma filter_sorted {V} (f : Z * V -> bool) : forall (m : amap V) lo, sorted_from lo m -> sorted_from lo (filter f m).
Proof.
  induction m as [|[k v] r IH]; intros lo H; cbn [filter]; [exact I|]. destruct H as [H1 H2].
  destruct (f (k, v)); [split; [exact H1|apply IH; exact H2]|].
  eapply sorted_from_weaken; [|apply IH; exact H2]. lia.
Qed.

Lemma in_lookup {V} (m : amap V) lo k v : sorted_from lo m -> (In (k, v) m <-> lookup m k = Some v).
Proof.
  revert lo; induction m as [|[k' v'] r IH]; intros lo Hs; cbn [In lookup].
  - split; [contradiction|discriminate].
  - destruct Hs as [H1 H2]. destruct (k =? k') eqn:E.
    + apply Z.eqb_eq in E; subst k'. split.
      * intros [Eq|Hin]; [inversion Eq; reflexivity|]. apply (sorted_from_In _ _ _ _ H2) in Hin. lia.
      * intros Eq; inversion Eq; subst. left; reflexivity.
    + destruct (k <? k') eqn:E2.
      * split; [|discriminate]. intros [Eq|Hin]; [inversion Eq; subst; lia|].
        apply (sorted_from_In _ _ _ _ H2) in Hin. lia.
      * rewrite <- (IH _ H2). split; [intros [Eq|Hin]; [inversion Eq; subst; lia|exact Hin]|intros Hin; right; exact Hin].
Qed.
