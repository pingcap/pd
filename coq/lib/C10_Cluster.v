(* Shared by C10 and C11: the cluster view the filters read,
   regions, operator steps with TiKV's conf-change rules (the same semantics as
   harness/internal/sim10), and the store-state filter *parameterised by the tables the
   translator regenerates from server/schedule/filter/filters.go*.  Definitions and a few
   elementary lemmas; no axioms. *)
From Coq Require Export String List ZArith Bool Lia.
Export ListNotations.
Local Open Scope Z_scope.

Inductive cond :=
| isTombstone | isDown | isOffline | pauseLeaderTransfer | isDisconnected | isBusy
| exceedRemoveLimit | exceedAddLimit | tooManySnapshots | tooManyPendingPeers | hasRejectLeaderProperty.
Inductive kind := leaderSource | regionSource | leaderTarget | regionTarget | scatterRegionTarget.
Inductive flag := TransferLeader | MoveRegion | ScatterRegion | AllowTemporaryStates.

Definition cond_idx (c : cond) : Z :=
  match c with
  | isTombstone => 0 | isDown => 1 | isOffline => 2 | pauseLeaderTransfer => 3 | isDisconnected => 4
  | isBusy => 5 | exceedRemoveLimit => 6 | exceedAddLimit => 7 | tooManySnapshots => 8
  | tooManyPendingPeers => 9 | hasRejectLeaderProperty => 10
  end.
Definition cond_eqb (a b : cond) : bool := cond_idx a =? cond_idx b.
Lemma cond_eqb_eq a b : cond_eqb a b = true <-> a = b.
Proof.
  unfold cond_eqb; split; [|intros ->; apply Z.eqb_refl].
  destruct a, b; cbn; intros H; try reflexivity; discriminate H.
Qed.
Definition mem_cond (c : cond) (l : list cond) : bool := existsb (cond_eqb c) l.
Lemma mem_cond_In c l : mem_cond c l = true <-> In c l.
Proof.
  unfold mem_cond; rewrite existsb_exists; split.
  - intros (x & Hx & E); apply cond_eqb_eq in E; subst; exact Hx.
  - intros H; exists c; split; [exact H|apply cond_eqb_eq; reflexivity].
Qed.

Definition flag_idx (f : flag) : Z :=
  match f with TransferLeader => 0 | MoveRegion => 1 | ScatterRegion => 2 | AllowTemporaryStates => 3 end.
Definition flag_eqb (a b : flag) : bool := flag_idx a =? flag_idx b.
Definition kind_idx (k : kind) : Z :=
  match k with leaderSource => 0 | regionSource => 1 | leaderTarget => 2 | regionTarget => 3 | scatterRegionTarget => 4 end.
Definition kind_eqb (a b : kind) : bool := kind_idx a =? kind_idx b.

(* comparison operators read off the checkers' guards by the translator *)
Inductive cmpop := CGt | CGe | CLt | CLe | CEq | CNe.
Definition cmp_eval (o : cmpop) (a b : Z) : bool :=
  match o with
  | CGt => b <? a | CGe => b <=? a | CLt => a <? b | CLe => a <=? b | CEq => a =? b | CNe => negb (a =? b)
  end.

Inductive sstate := SUp | SOffline | STombstone.

(* a label value is (canonical id, spelling): strings.EqualFold compares the canonical id,
   == compares both (the isolation filter compares label values with ==, CompareLocation with EqualFold);
   canonical id 0 is the empty string *)
Definition lval := (Z * Z)%type.

Record store := Store {
  sid : Z;
  sst : sstate;
  s_down   : bool;   (* DownTime() > max-store-down-time *)
  s_disc   : bool;   (* IsDisconnected() *)
  s_busy   : bool;   (* IsBusy() *)
  s_low    : bool;   (* IsLowSpace(low-space-ratio) *)
  s_noadd  : bool;   (* !IsAvailable(AddPeer) *)
  s_normv  : bool;   (* !IsAvailable(RemovePeer) *)
  s_snap   : bool;   (* sending or receiving snapshots > max-snapshot-count *)
  s_pend   : bool;   (* max-pending-peer-count > 0 and pending peers > it *)
  s_pause  : bool;   (* !AllowLeaderTransfer() *)
  s_reject : bool;   (* reject-leader label property *)
  s_labels : list (Z * lval)   (* key (compared with EqualFold everywhere: canonical id only), value *)
}.

Definition is_up (s : store) : bool := match sst s with SUp => true | _ => false end.

Definition label_value (s : store) (k : Z) : lval :=
  match find (fun kv => fst kv =? k) (s_labels s) with
  | Some (_, v) => if fst v =? 0 then (0, 0) else v
  | None => (0, 0)
  end.
Definition lv_empty (v : lval) : bool := fst v =? 0.
Definition lv_eq (a b : lval) : bool := (fst a =? fst b) && (snd a =? snd b).   (* Go == *)
Definition lv_fold (a b : lval) : bool := fst a =? fst b.                         (* strings.EqualFold *)

(* PersistOptions.CheckLabelProperty(typ, labels): some configured entry of the property equals (key and value, both ==) some
   label of the store.  `props` are the configured entries of one property type (reject-leader). *)
Definition check_label_property (props : list (Z * lval)) (labels : list (Z * lval)) : bool :=
  existsb (fun cfg => existsb (fun l => (fst l =? fst cfg) && lv_eq (snd l) (snd cfg)) labels) props.

Lemma check_label_property_spec props labels :
  check_label_property props labels = true <->
  exists cfg l, In cfg props /\ In l labels /\ fst l = fst cfg /\ lv_eq (snd l) (snd cfg) = true.
Proof.
  unfold check_label_property. rewrite existsb_exists. split.
  - intros (cfg & Hc & H). apply existsb_exists in H as (l & Hl & H). apply andb_true_iff in H as [H1 H2].
    apply Z.eqb_eq in H1. exists cfg, l. auto.
  - intros (cfg & l & Hc & Hl & H1 & H2). exists cfg. split; [exact Hc|]. apply existsb_exists. exists l.
    split; [exact Hl|]. rewrite H1, Z.eqb_refl. exact H2.
Qed.

(* in particular the ORDER of the configured entries and of the store's labels is irrelevant, and a later entry with the same key
   as an earlier, non-matching one still counts *)
Lemma check_label_property_later_entry k v1 v2 labels :
  In (k, v2) labels -> lv_eq v2 v2 = true -> check_label_property [(k, v1); (k, v2)] labels = true.
Proof.
  intros Hin Hr. apply check_label_property_spec. exists (k, v2), (k, v2). cbn. auto.
Qed.

(* every store's s_reject flag is what the specification says for the configured entries *)
Definition reject_flags_ok (props : list (Z * lval)) (stores : list store) : bool :=
  forallb (fun s => Bool.eqb (s_reject s) (check_label_property props (s_labels s))) stores.

Fixpoint find_store (stores : list store) (id : Z) : option store :=
  match stores with
  | [] => None
  | s :: r => if sid s =? id then Some s else find_store r id
  end.
Lemma find_store_In stores id s : find_store stores id = Some s -> In s stores /\ sid s = id.
Proof.
  induction stores as [|x r IH]; cbn; [discriminate|].
  destruct (sid x =? id) eqn:E.
  - intros H; inversion H; subst; split; [left; reflexivity|apply Z.eqb_eq; exact E].
  - intros H; destruct (IH H); split; [right; assumption|assumption].
Qed.

Definition memZ (x : Z) (l : list Z) : bool := existsb (Z.eqb x) l.
Lemma memZ_In x l : memZ x l = true <-> In x l.
Proof.
  unfold memZ; rewrite existsb_exists; split.
  - intros (y & Hy & E); apply Z.eqb_eq in E; subst; exact Hy.
  - intros H; exists x; split; [exact H|apply Z.eqb_refl].
Qed.
Lemma memZ_notin x l : memZ x l = false <-> ~ In x l.
Proof. rewrite <- memZ_In. destruct (memZ x l); split; congruence. Qed.
Fixpoint nodupZb (l : list Z) : bool :=
  match l with [] => true | x :: r => negb (memZ x r) && nodupZb r end.
Lemma nodupZb_NoDup l : nodupZb l = true <-> NoDup l.
Proof.
  induction l as [|x r IH]; cbn; [split; [constructor|reflexivity]|].
  rewrite andb_true_iff, negb_true_iff, IH; split.
  - intros [H1 H2]; constructor; [rewrite <- memZ_In; congruence|exact H2].
  - intros H; inversion H as [|? ? H1 H2]; subst; split; [|exact H2].
    destruct (memZ x r) eqn:E; [apply memZ_In in E; contradiction|reflexivity].
Qed.

(* what each condition function of StoreStateFilter reads *)
Definition cond_raw (c : cond) (s : store) : bool :=
  match c with
  | isTombstone => match sst s with STombstone => true | _ => false end
  | isDown => s_down s
  | isOffline => match sst s with SOffline => true | _ => false end
  | pauseLeaderTransfer => s_pause s
  | isDisconnected => s_disc s
  | isBusy => s_busy s
  | exceedRemoveLimit => s_normv s
  | exceedAddLimit => s_noadd s
  | tooManySnapshots => s_snap s
  | tooManyPendingPeers => s_pend s
  | hasRejectLeaderProperty => s_reject s
  end.

(* a StoreStateFilter value = the set of its boolean fields that are true *)
Definition sfilter := list flag.
Definition has_flag (f : sfilter) (x : flag) : bool := existsb (flag_eqb x) f.

Section Tables.
  (* regenerated from filters.go on every run (gen/Gen_C10.v, gen/Gen_C11.v) *)
  Variable conds : kind -> list cond.                       (* anyConditionMatch *)
  Variable temp_conds : list cond.                          (* conditions guarded by !f.AllowTemporaryStates *)
  Variable target_dispatch : list (list (flag * bool) * kind).   (* StoreStateFilter.Target *)
  Variable source_dispatch : list (list (flag * bool) * kind).   (* StoreStateFilter.Source *)

  Definition cond_holds (f : sfilter) (c : cond) (s : store) : bool :=
    negb (has_flag f AllowTemporaryStates && mem_cond c temp_conds) && cond_raw c s.

  Definition any_cond (f : sfilter) (k : kind) (s : store) : bool :=
    existsb (fun c => cond_holds f c s) (conds k).

  Definition guard_holds (f : sfilter) (g : flag * bool) : bool := Bool.eqb (has_flag f (fst g)) (snd g).

  Definition dispatch_pass (d : list (list (flag * bool) * kind)) (f : sfilter) (s : store) : bool :=
    forallb (fun gk => negb (forallb (guard_holds f) (fst gk) && any_cond f (snd gk) s)) d.

  Definition sf_target (f : sfilter) (s : store) : bool := dispatch_pass target_dispatch f s.
  Definition sf_source (f : sfilter) (s : store) : bool := dispatch_pass source_dispatch f s.

  Lemma dispatch_pass_row d f s gs k c :
    dispatch_pass d f s = true ->
    In (gs, k) d -> forallb (guard_holds f) gs = true ->
    In c (conds k) ->
    (has_flag f AllowTemporaryStates && mem_cond c temp_conds = false) ->
    cond_raw c s = false.
  Proof.
    intros Hp Hd Hg Hc Ht. unfold dispatch_pass in Hp.
    rewrite forallb_forall in Hp. specialize (Hp _ Hd). cbn [fst snd] in Hp.
    rewrite Hg in Hp. apply negb_true_iff in Hp.
    destruct (cond_raw c s) eqn:E; [|reflexivity].
    rewrite <- Hp. symmetry. apply existsb_exists. exists c; split; [exact Hc|].
    unfold cond_holds. rewrite Ht, E. reflexivity.
  Qed.

  Lemma sf_target_excludes f s gs k c :
    sf_target f s = true ->
    In (gs, k) target_dispatch -> forallb (guard_holds f) gs = true ->
    In c (conds k) ->
    (has_flag f AllowTemporaryStates && mem_cond c temp_conds = false) ->
    cond_raw c s = false.
  Proof using conds temp_conds target_dispatch. apply dispatch_pass_row. Qed.

  Lemma sf_source_excludes f s gs k c :
    sf_source f s = true ->
    In (gs, k) source_dispatch -> forallb (guard_holds f) gs = true ->
    In c (conds k) ->
    (has_flag f AllowTemporaryStates && mem_cond c temp_conds = false) ->
    cond_raw c s = false.
  Proof using conds temp_conds source_dispatch. apply dispatch_pass_row. Qed.

  (* f excludes c: some row of the dispatch table whose guards f meets lists c, and AllowTemporaryStates does
     not switch c off.  A closed question about the generated tables, answered by evaluation. *)
  Definition excludes (d : list (list (flag * bool) * kind)) (f : sfilter) (c : cond) : bool :=
    existsb (fun gk => forallb (guard_holds f) (fst gk) && mem_cond c (conds (snd gk))) d
    && negb (has_flag f AllowTemporaryStates && mem_cond c temp_conds).

  Lemma dispatch_pass_clear d f s cs :
    dispatch_pass d f s = true -> forallb (excludes d f) cs = true ->
    forall c, mem_cond c cs = true -> cond_raw c s = false.
  Proof.
    intros Hp Hx c Hc. apply mem_cond_In in Hc. rewrite forallb_forall in Hx. specialize (Hx c Hc).
    apply andb_true_iff in Hx as [Hrow Ht]. apply negb_true_iff in Ht.
    apply existsb_exists in Hrow as ([gs k] & Hd & Hg). apply andb_true_iff in Hg as [Hg Hk].
    apply mem_cond_In in Hk. exact (dispatch_pass_row d f s gs k c Hp Hd Hg Hk Ht).
  Qed.
End Tables.

Lemma up_of_conds s : cond_raw isTombstone s = false -> cond_raw isOffline s = false -> sst s = SUp.
Proof. cbn. destruct (sst s); [reflexivity|discriminate|discriminate]. Qed.

(* StoreInfo.CompareLocation: first level at which both values are set and differ (EqualFold) *)
Fixpoint compare_location_from (i : Z) (a b : store) (labels : list Z) : option Z :=
  match labels with
  | [] => None
  | k :: r =>
      let v1 := label_value a k in let v2 := label_value b k in
      if negb (lv_empty v1) && negb (lv_empty v2) && negb (lv_fold v1 v2) then Some i
      else compare_location_from (i + 1) a b r
  end.
Definition compare_location (a b : store) (labels : list Z) : option Z := compare_location_from 0 a b labels.

(* core.DistinctScore with the base the translator reads from server/core/store.go; exact integer
   (math.Pow on small integers is exact in float64 for the sizes used here) *)
Definition distinct_score (base : Z) (labels : list Z) (stores : list store) (other : store) : Z :=
  fold_left (fun acc s =>
    if sid s =? sid other then acc
    else match compare_location s other labels with
         | Some idx => acc + base ^ (Z.of_nat (length labels) - idx - 1)
         | None => acc
         end) stores 0.

Inductive role := Voter | Learner | Incoming | Demoting.
Definition role_idx (r : role) : Z := match r with Voter => 0 | Learner => 1 | Incoming => 2 | Demoting => 3 end.
Definition role_eqb (a b : role) : bool := role_idx a =? role_idx b.
Lemma role_eqb_eq a b : role_eqb a b = true <-> a = b.
Proof. unfold role_eqb; split; [|intros ->; apply Z.eqb_refl]. destruct a, b; cbn; intros H; try reflexivity; discriminate H. Qed.

Record peer := Peer { p_id : Z; p_store : Z; p_role : role }.
Definition peer_eqb (a b : peer) : bool := (p_id a =? p_id b) && (p_store a =? p_store b) && role_eqb (p_role a) (p_role b).

Definition is_learner (p : peer) : bool := match p_role p with Learner => true | _ => false end.
Definition in_joint (ps : list peer) : bool :=
  existsb (fun p => match p_role p with Incoming | Demoting => true | _ => false end) ps.

Definition peer_on (ps : list peer) (st : Z) : option peer := find (fun p => p_store p =? st) ps.
Definition stores_of (ps : list peer) : list Z := map p_store ps.
Definition count_role (r : role) (ps : list peer) : nat := length (filter (fun p => role_eqb (p_role p) r) ps).
Definition voters_of (ps : list peer) : list peer := filter (fun p => negb (is_learner p)) ps.

(* what a step sequence acts on: the peer list and the leader's store (0 = none) *)
Record rstate := RState { rs_peers : list peer; rs_leader : Z }.

Inductive step :=
| TransferLeaderS (from to : Z)
| AddPeerS (st id : Z)            (* AddPeer / AddLightPeer: adds a voter directly *)
| AddLearnerS (st id : Z)         (* AddLearner / AddLightLearner *)
| PromoteLearnerS (st id : Z)
| DemoteFollowerS (st id : Z)
| RemovePeerS (st : Z)
| EnterJointS (promote demote : list (Z * Z))    (* (store, peer id) *)
| LeaveJointS (promote demote : list (Z * Z))
| OtherS.                          (* split / merge: no membership change *)

Definition set_role (ps : list peer) (st : Z) (r : role) : list peer :=
  map (fun p => if p_store p =? st then Peer (p_id p) (p_store p) r else p) ps.

Definition has_role (ps : list peer) (st id : Z) (r : role) : bool :=
  match peer_on ps st with Some p => (p_id p =? id) && role_eqb (p_role p) r | None => false end.

(* TiKV's rules; None = the command is rejected / the step is unsafe at this point *)
Definition apply_step (s : rstate) (x : step) : option rstate :=
  let ps := rs_peers s in
  match x with
  | TransferLeaderS _ to =>
      match peer_on ps to with
      | Some p => match p_role p with
                  | Voter | Incoming => Some (RState ps to)
                  | _ => None
                  end
      | None => None
      end
  | AddPeerS st id =>
      match peer_on ps st with
      | Some _ => None
      | None => Some (RState (ps ++ [Peer id st Voter]) (rs_leader s))
      end
  | AddLearnerS st id =>
      match peer_on ps st with
      | Some _ => None
      | None => Some (RState (ps ++ [Peer id st Learner]) (rs_leader s))
      end
  | PromoteLearnerS st id =>
      if has_role ps st id Learner then Some (RState (set_role ps st Voter) (rs_leader s)) else None
  | DemoteFollowerS st id =>
      if has_role ps st id Voter && negb (st =? rs_leader s)
      then Some (RState (set_role ps st Learner) (rs_leader s)) else None
  | RemovePeerS st =>
      if st =? rs_leader s then None
      else Some (RState (filter (fun p => negb (p_store p =? st)) ps) (rs_leader s))
  | EnterJointS pr de =>
      if in_joint ps then None
      else if forallb (fun x => has_role ps (fst x) (snd x) Learner) pr
              && forallb (fun x => has_role ps (fst x) (snd x) Voter) de
      then Some (RState (fold_left (fun acc x => set_role acc (fst x) Demoting) de
                           (fold_left (fun acc x => set_role acc (fst x) Incoming) pr ps)) (rs_leader s))
      else None
  | LeaveJointS pr de =>
      match peer_on ps (rs_leader s) with
      | Some l => match p_role l with
                  | Demoting => None
                  | _ => Some (RState (map (fun p => match p_role p with
                                                    | Incoming => Peer (p_id p) (p_store p) Voter
                                                    | Demoting => Peer (p_id p) (p_store p) Learner
                                                    | _ => p end) ps) (rs_leader s))
                  end
      | None => None
      end
  | OtherS => Some s
  end.

(* run a step list; the trace holds every intermediate state (the initial one first) *)
Fixpoint run_steps (s : rstate) (xs : list step) : option (list rstate) :=
  match xs with
  | [] => Some [s]
  | x :: r => match apply_step s x with
              | Some s' => match run_steps s' r with Some t => Some (s :: t) | None => None end
              | None => None
              end
  end.
Definition final_state (t : list rstate) (d : rstate) : rstate := last t d.

Fixpoint list_eqb {A} (eqb : A -> A -> bool) (a b : list A) : bool :=
  match a, b with
  | [], [] => true
  | x :: xs, y :: ys => eqb x y && list_eqb eqb xs ys
  | _, _ => false
  end.
Definition rstate_eqb (a b : rstate) : bool := list_eqb peer_eqb (rs_peers a) (rs_peers b) && (rs_leader a =? rs_leader b).

Fixpoint number_from {A} (n : nat) (l : list A) : list (nat * A) :=
  match l with [] => [] | a :: r => (n, a) :: number_from (S n) r end.
