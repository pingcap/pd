(* C06 — Region cache never regresses and never holds overlapping regions.
   Statements, each derived in a line or two from the theorems of proof/C06_*.v (on top of the C07 development: the cache
   IS the RegionsInfo model).

   Quantification.  `ls : list hlabel` is one history AND one schedule: LBegin t r starts a heartbeat with region r
   on thread t (first PreCheckPutRegion and the flags, against the cache of that moment), LStep t is the next
   atomic section of thread t (the locked section "second precheck + PutRegion", then one storage write at a
   time), LFlush is a flush of the write-back batch.  Thread ids are arbitrary integers, so any number of
   concurrent streams, any delivery order, duplicates and delays are label lists; disabled labels are skipped.
   Regions are arbitrary (ids, byte-string keys, epochs, peers) within `hb_ok`: valid key range and a well-formed
   peer list (`wf_region`, the domain of C07) and a raft term >= 0 (a uint64; 0 = the store reports no term).  The three kinds of labels are exactly the atomic sections of
   processRegionHeartbeat (proof/C06_Skel.v: regenerated skeleton with the position of c.Lock(), the second
   PreCheckPutRegion, PutRegion and the storage writes). *)
From Coq Require Import Sorting.Sorted.
From PDV Require Import lib.Base lib.C07_Key gen.Gen_C06 model.C07_BTreeSpec model.C07_Region
  proof.C07_Sorted proof.C07_Tree proof.C07_RegionProof proof.C07_Spec
  model.C06_Heartbeat proof.C06_HeartbeatProof proof.C06_Storage proof.C06_Closed proof.C06_Concurrent proof.C06_Skel.
Local Open Scope Z_scope.

(* `reach wb ls` = the state after the history/schedule ls from the empty cluster (wb: write-back region storage) *)

(* in every reachable state the served regions are sorted and pairwise disjoint *)
Theorem C06_no_overlap : forall wb ls,
  Forall validP (cached (h_cache (reach wb ls))) /\ StronglySorted before (cached (h_cache (reach wb ls))).
Proof. intros wb ls. apply Inv_ds, reach_inv. Qed.

(* one label never lowers version, conf_ver or raft term of a served id (a heartbeat that reports no term keeps the
   served one: BasicCluster.PutRegion since /repo 9338658) *)
Theorem C06_epoch_monotone_step : forall wb ls l h' id x x',
  hl_step (reach wb ls) l = Some h' ->
  get_region (h_cache (reach wb ls)) id = Some x -> get_region (h_cache h') id = Some x' ->
  r_ver x <= r_ver x' /\ r_confver x <= r_confver x' /\ r_term x <= r_term x'.
Proof. intros wb ls l h' id x x'. apply epoch_monotone_step_pf, reach_HInv. Qed.

(* over a whole execution, WHILE THE ID STAYS SERVED (the hypothesis `always_served`; without it the clause is false for the
   code, see C06_epochs_monotone_across_displacement_refuted below): version and conf_ver *)
Theorem C06_versions_monotone_per_id_partial : forall wb ls1 ls2 id x x',
  always_served id (reach wb ls1) ls2 ->
  get_region (h_cache (reach wb ls1)) id = Some x ->
  get_region (h_cache (exec hl_step (reach wb ls1) ls2)) id = Some x' ->
  r_ver x <= r_ver x' /\ r_confver x <= r_confver x'.
Proof. intros. destruct (epochs_monotone_chain_pf ls2 (reach wb ls1) id x x') as (A & B & _); auto using reach_HInv. Qed.

(* ... and the raft term, for any mix of heartbeats with and without a reported term (a heartbeat without term keeps
   the served one, /repo 9338658; the terms 5, 0, 3 are the case C06_term_gap_regression below) *)
Theorem C06_term_monotone_per_id_partial : forall wb ls1 ls2 id x x',
  always_served id (reach wb ls1) ls2 ->
  get_region (h_cache (reach wb ls1)) id = Some x ->
  get_region (h_cache (exec hl_step (reach wb ls1) ls2)) id = Some x' ->
  r_term x <= r_term x'.
Proof. intros. destruct (epochs_monotone_chain_pf ls2 (reach wb ls1) id x x') as (_ & _ & C); auto using reach_HInv. Qed.

(* a reported term that PD acknowledged is remembered: after a heartbeat with a reported term was answered without an error -
   at once (nothing else changed: a higher term alone is a reason to write the cache, /repo eea34ed) or by its locked
   section - the served term of its id is at least that term; with C06_precheck_is_stale the heartbeat of the leader of an older
   term is rejected from then on (term 6, then term 8 from an idle region with the same leader: the delayed term-7
   heartbeat of another peer is stale) *)
Theorem C06_acknowledged_term_is_remembered : forall wb ls t r,
  (forall h', begin (reach wb ls) t r = (h', HOk) ->
     exists x, get_region (h_cache h') (r_id r) = Some x /\ r_term r <= r_term x) /\
  (forall fl h' res, th_get (h_threads (reach wb ls)) t = Some (PLock r fl) -> 0 < r_term r ->
     step (reach wb ls) t = (h', res) -> res <> HErr ->
     exists x, get_region (h_cache h') (r_id r) = Some x /\ r_term r <= r_term x).
Proof.
  intros wb ls t r. split.
  - intros h'. apply acknowledged_term_begin_pf.
  - intros fl h' res. apply acknowledged_term_step_pf, reach_HInv.
Qed.

(* across a displacement the clause is false (finding, KNOWN_FINDINGS.txt): a region displaced from the cache by a split child
   that reports first leaves no memory of its epoch and term; a delayed heartbeat of it over keys whose present owner has not
   reported yet is accepted, and the id is served again with version 2 / term 6 after version 4 / term 7 *)
Definition C06_epochs_monotone_across_displacement : Prop := epochs_monotone_across_displacement.
Theorem C06_epochs_monotone_across_displacement_refuted : ~ C06_epochs_monotone_across_displacement.
Proof.
  intros H. specialize (H false gap_prefix gap_suffix 1 (gap_region 1 [109] [] 12 4 7 4) (gap_region 1 [] [99] 11 2 6 6)).
  cbn zeta in H.
  assert (G1 : get_region (h_cache (exec hl_step (h_init false) gap_prefix)) 1 = Some (gap_region 1 [109] [] 12 4 7 4)) by (vm_compute; reflexivity).
  assert (G2 : get_region (h_cache (exec hl_step (exec hl_step (h_init false) gap_prefix) gap_suffix)) 1 = Some (gap_region 1 [] [99] 11 2 6 6))
    by (vm_compute; reflexivity).
  destruct (H G1 G2) as [V _]. vm_compute in V. apply V. reflexivity.
Qed.

(* the old counterexample as a regression case: the term-less heartbeat keeps term 5, the heartbeat with term 3 is rejected *)
Example C06_term_gap_regression :
  let h1 := exec hl_step (h_init false) [LBegin 1 (term_gap_region 5 1); LStep 1; LStep 1] in
  let h2 := exec hl_step h1 [LBegin 1 (term_gap_region 0 2); LStep 1; LStep 1] in
  option_map r_term (get_region (h_cache h2) 1) = Some 5 /\
  snd (begin h2 1 (term_gap_region 3 3)) = HErr.
Proof. exact term_gap_behaves. Qed.

(* both prechecks reject exactly the heartbeats the statement calls stale: staler than the cached region of the
   same id (term when reported, version, conf_ver) or older in version than a cached region it overlaps *)
Theorem C06_precheck_is_stale : forall wb ls r, valid_range r = true ->
  snd (precheck (h_cache (reach wb ls)) r) = stale_spec (cached (h_cache (reach wb ls))) r.
Proof. intros wb ls r V. apply precheck_is_stale_pf; [apply reach_inv|exact V]. Qed.

(* ... such a heartbeat is answered with an error at its first check and nothing changes *)
Theorem C06_stale_heartbeat_rejected_unchanged_first : forall wb ls t r,
  valid_range r = true -> th_get (h_threads (reach wb ls)) t = None ->
  stale_spec (cached (h_cache (reach wb ls))) r = true -> begin (reach wb ls) t r = (reach wb ls, HErr).
Proof. intros wb ls t r. apply stale_rejected_begin_pf, reach_HInv. Qed.

(* ... and at the check under the cluster lock when it became stale in between (every thread that waits for the lock
   re-checks: saveKV or isNew imply saveCache) *)
Theorem C06_stale_heartbeat_rejected_unchanged_locked : forall wb ls t r fl,
  th_get (h_threads (reach wb ls)) t = Some (PLock r fl) ->
  stale_spec (cached (h_cache (reach wb ls))) r = true ->
  exists h', step (reach wb ls) t = (h', HErr) /\ h_cache h' = h_cache (reach wb ls) /\ h_store h' = h_store (reach wb ls).
Proof. intros wb ls t r fl. apply stale_rejected_step_pf, reach_HInv. Qed.

(* any error answer leaves cache and storage as they were *)
Theorem C06_rejected_unchanged : forall h t h',
  (forall r, begin h t r = (h', HErr) -> h' = h) /\
  (step h t = (h', HErr) -> h_cache h' = h_cache h /\ h_store h' = h_store h).
Proof. intros h t h'. split; [intros r; apply rejected_unchanged_begin_pf|apply rejected_unchanged_step_pf]. Qed.

(* the regions displaced by an accepted put leave the cache in the same atomic section *)
Theorem C06_displaced_gone_from_cache : forall wb ls r x,
  wf_region r = true -> In x (snd (put_region (h_cache (reach wb ls)) r)) ->
  get_region (fst (put_region (h_cache (reach wb ls)) r)) (r_id x) = None /\ In x (cached (h_cache (reach wb ls))).
Proof. intros wb ls r x. apply displaced_gone_from_cache_put_pf, reach_inv. Qed.

(* heartbeats handled one at a time (flushes of the write-back batch anywhere in between), either backend:
   neither the storage nor the pending write-back batch (`held`) ever has a region that is not served ... *)
Theorem C06_displaced_gone_from_storage_sequential : forall wb ops,
  Forall seq_op ops ->
  forall id, held (h_store (seq_ops wb ops)) id -> get_region (h_cache (seq_ops wb ops)) id <> None.
Proof. intros wb ops F. destruct (storage_subset_ops_pf wb ops F) as (_ & _ & (_ & S)). exact S. Qed.

(* ... hence a region displaced by a heartbeat is gone from storage, and from the batch, when that heartbeat returns *)
Theorem C06_displaced_gone_when_heartbeat_returns_sequential : forall wb ops r x,
  Forall seq_op ops -> wf_region r = true ->
  get_region (h_cache (seq_ops wb ops)) (r_id x) <> None ->
  get_region (h_cache (fst (heartbeat (seq_ops wb ops) r))) (r_id x) = None ->
  load_region (h_store (fst (heartbeat (seq_ops wb ops) r))) (r_id x) = None /\ ~ held (h_store (fst (heartbeat (seq_ops wb ops) r))) (r_id x).
Proof.
  intros wb ops r x F W _. destruct (storage_subset_ops_pf wb ops F) as (I & T & SS).
  apply displaced_gone_from_storage_seq_pf; auto. rewrite T. reflexivity.
Qed.

(* ... on both backends also after a flush: DeleteRegion drops the pending entry of the write-back batch as well
   (/repo 8a5de01), so a flush cannot write a displaced region back *)
Definition C06_displaced_gone_from_storage_full : Prop := storage_subset_full.
Theorem C06_displaced_gone_from_storage_after_flush : C06_displaced_gone_from_storage_full.
Proof. exact storage_subset_full_pf. Qed.

(* the old counterexample as a regression case *)
Example C06_region_storage_regression :
  let h := fold_left (fun h o => fst (h_step h o)) (map OHb witness_writeback ++ [OFlush]) (h_init true) in
  load_region (h_store h) 1 = None /\ map fst (s_kv (h_store h)) = [2] /\ map r_id (cached (h_cache h)) = [2].
Proof. exact witness_writeback_behaves. Qed.

(* concurrent heartbeats (the statement asks for the storage clause only when heartbeats are handled one at a time).
   For every interleaving of the atomic sections in which no locked section displaces a region whose save is still
   pending in another thread (`calm`): whatever storage or the write-back batch holds is served or its delete is on its
   way, and once no storage write is pending storage holds served regions only *)
Theorem C06_displaced_gone_from_storage_interleaved : forall wb ls, calm (h_init wb) ls ->
  let h := exec hl_step (h_init wb) ls in
  (forall id, held (h_store h) id -> get_region (h_cache h) id <> None \/ pending_del h id) /\
  ((forall t todo, ~ In (t, PStore todo) (h_threads h)) ->
   forall id x, load_region (h_store h) id = Some x -> get_region (h_cache h) id <> None).
Proof.
  intros wb ls K. cbv zeta. destruct (cinv_exec ls _ (cinv_init wb) K) as (_ & _ & _ & DD & _). split; [exact DD|].
  intros Q id x L. destruct (DD id (load_held _ _ _ L)) as [S|(t & todo & y & Hin & _)]; [exact S|]. exfalso. eapply Q; eauto.
Qed.

(* ... and without that restriction it is false: a save overtaken by the delete of the displacing heartbeat
   (storage writes are made after c.Unlock(); cluster.go documents this as not fatal) *)
Definition C06_displaced_gone_from_storage_concurrent : Prop := storage_subset_concurrent.
Theorem C06_displaced_gone_from_storage_concurrent_refuted : ~ C06_displaced_gone_from_storage_concurrent.
Proof.
  intros H. specialize (H false overtaken_schedule). cbn zeta in H.
  assert (T : h_threads (exec hl_step (h_init false) overtaken_schedule) = []) by (vm_compute; reflexivity).
  assert (L : load_region (h_store (exec hl_step (h_init false) overtaken_schedule)) 1 = Some overtaken_a) by (vm_compute; reflexivity).
  apply (H T 1 _ L). vm_compute. reflexivity.
Qed.

(* non-vacuity: two threads race on overlapping regions; the stale one passes its first check, is rejected under
   the lock; the accepted one displaces a region *)
Example C06_nonvacuous :
  let p := [Peer 1 1 false; Peer 2 2 false] in
  let a := Region 1 (K [97]) (K [99]) p 1 [] 10 1 1 1 1 in
  let b := Region 2 (K [97]) (K [98]) p 1 [] 10 2 1 1 2 in
  let c := Region 3 (K [97]) (K [100]) p 1 [] 10 3 1 1 3 in
  let ls := [LBegin 1 a; LStep 1; LStep 1; LBegin 1 b; LBegin 2 c; LStep 2; LStep 2; LStep 2; LStep 1] in
  map r_id (cached (h_cache (exec hl_step (h_init false) ls))) = [3] /\
  snd (step (exec hl_step (h_init false) [LBegin 1 a; LStep 1; LStep 1; LBegin 1 b; LBegin 2 c; LStep 2; LStep 2; LStep 2]) 1) = HErr.
Proof. vm_compute. auto. Qed.

Print Assumptions C06_no_overlap.
Print Assumptions C06_epoch_monotone_step.
Print Assumptions C06_versions_monotone_per_id_partial.
Print Assumptions C06_term_monotone_per_id_partial.
Print Assumptions C06_epochs_monotone_across_displacement_refuted.
Print Assumptions C06_acknowledged_term_is_remembered.
Print Assumptions C06_precheck_is_stale.
Print Assumptions C06_stale_heartbeat_rejected_unchanged_first.
Print Assumptions C06_stale_heartbeat_rejected_unchanged_locked.
Print Assumptions C06_rejected_unchanged.
Print Assumptions C06_displaced_gone_from_cache.
Print Assumptions C06_displaced_gone_from_storage_sequential.
Print Assumptions C06_displaced_gone_when_heartbeat_returns_sequential.
Print Assumptions C06_displaced_gone_from_storage_after_flush.
Print Assumptions C06_displaced_gone_from_storage_interleaved.
Print Assumptions C06_displaced_gone_from_storage_concurrent_refuted.
