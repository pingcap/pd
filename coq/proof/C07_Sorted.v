(* C07 — lemmas about the ordered-list specification L0 on lists sorted by region start key:
   on such lists every btree operation is a `filter`, which is the normal form the L1/L2 proofs use. *)
From Coq Require Import Permutation Sorting.Sorted.
From PDV Require Export lib.C07_List.
From PDV Require Import lib.Base lib.C07_Key gen.Gen_C07 model.C07_BTreeSpec model.C07_Region proof.C07_BTreeOrder.
Local Open Scope Z_scope.

(* order of the start keys; `same r x`: x starts where r starts (the key of r first, the item compared second) *)
Definition slt (x y : region) : Prop := klt (r_start x) (r_start y).
Definition ssorted (T : list region) : Prop := StronglySorted slt T.
Definition same (r x : region) : bool := key_eqb (r_start x) (r_start r).

Lemma rlt_spec x y : reflect (slt x y) (rlt x y).
Proof. unfold rlt, slt. apply key_ltb_spec. Qed.

Ltac rreflect :=
  unfold same, rlt, slt in *; kreflect.

Lemma same_refl x : same x x = true.
Proof. unfold same. destruct (key_eqb_spec (r_start x) (r_start x)); congruence. Qed.

(* regions in strict order do not have the same start key, whichever way round `same` is asked *)
Lemma slt_same_l x y : slt x y -> same x y = false.
Proof. unfold same, slt. intros H. kreflect; [exfalso; korder|reflexivity]. Qed.
Lemma slt_same_r x y : slt x y -> same y x = false.
Proof. unfold same, slt. intros H. kreflect; [exfalso; korder|reflexivity]. Qed.

Lemma slt_trans x y z : slt x y -> slt y z -> slt x z.
Proof. unfold slt. intros. korder. Qed.
Lemma slt_rlt x y : slt x y -> rlt y x = false.
Proof. intros H. rreflect; [exfalso; korder|reflexivity]. Qed.
(* a is not before x and b is after a: b is after x *)
Lemma slt_through a x b : rlt a x = false -> slt a b -> slt x b.
Proof. intros H1 H2. rreflect; [discriminate|korder]. Qed.
(* Less is total on start keys: neither before the other means the same start, not before and not the same means after *)
Lemma same_of_not_rlt x a : rlt a x = false -> rlt x a = false -> same x a = true.
Proof. intros H1 H2. rreflect; try discriminate; try reflexivity. exfalso; korder. Qed.
Lemma slt_of_not r a : rlt r a = false -> same r a = false -> rlt a r = true.
Proof. intros H1 H2. destruct (rlt a r) eqn:E; [reflexivity|]. rewrite (same_of_not_rlt r a E H1) in H2. discriminate. Qed.

Lemma ssorted_inv x T : ssorted (x :: T) -> ssorted T /\ Forall (slt x) T.
Proof. intros H; inversion H; subst; auto. Qed.

Lemma ssorted_cons x T : ssorted T -> Forall (slt x) T -> ssorted (x :: T).
Proof. intros; constructor; auto. Qed.

Lemma ssorted_filter p T : ssorted T -> ssorted (filter p T).
Proof. apply StronglySorted_filter. Qed.

Lemma ssorted_app_inv T1 T2 : ssorted (T1 ++ T2) ->
  ssorted T1 /\ ssorted T2 /\ (forall x y, In x T1 -> In y T2 -> slt x y).
Proof.
  induction T1 as [|a T1 IH]; cbn; intros H.
  - repeat split; [constructor|exact H|intros x y []].
  - apply ssorted_inv in H as [H1 H2]. destruct (IH H1) as (A & B & C).
    rewrite Forall_forall in H2. repeat split; auto.
    + apply ssorted_cons; [exact A|]. rewrite Forall_forall. intros y Hy. apply H2. apply in_or_app; auto.
    + intros x y [<-|Hx] Hy; [apply H2; apply in_or_app; auto | auto].
Qed.

Lemma ssorted_in_eq T x y : ssorted T -> In x T -> In y T -> r_start x = r_start y -> x = y.
Proof.
  induction T as [|a T IH]; intros H Hx Hy E; [destruct Hx|].
  apply ssorted_inv in H as [H1 H2]. rewrite Forall_forall in H2.
  destruct Hx as [<-|Hx], Hy as [<-|Hy]; auto.
  - specialize (H2 _ Hy). unfold slt in H2. rewrite E in H2. exfalso; korder.
  - specialize (H2 _ Hx). unfold slt in H2. rewrite E in H2. exfalso; korder.
Qed.

Definition prefix_closed (p : region -> bool) : Prop :=
  forall x y, slt x y -> p y = true -> p x = true.

Lemma take_while_filter p T : ssorted T -> prefix_closed p -> take_while p T = filter p T.
Proof.
  intros H PC. induction T as [|x T IH]; cbn; [reflexivity|].
  apply ssorted_inv in H as [H1 H2]. destruct (p x) eqn:E; [f_equal; auto|].
  symmetry. apply filter_false_nil. rewrite Forall_forall in H2. intros y Hy.
  destruct (p y) eqn:Ey; [|reflexivity]. rewrite (PC _ _ (H2 _ Hy) Ey) in E. discriminate.
Qed.

Lemma ascend_ge_filter p T : ssorted T -> l0_ascend_ge rlt p T = filter (fun x => negb (rlt x p)) T.
Proof.
  intros H. induction T as [|x T IH]; cbn; [reflexivity|].
  apply ssorted_inv in H as [H1 H2]. destruct (rlt x p) eqn:E; cbn; [auto|].
  f_equal. symmetry. rewrite Forall_forall in H2. apply filter_true_id.
  intros y Hy. rewrite (slt_rlt p y (slt_through x p y E (H2 y Hy))). reflexivity.
Qed.

(* regionItem.Less is a strict weak order: the hypotheses of the B-tree refinement (proof/C07_BTreeSim.v) hold for the
   items core.regionTree stores *)
Lemma rlt_irrefl a : rlt a a = false.
Proof. unfold rlt. kreflect; [korder|reflexivity]. Qed.
Lemma rlt_trans a b c : rlt a b = true -> rlt b c = true -> rlt a c = true.
Proof. unfold rlt. intros H1 H2. kreflect; try discriminate; try reflexivity. korder. Qed.
Lemma rlt_negtrans a b c : rlt a b = false -> rlt b c = false -> rlt a c = false.
Proof. unfold rlt. intros H1 H2. kreflect; try discriminate; try reflexivity. korder. Qed.

Lemma descend_le_filter p T : ssorted T -> l0_descend_le rlt p T = rev (filter (fun x => negb (rlt p x)) T).
Proof. exact (l0_descend_filter rlt rlt_trans p T). Qed.

Lemma l0_delete_filter x T : ssorted T ->
  fst (l0_delete rlt x T) = filter (fun y => negb (same x y)) T.
Proof.
  intros H. induction T as [|a T IH]; cbn; [reflexivity|].
  apply ssorted_inv in H as [H1 H2].
  destruct (rlt a x) eqn:E1.
  - destruct (l0_delete rlt x T) as [T' o] eqn:ED. cbn in *. rewrite (IH H1), (slt_same_r a x E1). reflexivity.
  - rewrite Forall_forall in H2.
    (* a is not before x, and everything in T is after a *)
    assert (R : filter (fun y => negb (same x y)) T = T).
    { apply filter_true_id. intros b Hb. rewrite (slt_same_l x b (slt_through a x b E1 (H2 b Hb))). reflexivity. }
    destruct (rlt x a) eqn:E2; cbn.
    + rewrite (slt_same_l x a E2). cbn. rewrite R. reflexivity.
    + rewrite (same_of_not_rlt x a E1 E2). cbn. rewrite R. reflexivity.
Qed.

Lemma l0_insert_ins r T : (forall x, In x T -> same r x = false) ->
  l0_insert rlt r T = (ins_region r T, None).
Proof.
  induction T as [|a T IH]; intros H; cbn; [reflexivity|].
  destruct (rlt r a) eqn:E1; [reflexivity|].
  rewrite (slt_of_not r a E1 (H a (or_introl eq_refl))), IH; [reflexivity|]. intros x Hx; apply H; right; exact Hx.
Qed.

Lemma ins_region_in r T x : In x (ins_region r T) <-> x = r \/ In x T.
Proof.
  induction T as [|a T IH]; cbn; [intuition|].
  destruct (rlt r a); cbn; [intuition|]. rewrite IH. intuition.
Qed.

Lemma ins_region_sorted r T : ssorted T -> (forall x, In x T -> same r x = false) -> ssorted (ins_region r T).
Proof.
  induction T as [|a T IH]; intros H NE; cbn.
  - apply ssorted_cons; constructor.
  - apply ssorted_inv in H as [H1 H2].
    destruct (rlt r a) eqn:E.
    + apply ssorted_cons; [apply ssorted_cons; auto|].
      rewrite Forall_forall in *. intros y [<-|Hy]; [exact E|exact (slt_trans r a y E (H2 _ Hy))].
    + apply ssorted_cons.
      * apply IH; [exact H1|]. intros x Hx; apply NE; right; exact Hx.
      * rewrite Forall_forall in *. intros y Hy. apply ins_region_in in Hy as [->|Hy]; [|auto].
        exact (slt_of_not r a E (NE a (or_introl eq_refl))).
Qed.

Lemma ins_region_perm r T : Permutation (r :: T) (ins_region r T).
Proof.
  induction T as [|a T IH]; cbn; [reflexivity|].
  destruct (rlt r a); [reflexivity|]. rewrite perm_swap. constructor. exact IH.
Qed.

Lemma ins_region_middle r T1 T2 :
  (forall x, In x T1 -> slt x r) -> (forall y, In y T2 -> slt r y) ->
  ins_region r (T1 ++ T2) = T1 ++ r :: T2.
Proof.
  intros H1 H2. induction T1 as [|a T1 IH]; cbn.
  - destruct T2 as [|b T2]; cbn; [reflexivity|].
    specialize (H2 b (or_introl eq_refl)). destruct (rlt_spec r b); [reflexivity|contradiction].
  - specialize (H1 a (or_introl eq_refl)) as Ha.
    destruct (rlt_spec r a) as [L|_]; [unfold slt in *; exfalso; korder|].
    f_equal. apply IH. intros x Hx; apply H1; right; exact Hx.
Qed.

Lemma ins_region_filter_same r T : ssorted T -> In r T ->
  ins_region r (filter (fun y => negb (same r y)) T) = T.
Proof.
  intros H Hr. apply in_split in Hr as (T1 & T2 & ->).
  apply ssorted_app_inv in H as (A & B & C).
  apply ssorted_inv in B as [B1 B2]. rewrite Forall_forall in B2.
  rewrite filter_app. cbn. rewrite same_refl. cbn.
  assert (F1 : filter (fun y => negb (same r y)) T1 = T1).
  { apply filter_true_id. intros x Hx. rewrite (slt_same_r x r); [reflexivity|]. apply C; [exact Hx|left; reflexivity]. }
  assert (F2 : filter (fun y => negb (same r y)) T2 = T2).
  { apply filter_true_id. intros x Hx. rewrite (slt_same_l r x (B2 x Hx)). reflexivity. }
  rewrite F1, F2. apply ins_region_middle; [intros x Hx; apply C; [exact Hx|left; reflexivity] | exact B2].
Qed.

Lemma sort_regions_unique l T : Permutation l T -> ssorted T -> sort_regions l = T.
Proof.
  revert T; induction l as [|x l IH]; intros T P S.
  - apply Permutation_nil in P. subst; reflexivity.
  - change (sort_regions (x :: l)) with (ins_region x (sort_regions l)).
    assert (Hx : In x T) by (eapply Permutation_in; [exact P|left; reflexivity]).
    apply in_split in Hx as (T1 & T2 & ->).
    apply Permutation_cons_app_inv in P.
    apply ssorted_app_inv in S as (A & B & C).
    apply ssorted_inv in B as [B1 B2]. rewrite Forall_forall in B2.
    rewrite (IH (T1 ++ T2)); [| exact P |].
    + apply ins_region_middle; [intros y Hy; apply C; [exact Hy|left; reflexivity] | exact B2].
    + clear -A B1 C. induction T1 as [|a T1 IH]; cbn; [exact B1|].
      apply ssorted_inv in A as [A1 A2]. apply ssorted_cons.
      * apply IH; [exact A1|]. intros x0 y0 Hx0 Hy0; apply C; [right; exact Hx0|exact Hy0].
      * rewrite Forall_forall in *. intros y Hy. apply in_app_or in Hy as [Hy|Hy]; [auto|].
        specialize (C a y (or_introl eq_refl)). apply C. right; exact Hy.
Qed.

Lemma l0_rank_filter p T : ssorted T -> l0_rank rlt p T = length (filter (fun x => rlt x p) T).
Proof.
  intros H. induction T as [|a T IH]; cbn; [reflexivity|].
  apply ssorted_inv in H as [H1 H2]. destruct (rlt a p) eqn:E; cbn; [rewrite IH; auto|].
  rewrite filter_false_nil; [reflexivity|]. rewrite Forall_forall in H2. intros x Hx.
  exact (slt_rlt p x (slt_through a p x E (H2 x Hx))).
Qed.

Lemma l0_get_spec p T : ssorted T ->
  l0_get rlt p T = List.find (fun x => same p x) T.
Proof.
  intros H. induction T as [|a T IH]; cbn; [reflexivity|].
  apply ssorted_inv in H as [H1 H2].
  destruct (rlt a p) eqn:E1.
  - rewrite (slt_same_r a p E1). auto.
  - destruct (rlt p a) eqn:E2.
    + rewrite (slt_same_l p a E2). symmetry. apply find_none_intro. rewrite Forall_forall in H2.
      intros b Hb. exact (slt_same_l p b (slt_through a p b E1 (H2 b Hb))).
    + rewrite (same_of_not_rlt p a E1 E2). reflexivity.
Qed.
