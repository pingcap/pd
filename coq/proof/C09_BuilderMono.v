(* C09 — the plans of the operator builder never lower what an earlier step counts in ConfVerChanged:
   the syntactic criterion of proof/C09_Tidy.v on the joint path's script. *)
From PDV Require Import lib.Base model.C08_Steps model.C08_Builder proof.C08_ListFacts proof.C08_PlanProof proof.C08_SimPhases
     proof.C08_JointScript proof.C08_JointBuild proof.C08_JointMain proof.C09_CountProof proof.C09_OwnGeneral
     proof.C09_Tidy.
Local Open Scope list_scope.
Local Open Scope Z_scope.

Lemma tidy_from_map {A} (f : A -> step) : forall L done,
  (forall x l, In x done -> In l L -> compat x (f l) = true) ->
  ForallOrdPairs (fun l1 l2 => compat (f l1) (f l2) = true) L ->
  tidy_from done (map f L) = true.
Proof.
  induction L as [|l L IH]; intros done H1 H2; cbn [map tidy_from]; [reflexivity|].
  inversion H2 as [|? ? Hl Hr]; subst. apply andb_true_iff. split.
  - apply forallb_forall. intros x Hx. apply H1; [exact Hx|left; reflexivity].
  - apply IH; [|exact Hr]. intros x l' Hx Hl'. apply in_app_or in Hx as [Hx|[<-|[]]].
    + apply H1; [exact Hx|right; exact Hl'].
    + rewrite Forall_forall in Hl. apply Hl. exact Hl'.
Qed.

Lemma fop_of_nodup {A} (g : A -> Z) (R : A -> A -> Prop) L :
  NoDup (map g L) -> (forall a b, g a <> g b -> R a b) -> ForallOrdPairs R L.
Proof.
  induction L as [|a L IH]; intros Hn HR; [constructor|]. cbn [map] in Hn. inversion Hn as [|? ? Hna Hnd]; subst.
  constructor; [|apply IH; assumption]. apply Forall_forall. intros b Hb. apply HR. intros E. apply Hna. rewrite E. apply in_map. exact Hb.
Qed.

Lemma forallb_app_true {A} (f : A -> bool) l1 l2 : forallb f l1 = true -> forallb f l2 = true -> forallb f (l1 ++ l2) = true.
Proof. intros H1 H2. rewrite forallb_app, H1, H2. reflexivity. Qed.

Section JointPlan.
  Variables (light : bool) (A : list peer) (P D : list (Z * Z)) (R : list peer) (m : tmode) (ol tl : Z).
  Hypothesis HA : NoDup (map pstore A).
  Hypothesis HR : NoDup (map pstore R).
  Hypothesis HAR : forall a p, In a A -> In p R -> pstore a <> pstore p.
  Hypothesis HRP : forall p, In p R -> in_fst (pstore p) P = false.
  Hypothesis HAz : forall a, In a A -> pid a <> 0.
  Hypothesis HPz : pair_ids_nonzero P = true.
  Hypothesis HDz : pair_ids_nonzero D = true.

  (* the leader transfer, if this is the place the mode m puts it *)
  Let transfer_at (k : tmode) : list step :=
    match m, k with TBefore, TBefore | TInside, TInside | TAfter, TAfter => [TransferLeader ol tl] | _, _ => [] end.

  Lemma joint_plan_segments :
    joint_plan light A P D R m ol tl =
    add_steps light A ++ transfer_at TBefore ++ [ChangePeerV2Enter P D] ++ transfer_at TInside ++ [ChangePeerV2Leave P D] ++ transfer_at TAfter ++ remove_steps R.
  Proof. unfold joint_plan, transfer_at. destruct m; reflexivity. Qed.

  Lemma compat_transfer_any a b s : compat (TransferLeader a b) s = true.
  Proof. reflexivity. Qed.

  Lemma tidy_T done k rest : tidy_from done (transfer_at k ++ rest) = tidy_from done rest.
  Proof. unfold transfer_at. destruct m, k; try reflexivity; apply tidy_from_transfer. Qed.

  Lemma add_step_kind a : add_step light (pstore a) (pid a) = AddLearner (pstore a) (pid a) \/ add_step light (pstore a) (pid a) = AddLightLearner (pstore a) (pid a).
  Proof. unfold add_step. destruct light; auto. Qed.

  Lemma add_steps_In x : In x (add_steps light A) ->
    exists a, In a A /\ (x = AddLearner (pstore a) (pid a) \/ x = AddLightLearner (pstore a) (pid a)).
  Proof. unfold add_steps. intros H. apply in_map_iff in H as (a & <- & Ha). exists a. split; [exact Ha|apply add_step_kind]. Qed.

  Lemma compat_add_remove x p : In x (add_steps light A) -> In p R -> compat x (RemovePeer (pstore p) (pid p)) = true.
  Proof.
    intros H Hp. destruct (add_steps_In x H) as (a & Ha & Hx). pose proof (HAR a p Ha Hp) as Hne. apply Z.eqb_neq in Hne.
    destruct Hx as [-> | ->]; cbn [compat step_store]; rewrite Hne; reflexivity.
  Qed.
  Lemma compat_joint_remove x p : (x = ChangePeerV2Enter P D \/ x = ChangePeerV2Leave P D) -> In p R -> compat x (RemovePeer (pstore p) (pid p)) = true.
  Proof. intros [-> | ->] Hp; cbn [compat step_store]; rewrite (HRP p Hp); reflexivity. Qed.

  Lemma list_eqb_zz_refl l : list_eqb zz_eqb l l = true.
  Proof. induction l as [|[a b] l IH]; [reflexivity|]. cbn [list_eqb]. unfold zz_eqb at 1. cbn [fst snd]. rewrite !Z.eqb_refl. cbn [andb]. exact IH. Qed.

  Theorem joint_plan_syntactic :
    let plan := joint_plan light A P D R m ol tl in
    bracketed None plan = true /\ forallb step_ids_nonzero plan = true /\ tidy_from [] plan = true.
  Proof.
    cbv zeta. rewrite joint_plan_segments. split; [|split].
    - assert (B1 : forall l rest, (forall s, In s l -> br_ok None s = true /\ br_next None s = None) -> bracketed None (l ++ rest) = bracketed None rest).
      { induction l as [|s l IH]; intros rest H; cbn [app bracketed]; [reflexivity|].
        destruct (H s (or_introl eq_refl)) as [E1 E2]. rewrite E1, E2. cbn [andb]. apply IH. intros s' Hs'. apply H. right. exact Hs'. }
      assert (BT : forall k open rest, bracketed open (transfer_at k ++ rest) = bracketed open rest).
      { intros k open rest. unfold transfer_at. destruct m, k; cbn [app]; try reflexivity; destruct open as [[? ?]|]; reflexivity. }
      assert (BR : bracketed None (remove_steps R) = true).
      { rewrite <- (app_nil_r (remove_steps R)). rewrite B1; [reflexivity|].
        intros s Hs. unfold remove_steps in Hs. apply in_map_iff in Hs as (p & <- & _). split; reflexivity. }
      rewrite B1.
      2:{ intros s Hs. destruct (add_steps_In s Hs) as (a & _ & [-> | ->]); split; reflexivity. }
      rewrite BT. cbn [app bracketed br_ok br_next andb].
      destruct (empty_pairs P D) eqn:Ee; rewrite BT; cbn [app bracketed br_ok br_next]; rewrite ?Ee, ?list_eqb_zz_refl; cbn [andb]; rewrite BT; exact BR.
    - assert (ZT : forall k, forallb step_ids_nonzero (transfer_at k) = true) by (intros k; unfold transfer_at; destruct m, k; reflexivity).
      repeat apply forallb_app_true; auto.
      + apply forallb_forall. intros s Hs. destruct (add_steps_In s Hs) as (a & Ha & Hx).
        pose proof (HAz a Ha) as Hz. apply Z.eqb_neq in Hz. destruct Hx as [-> | ->]; cbn; rewrite Hz; reflexivity.
      + cbn. rewrite HPz, HDz. reflexivity.
      + cbn. rewrite HPz, HDz. reflexivity.
      + apply forallb_forall. intros s Hs. unfold remove_steps in Hs. apply in_map_iff in Hs as (p & <- & _). reflexivity.
    - (* compatibility: the transfers can be left out; then adds, enter, leave, removals in this order *)
      rewrite tidy_from_app, tidy_T. cbn [app tidy_from]. rewrite tidy_T. cbn [app tidy_from]. rewrite tidy_T.
      repeat (apply andb_true_iff; split).
      + unfold add_steps. apply tidy_from_map; [intros x l []|].
        apply (fop_of_nodup pstore _ A HA). intros a b Hne. apply Z.eqb_neq in Hne.
        destruct (add_step_kind a) as [-> | ->], (add_step_kind b) as [-> | ->]; cbn [compat step_store]; rewrite Hne; reflexivity.
      + apply forallb_forall. intros x Hx. destruct (add_steps_In x Hx) as (a & _ & [-> | ->]); reflexivity.
      + apply forallb_app_true; [|cbn [forallb compat]; rewrite !list_eqb_zz_refl; reflexivity].
        apply forallb_forall. intros x Hx. destruct (add_steps_In x Hx) as (a & _ & [-> | ->]); reflexivity.
      + unfold remove_steps. apply tidy_from_map.
        * intros x p Hx Hp. apply in_app_or in Hx as [Hx|[<-|[]]]; [apply in_app_or in Hx as [Hx|[<-|[]]]|].
          -- apply compat_add_remove; assumption.
          -- apply compat_joint_remove; auto.
          -- apply compat_joint_remove; auto.
        * apply (fop_of_nodup pstore _ R HR). intros a b Hne. apply Z.eqb_neq in Hne. cbn [compat step_store]. rewrite Hne. reflexivity.
  Qed.
End JointPlan.

Theorem builder_joint_monotone_pf i b ss kl kr :
  nodup_stores (peers (i_region i)) = true ->
  is_in_joint (i_region i) = false ->
  (exists lp, get_store_peer (i_region i) (leader (i_region i)) = Some lp /\ prole lp = Voter) ->
  region_ids_nonzero (i_region i) = true -> (forall a, In a (b_add b) -> pid a <> 0) ->
  prepared i = Some b -> b_use_joint b = true -> build i = Built ss kl kr ->
  monotone_from [] (i_region i) ss = true.
Proof.
  intros Hnd Hnj Hlead Hidz Haz Hprep Huj Hbuild.
  pose proof (plan_ok_check _ _ _ (builder_joint_plan_ok_general_pf i b ss kl kr Hnd Hnj Hlead Hprep Huj Hbuild)) as Hpc.
  pose proof (prepared_prep i b Hnd Hnj Hlead Hprep) as Pp.
  destruct (joint_build_script i b ss kl kr Pp Huj Hprep Hbuild) as (_ & _ & m & -> & _).
  destruct (joint_params_of i b Pp Huj) as [JA JAf JP JD _ _ _ JR JRl JRo].
  (* ids of everything before the joint steps = origin ++ learners of the adds *)
  assert (Hps1z : forall st q, lk (peers (i_region i) ++ map learner_of (b_add b)) st = Some q -> pid q <> 0).
  { intros st q Hq. rewrite lk_app in Hq. destruct (lk (peers (i_region i)) st) as [q0|] eqn:E0.
    - inv Hq. eapply region_pid_nonzero; eauto.
    - apply lk_Some in Hq as [Hin _]. apply in_map_iff in Hin as (a & <- & Ha). cbn. apply Haz. exact Ha. }
  destruct (joint_plan_syntactic (b_light b) (b_add b) (joint_P b) (joint_D b) (b_remove b) m (leader (i_region i)) (joint_tl b)) as (B & Z & Tdy).
  - exact JA.
  - exact JR.
  - (* adds go to free stores, removals are origin peers *)
    intros a p Ha Hp E. destruct (JRo p Hp) as [Hr _]. rewrite <- E, (JAf a Ha) in Hr. discriminate.
  - (* a removed store is not promoted: it is a learner after the leave step *)
    intros p Hp. destruct (in_fst (pstore p) (joint_P b)) eqn:E; [|reflexivity]. exfalso.
    unfold in_fst in E. apply existsb_exists in E as (x & Hx & Hs). apply Z.eqb_eq in Hs.
    pose proof (JRl p Hp) as Hl4. unfold post_joint in Hl4.
    rewrite lk_map in Hl4 by apply leave_role_store. rewrite lk_map in Hl4 by (intros q; apply enter_role_store).
    rewrite <- Hs, (JP x Hx) in Hl4. cbn [option_map] in Hl4.
    unfold enter_role in Hl4. cbn [pstore pid] in Hl4. rewrite (memst_true _ _ x Hx eq_refl) in Hl4. cbn in Hl4. discriminate.
  - exact Haz.
  - apply forallb_forall. intros x Hx. apply negb_true_iff, Z.eqb_neq. apply (Hps1z _ _ (JP x Hx)).
  - apply forallb_forall. intros x Hx. apply negb_true_iff, Z.eqb_neq. apply (Hps1z _ _ (JD x Hx)).
  - apply (tidy_monotone (goal_of b) _ [] (i_region i) None); auto. apply (pp_nj _ _ Pp).
Qed.
