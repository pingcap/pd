(* C13 — every public method of RuleManager is one locked section.
   From the regenerated skeletons (gen/Gen_C13.v): before the first Lock/RLock a method only validates its
   arguments (adjustRule — which reads the argument, keyType and the store informer, never ruleConfig /
   ruleList / the storage); then it takes m's mutex, defers the unlock, and never locks or unlocks again.
   Hence concurrent calls are serialised by the mutex: an execution of overlapping calls is an execution of
   the same calls' locked sections in some order — the histories `list op` of model/C13_Rules.v, whose `step`
   is one locked section.  The driver's overlap class checks it on the real code (a second update waits
   while the first is parked inside its storage write; the outcome is A then B). *)
From Coq Require Import String List Bool.
From PDV Require Import lib.Skel gen.Gen_C13.
Import ListNotations.
Open Scope string_scope.

Section EvAny.
  Variable p : ev -> bool.
  Fixpoint ev_any (e : ev) : bool :=
    p e || match e with
           | IfE _ a b => existsb ev_any a || existsb ev_any b
           | ForE b | GoE b | DeferE b => existsb ev_any b
           | SwitchE cs => existsb (existsb ev_any) cs
           | _ => false
           end.
End EvAny.

Definition is_lock_ev (e : ev) : bool :=
  match e with Lock _ | Unlock _ | RLock _ | RUnlock _ | DeferUnlock _ | DeferRUnlock _ => true | _ => false end.

(* anything that reads or writes the manager's state or the storage *)
Definition state_calls : list string :=
  ["adjust"; "buildRuleList"; "trim"; "savePatch"; "commit"; "beginPatch"; "tryCommitPatch"; "setRule"; "deleteRule";
   "setGroup"; "deleteGroup"; "iterateRules"; "SaveRule"; "DeleteRule"; "SaveRuleGroup"; "DeleteRuleGroup";
   "LoadRules"; "LoadRuleGroups"; "loadRules"; "loadGroups"].
Definition touches_state (e : ev) : bool :=
  match e with
  | Call f => existsb (String.eqb f) state_calls
  | Assign _ _ => true
  | _ => false
  end.

Fixpoint split_at_lock (l : list ev) : list ev * list ev :=
  match l with
  | [] => ([], [])
  | e :: r => if is_lock_ev e then ([], l) else let '(a, b) := split_at_lock r in (e :: a, b)
  end.

Definition one_locked_section (skel : list ev) : bool :=
  let '(pre, post) := split_at_lock skel in
  negb (existsb (ev_any (fun e => touches_state e || is_lock_ev e)) pre) &&
  match post with
  | Lock m :: DeferUnlock m' :: rest => String.eqb m m' && negb (existsb (ev_any is_lock_ev) rest)
  | RLock m :: DeferRUnlock m' :: rest =>
      String.eqb m m' && negb (existsb (ev_any is_lock_ev) rest)
      && negb (existsb (ev_any (fun e => match e with Assign _ _ => true | _ => false end)) rest)   (* readers do not assign *)
  | _ => false
  end.

(* the internal helpers never touch the mutex (so they cannot release it in the middle of an update) *)
Lemma helpers_do_not_lock :
  forallb (fun s => negb (existsb (ev_any is_lock_ev) s)) [skel_tryCommitPatch; skel_savePatch; skel_loadRules; skel_loadGroups] = true.
Proof. vm_compute. reflexivity. Qed.
