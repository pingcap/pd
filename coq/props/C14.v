(* C14 — Store lifecycle is a one-way state machine and stays durable.
   Statements with short derivations: the lifecycle notions are in proof/C14_StoreProof.v, the pass over the commands
   (run_cmd_effect) and the durability notions in proof/C14_Durable.v, structural obligations in proof/C14_Skel.v.
   Quantification: `s` is ANY model state and `o` ANY command (put-store new / same id / same address,
   direct or through the gRPC handler, label update, remove with or without physically-destroyed, up,
   bury (hook), check-stores, set-weight, tombstone cleanup, store heartbeat, region placement), each with
   an arbitrary storage fault (none / not applied / applied-but-error at any write of any store); the
   history statements quantify over every operation list `ops` from every boot state. *)
From Coq Require Import String.
From PDV Require Import lib.Base lib.C14_AList model.C14_Store proof.C14_StoreProof proof.C14_Durable proof.C14_Skel.
Local Open Scope string_scope.
Local Open Scope Z_scope.

(* Up->Offline, Offline->Up unless physically destroyed, Offline->Tombstone, nothing else; the
   physically-destroyed flag is never cleared; a record appears only by a put of that id and
   disappears only as a tombstone through the cleanup.  (smove_ok is the boolean the monitor runs
   on implementation traces, here on the model's records before and after ANY command.) *)
Theorem C14_state_one_way :
  forall s o s' r, run_cmd s o = (s', r) -> forall id, smove_ok o id (sv s id) (sv s' id) = true.
Proof. intros s o s' r H id. eapply change_move_ok, run_cmd_change, H. Qed.

Theorem C14_tombstone_absorbing :
  forall s o s' r id x, run_cmd s o = (s', r) -> sv s id = Some x -> s_state x = Tombstone ->
    (exists y, sv s' id = Some y /\ s_state y = Tombstone) \/ (sv s' id = None /\ is_clean o = true).
Proof.
  intros s o s' r id x H E T. pose proof (run_cmd_change _ _ _ _ H id) as C. rewrite E in C.
  destruct (change_tombstone _ _ _ _ _ C T) as [(y&Ey&Ty)|[En Hc]]; eauto.
Qed.

Theorem C14_tombstone_refused :
  forall s id x, sv s id = Some x -> s_state x = Tombstone ->
    (forall p f, p_id p = id -> run_cmd s (OPut true p f) = (s, RGrpcTombstone)) /\
    (forall f, run_cmd s (OHeartbeat id f) = (s, RGrpcTombstone)).
Proof.
  intros s id x E T. apply is_tomb_true in T. split.
  - intros p f <-. cbn [run_cmd]. rewrite E, T. reflexivity.
  - intros f. cbn [run_cmd]. unfold do_heartbeat. rewrite E, T. reflexivity.
Qed.

(* "... unless it was declared physically destroyed": the declaration is recorded and refuses UpStore *)
Theorem C14_destroyed_is_recorded_and_final :
  forall s id f s', run_cmd s (ORemove id true f) = (s', ROk) ->
    (exists y, sv s' id = Some y /\ s_state y = Offline /\ s_pd y = true) /\
    (forall f', run_cmd s' (OUp id f') = (s', RDestroyed)).
Proof. exact remove_destroyed. Qed.

(* a store becomes tombstone only while no region has a peer on it, whichever command does it: since fix 2f015b8 buryStore
   itself looks at the region tree under the cluster lock, so the former exemption of a direct buryStore call is gone *)
Theorem C14_bury_only_empty :
  forall s o s' r id x y, run_cmd s o = (s', r) ->
    sv s id = Some x -> sv s' id = Some y -> s_state x <> Tombstone -> s_state y = Tombstone ->
    tree_count s id = 0.
Proof.
  intros s o s' r id x y H Ex Ey Nx Ty. pose proof (run_cmd_change _ _ _ _ H id) as C. rewrite Ex, Ey in C.
  exact (change_bury _ _ _ _ _ C Nx Ty).
Qed.

(* two served stores that are neither tombstone nor physically destroyed never share an address,
   after any history from any boot state *)
Theorem C14_live_addresses_unique :
  forall cv p ops, addr_inv (run_state run_op (boot cv p) ops).
Proof. exact addr_inv_reach. Qed.

(* ---------- durability ----------
   (proved on the code as repaired by the fix commits 7f1a0f1, 0d04e9a, eebcdab in /repo; on the tree before them both
   full statements were refuted, by the witnesses that are now the regression theorems below) *)
(* "After every successful change the stored record equals the served record."
   sproj = the lifecycle/identity fields of the served record (address, state, physically-destroyed,
   labels, version, weights); stored_proj = what LoadStores rebuilds from the meta record and the two
   weight keys; agree s id : sproj s id = stored_proj s id.  Stated for every command issued in any
   state reachable from any boot state by any history with any faults; a command counts as successful when it
   reports no error (check-stores reports nothing), and for the tombstone cleanup also when it stopped at an error
   (what it removed before is removed on both sides). *)
Definition C14_success_implies_stored_eq_served_full : Prop := success_full.
Theorem C14_success_implies_stored_eq_served : C14_success_implies_stored_eq_served_full.
Proof. intros cv p ops o s' r H Hr id Hc. exact (success_agree _ _ _ _ _ (Winv_reach cv p ops) H Hr Hc). Qed.

(* the meta record alone is in step in ANY state (no reachability needed) *)
Theorem C14_changed_meta_is_stored :
  forall s o s' r, run_cmd s o = (s', r) -> (is_err r = false \/ is_clean o = true) ->
    forall id, sproj s' id <> sproj s id -> synced s' id.
Proof. intros s o s' r H Hr id Hc. destruct (run_cmd_outcome _ _ _ _ H id) as [E|_ Hs]; [contradiction|exact Hs]. Qed.

(* "A failed storage write leaves the served state unchanged.": any state, any command, any fault *)
Definition C14_failed_write_keeps_served_full : Prop := failed_full.
Theorem C14_failed_write_keeps_served : C14_failed_write_keeps_served_full.
Proof.
  intros s o s' r H He Hc id. destruct (run_cmd_outcome _ _ _ _ H id) as [E|[Hr|Hr] _]; [exact E|congruence..].
Qed.

(* the cleanup that stops at a storage error: every record it touched is gone on both sides *)
Theorem C14_partial_cleanup_consistent :
  forall s order f s' r, run_cmd s (OClean order f) = (s', r) -> forall id, sproj s' id = sproj s id \/ synced s' id.
Proof. intros s order f s' r H id. destruct (run_cmd_outcome _ _ _ _ H id) as [E|_ Hs]; auto. Qed.

(* regressions: the three old witnesses, as they behave now *)
Theorem C14_regression_weight_rollback :
  let s1 := reach (0, 0, 0) boot1 [OWeight 1 3 4 (Fault 1 1 FBefore)] in
  aget (st_lw s1) 1 = None /\
  exists s', run_cmd s1 (ORemove 1 false NoFault) = (s', ROk) /\ agree s' 1.
Proof. cbn zeta. split; [vm_compute; reflexivity|]. eexists. split; [vm_compute; reflexivity|]. unfold agree. vm_compute. reflexivity. Qed.
Theorem C14_regression_cleanup_removes_weight_keys :
  exists s' r, run_cmd (reach (0, 0, 0) boot1 w_cleanup) (OPut false (Payload 1 "a1" Up false [] (Some (4, 0, 0))) NoFault) = (s', r)
    /\ r = ROk /\ agree s' 1.
Proof. eexists; eexists. split; [vm_compute; reflexivity|]. split; [reflexivity|]. unfold agree. vm_compute. reflexivity. Qed.
Theorem C14_regression_failed_put_keeps_labels :
  run_cmd (boot (0, 0, 0) boot1) (OPut false (Payload 1 "a1" Up false [("zone", "z2"); ("host", "")] (Some (4, 0, 0))) (Fault 1 0 FBefore))
  = (boot (0, 0, 0) boot1, RStorage).
Proof. vm_compute. reflexivity. Qed.

(* ---------- non-vacuity ---------- *)
(* a history with two stores, a fault of each kind, offline -> up -> offline -> tombstone, a refused
   gRPC re-registration, the cleanup and a re-registration *)
Definition ex_ops : list op :=
  [OPut true (Payload 2 "a2" Up false [("zone", "z2")] (Some (4, 0, 5))) NoFault;
   OPut false (Payload 3 "a2" Up false [] (Some (4, 0, 0))) NoFault;            (* duplicate address *)
   ORegion 1 [1; 2];
   ORemove 2 false (Fault 2 0 FBefore); ORemove 2 false NoFault; OUp 2 (Fault 2 0 FAfter); OUp 2 NoFault;
   ORemove 2 true NoFault; OUp 2 NoFault;                                      (* physically destroyed: refused *)
   OCheck [] NoFault;                                                           (* still holds region 1 *)
   ORegion 1 [1]; OCheck [2] NoFault;
   OPut true (Payload 2 "a2" Up false [] (Some (4, 0, 5))) NoFault; OHeartbeat 2 NoFault;
   OClean [2] NoFault; OPut true (Payload 2 "a2" Up false [] (Some (4, 0, 5))) NoFault].
Example C14_nonvacuous :
  map o_res (run run_op (boot (0, 0, 0) boot1) ex_ops) =
    [ROk; RDupAddr; ROk; RStorage; ROk; RStorage; ROk; ROk; RDestroyed; RNone; ROk; RNone;
     RGrpcTombstone; RGrpcTombstone; ROk; ROk]
  /\ map (fun b => map (fun e => (fst e, v_state (snd e))) (o_served b)) (firstn 2 (skipn 11 (run run_op (boot (0, 0, 0) boot1) ex_ops)))
     = [[(1, Up); (2, Tombstone)]; [(1, Up); (2, Tombstone)]].
Proof. vm_compute. split; reflexivity. Qed.
(* ---------- the guards of PutStore that depend on the replication settings (OSetEnv changes them) ---------- *)
(* strictly-match-label: a registration or label update whose (merged) labels miss a location label or carry an unknown key is
   refused and nothing changes; the merged labels are those of merge_labels (UpdateStoreLabels / PutStore without force) *)
Theorem C14_strict_label_mismatch_refused :
  forall s p (force : bool) f v,
    p_id p <> 0 -> p_ver p = Some v -> compatible (cver s) v = true -> dup_addr s (p_id p) (p_addr p) = false ->
    labels_rejected (cenv s) (match sv s (p_id p) with
                              | None => p_labels p
                              | Some old => if force then p_labels p else merge_labels (s_labels old) (p_labels p)
                              end) = true ->
    put_impl s p force f = (s, RLabel).
Proof.
  intros s p force f v Hid Hv Hc Hd Hl. unfold put_impl.
  destruct (Z.eqb_spec (p_id p) 0); [contradiction|]. rewrite Hv, Hc, Hd. cbn [negb].
  destruct (sv s (p_id p)) as [old|]; rewrite Hl; reflexivity.
Qed.
(* the gRPC registration of a TiFlash store while placement rules are disabled is refused (after the tombstone guard) and nothing changes *)
Theorem C14_tiflash_refused_without_placement_rules :
  forall s p f, e_pr (cenv s) = false -> is_tiflash (p_labels p) = true ->
    (forall x, sv s (p_id p) = Some x -> s_state x <> Tombstone) ->
    run_cmd s (OPut true p f) = (s, RTiFlash).
Proof.
  intros s p f Hp Ht Hx. cbn [run_cmd]. cbv zeta. rewrite Hp, Ht. cbn [negb andb].
  destruct (sv s (p_id p)) as [x|] eqn:E; [|reflexivity].
  assert (T : is_tomb x = false) by (apply is_tomb_false, Hx; reflexivity). rewrite T. reflexivity.
Qed.

(* ---------- several failing writes in one operation (the restoring writes can fail too) ----------
   C14_success_implies_stored_eq_served and C14_failed_write_keeps_served above are stated for at most one failing write per
   operation (type `fault`): the best-effort writes that put the weight keys back succeed.  The layer do_weight_m /
   delete_store_m follows SetStoreWeight / SaveStoreWeight / DeleteStore write by write with ANY set of failing writes. *)
(* what holds for any set of failing writes: an operation that reports an error leaves what is served exactly as it was *)
Theorem C14_failed_write_keeps_served_any_faults :
  forall s o mf s' r, run_mop s o mf = (s', r) -> r <> ROk -> served s' = served s.
Proof. exact multi_failed_keeps_served. Qed.
(* with at most one failing write the layer IS the single-fault model, so the theorems above carry over to it *)
Theorem C14_multi_fault_layer_refines_single_fault_model :
  (forall s id lw rw, do_weight_m s id lw rw [] = do_weight s id lw rw NoFault) /\
  (forall s id lw rw i k, do_weight_m s id lw rw [(i, k)] = do_weight s id lw rw (Fault id i k)) /\
  (forall s id i k, delete_store_m s id [(i, k)] = delete_store s id (Fault id i k)).
Proof.
  split; [intros; apply do_weight_refines; [reflexivity|intros j1 j2 _; discriminate]|].
  split; intros; [apply do_weight_refines|apply delete_store_refines]; (apply wr_self || apply single_one).
Qed.
(* "stored = served after a failed operation" NEEDS the hypothesis that the restoring writes succeed: second failing write = the one
   that puts the leader weight back; error reported, served weight 1, stored leader weight 5 (nothing more can be done without storage) *)
Theorem C14_failed_op_stored_eq_served_needs_restoring_writes :
  exists s', do_weight_m multi_base 2 5 7 [(1%nat, FBefore); (2%nat, FBefore)] = (s', RStorage) /\
    served s' = served multi_base /\ aget (st_lw s') 2 = Some 5 /\ sv s' 2 = Some (SStore "a2" Up false [] (4, 0, 0) 1 1 0 false).
Proof. eexists. vm_compute. repeat split; reflexivity. Qed.

(* ---------- a new leader loads the same storage (LoadClusterInfo; Storage.LoadStores pages through every record) ---------- *)
(* what the new leader serves for an id is exactly the stored record with its weight keys, for EVERY id (no record is skipped) *)
Theorem C14_new_leader_serves_stored : forall s id, sproj (restart s) id = stored_proj s id.
Proof.
  intros s id. unfold sproj, stored_proj, sv, sm, restart. cbn [served].
  rewrite (aget_map_entries (fun i m => SStore (m_addr m) (m_state m) (m_pd m) (m_labels m) (m_ver m)
                                         (match aget (st_lw s) i with Some w => w | None => 1 end)
                                         (match aget (st_rw s) i with Some w => w | None => 1 end) 0 false)).
  destruct (aget (st_meta s) id) as [m|]; reflexivity.
Qed.
(* so a store whose served record agrees with storage - what every successful change establishes (C14_success_implies_stored_eq_served) -
   is served unchanged: a tombstone stays a tombstone, a live address stays taken *)
Theorem C14_new_leader_keeps_agreeing_store : forall s id, agree s id -> sproj (restart s) id = sproj s id.
Proof. intros s id A. rewrite C14_new_leader_serves_stored. symmetry. exact A. Qed.
Theorem C14_new_leader_keeps_storage :
  forall s, st_meta (restart s) = st_meta s /\ st_lw (restart s) = st_lw s /\ st_rw (restart s) = st_rw s.
Proof. intros s. unfold restart. cbn. auto. Qed.
Theorem C14_reload_idempotent : forall s id, sproj (restart (restart s)) id = sproj (restart s) id.
Proof. intros s id. rewrite !C14_new_leader_serves_stored. reflexivity. Qed.

Print Assumptions C14_state_one_way.
Print Assumptions C14_tombstone_absorbing.
Print Assumptions C14_tombstone_refused.
Print Assumptions C14_destroyed_is_recorded_and_final.
Print Assumptions C14_bury_only_empty.
Print Assumptions C14_live_addresses_unique.
Print Assumptions C14_success_implies_stored_eq_served.
Print Assumptions C14_changed_meta_is_stored.
Print Assumptions C14_failed_write_keeps_served.
Print Assumptions C14_partial_cleanup_consistent.
Print Assumptions C14_regression_weight_rollback.
Print Assumptions C14_regression_cleanup_removes_weight_keys.
Print Assumptions C14_regression_failed_put_keeps_labels.
Print Assumptions C14_failed_write_keeps_served_any_faults.
Print Assumptions C14_multi_fault_layer_refines_single_fault_model.
Print Assumptions C14_failed_op_stored_eq_served_needs_restoring_writes.
Print Assumptions C14_strict_label_mismatch_refused.
Print Assumptions C14_tiflash_refused_without_placement_rules.
Print Assumptions C14_new_leader_serves_stored.
Print Assumptions C14_new_leader_keeps_agreeing_store.
Print Assumptions C14_new_leader_keeps_storage.
Print Assumptions C14_reload_idempotent.
