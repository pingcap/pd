(* C17 — Persisted stores and regions are loaded back completely and pruned consistently.
   The statements, each with its short derivation from proof/C17_PagingProof.v (the loop), proof/C17_WarmProof.v (the cluster's load
   callback), proof/C17_StorageProof.v (histories), proof/C17_PruneProof.v (loads over a warm cache, pruning); obligations in proof/C17_Skel.v.

   Quantification.  `ops` ranges over all histories of SaveStore / DeleteStore / SaveStoreWeight / SaveRegion /
   DeleteRegion / Flush / reopen / byte-budget changes / loads, with arbitrary uint64 ids (`ops_ok`: 0 <= id < 2^64) —
   any number of items, any id distribution; page limits and fault patterns are universally quantified in the
   paging theorem (C17_paging_exact: any limit >= 1, any minimum, any LoadRange fault oracle, any callback that only
   deletes ids it has been shown).  Storage faults: a Save / Remove on Storage.Base may return an error with the write
   applied or not (ops O…F with the flag `applied`): the want-functions count such a write iff it was applied, i.e. an
   acknowledged write is always reflected and an errored one leaves the old or the new value, nothing else; the timed
   background flush of RegionStorage is the label OTick, admitted anywhere in a plain history.  The defects found here are repaired in /repo: S9 at both loaders (fce77ba), S10 (8a5de01),
   the load callback over a warm or lagging cache (dc3cb19), DeleteStore / SaveStoreWeight and the weight keys (eebcdab, 0d04e9a);
   the statements below are about the repaired code.  Namespaces are id-sorted association lists (zero-padded keys: lemma
   C17_pad_covers_uint64); LoadRange is end-exclusive (obligations src_*_LoadRange_ok). *)
From Coq Require Import String.
From PDV Require Import lib.Base lib.C17_Map gen.Gen_C17 model.C17_Storage
     proof.C17_PagingProof proof.C17_StorageProof proof.C17_PruneProof proof.C17_WarmProof proof.C17_Skel.
Local Open Scope Z_scope.
Local Open Scope list_scope.

(* 20 zero-padded digits hold every uint64, so key order equals id order *)
Theorem C17_pad_covers_uint64 :
  two64 <= 10 ^ Gen_C17.store_key_pad /\ two64 <= 10 ^ Gen_C17.region_key_pad /\
  two64 <= 10 ^ Gen_C17.leader_weight_key_pad /\ two64 <= 10 ^ Gen_C17.region_weight_key_pad.
Proof. exact pad_covers_uint64. Qed.

(* Never an endless loop (given the stated fuel) — also not at the uint64 boundary, where nextID = id + 1 wraps to 0;
   when it finishes, the callback has seen exactly the items with next <= id < 2^64, each once, in id order, and
   storage / callback state are the result of processing them in that order. *)
Theorem C17_paging_exact :
  forall (V C : Type) (fails : nat -> amap V -> bool) (cb : C -> Z * V -> C * list Z) (min_limit : Z),
    1 <= min_limit ->
    forall (J : C -> Z -> Prop),
      (forall c b b', J c b -> b <= b' -> J c b') ->
      (forall c it, J c (fst it) ->
         (forall d, In d (snd (cb c it)) -> d <= fst it) /\ J (fst (cb c it)) (fst it + 1)) ->
    forall fuel m next limit call c acc lo0,
      sorted_from lo0 m -> 0 <= next -> J c next -> 1 <= limit ->
      (length (todo m next) + Z.to_nat (Z.log2 limit) < fuel)%nat ->
      let res := page_loop fails cb no_rw min_limit fuel m next limit call c acc in
      fst (fst (fst res)) <> RDiverged /\
      (fst (fst (fst res)) = RDone ->
         snd (fst (fst res)) = acc ++ todo m next /\ (snd (fst res), snd res) = final cb m c (todo m next)) /\
      sorted_from lo0 (snd (fst res)).
Proof.
  intros V C fails cb min_limit Hmin J Jm Js fuel m next limit call c acc lo0 Hs Hn HJ Hl Hf.
  destruct (page_loop_exact fails cb no_rw min_limit Hmin J Jm Js fuel m next limit call c acc lo0 Hs Hn HJ Hl Hf) as (A & B & D & _).
  exact (conj A (conj B D)).
Qed.

(* the same for a callback that may also REWRITE the record it is shown (rw: the cluster's load callback brings a stale record
   of a cached id up to date): any callback that - whatever its state - only has records deleted that the scan has reached.
   Last clause: without LoadRange failures the load ends with RDone. *)
Theorem C17_paging_exact_with_rewrite :
  forall (V C : Type) (fails : nat -> amap V -> bool) (cb : C -> Z * V -> C * list Z) (rw : C -> Z * V -> option V) (min_limit : Z),
    1 <= min_limit ->
    (forall c it d, In d (snd (cb c it)) -> d <= fst it) ->
    forall fuel m next limit call c acc,
      sorted_from 0 m -> 0 <= next -> 1 <= limit ->
      (length (todo m next) + Z.to_nat (Z.log2 limit) < fuel)%nat ->
      let res := page_loop fails cb rw min_limit fuel m next limit call c acc in
      fst (fst (fst res)) <> RDiverged /\
      (fst (fst (fst res)) = RDone ->
         snd (fst (fst res)) = acc ++ todo m next /\ (snd (fst res), snd res) = final_rw cb rw m c (todo m next)) /\
      sorted_from 0 (snd (fst res)) /\
      ((forall n p, fails n p = false) -> fst (fst (fst res)) = RDone).
Proof.
  intros V C fails cb rw min_limit Hmin Hcb fuel m next limit call c acc Hs Hn Hl Hf.
  exact (page_loop_exact fails cb rw min_limit Hmin (fun _ _ => True) (fun _ _ _ _ _ => I) (fun c it _ => conj (Hcb c it) I)
           fuel m next limit call c acc 0 Hs Hn I Hl Hf).
Qed.

(* the adaptive limit of loadRegions walks 10000, 5000, 2500, 1250, 625, 312, 156 and then gives up *)
Theorem C17_region_limit_chain : Chain Gen_C17.minKVRangeLimit 156 Gen_C17.maxKVRangeLimit.
Proof. exact region_limit_chain. Qed.

(* Every store saved and not deleted is returned exactly once by LoadStores, with the weights last saved (default
   1.0), for every history and every id in [0, 2^64) — the maximum id included (fce77ba; the witness [OSaveStore (2^64-1) 7]
   of S9 is the Example C17_max_id_is_loaded). *)
Theorem C17_load_returns_each_saved_once :
  forall ops, ops_ok ops ->
    let s := run_state run_op sinit ops in
    snd (run_op s OLoadStores) = BStores RDone (map (decorate s) (stores s)) /\
    sorted_from 0 (stores s) /\
    (forall id, lookup (lweight s) id = fold_left lw_want ops no_want id) /\
    (forall id, lookup (rweight s) id = fold_left rw_want ops no_want id) /\
    forall id p, fold_left store_want ops no_want id = Some p <->
                 In (id, p, weight_of (lweight s) id, weight_of (rweight s) id) (map (decorate s) (stores s)).
Proof.
  intros ops Hok s. destruct (stores_are_what_history_left ops Hok) as (I & A & B & C). fold s in I, A, B, C.
  pose proof (i_stores s I) as Hs.
  cbn [run_op]. rewrite (load_stores_spec _ Hs), (stores_all_pass ops Hok _ Hs A).
  split; [reflexivity|]. split; [exact Hs|]. split; [exact B|]. split; [exact C|].
  intros id p. rewrite <- A, <- (in_lookup _ 0 _ _ Hs), in_map_iff. split.
  - intros Hin. exists (id, p). auto.
  - intros ([k v] & E & Hin). inversion E; subst. exact Hin.
Qed.

(* The regions namespace is what the history left; whatever the byte budget the load never loops for ever and, when it
   finishes, returns every region exactly once in id order; it finishes whenever pages of at most 156 items fit. *)
Theorem C17_load_regions_direct :
  forall ops, ops_ok ops -> direct_ops ops = true ->
    let s := run_state run_op sinit ops in
    (forall id, lookup (base_r s) id = fold_left region_want ops no_rwant id) /\
    sorted_from 0 (base_r s) /\
    (exists st l, snd (run_op s OLoadRegions) = BRegions st l /\ st <> RDiverged /\ (st = RDone -> l = base_r s)) /\
    ((forall page, Z.of_nat (length page) <= 156 -> over_budget (budget s) O page = false) ->
     snd (run_op s OLoadRegions) = BRegions RDone (base_r s)).
Proof.
  intros ops Hok Hp s. pose proof (inv_run ops sinit inv_init Hok) as I. fold s in I.
  destruct (direct_follow ops sinit no_rwant inv_init Hok Hp eq_refl (fun id => eq_refl)) as [D1 D2]. fold s in D1, D2.
  destruct (direct_load_budget_obs s I D1) as [B1 B2]. rewrite (regions_all_pass ops Hok _ (i_base s I) D2) in B1, B2.
  exact (conj D2 (conj (i_base s I) (conj B1 B2))).
Qed.

(* Once Flush has returned, leveldb holds exactly what the history saved and did not delete, and a load returns it
   (8a5de01: a delete also drops the pending save; the witness save 5, delete 5, flush of S10 is the Example
   C17_delete_drops_pending_save). *)
Theorem C17_flush_makes_durable :
  forall ops, ops_ok ops -> plain_ops ops = true ->
    let s := run_state run_op srs (ops ++ [OFlush]) in
    batch s = [] /\
    (forall id, lookup (ldb s) id = fold_left region_want ops no_rwant id) /\
    sorted_from 0 (ldb s) /\
    snd (run_op s OLoadRegions) = BRegions RDone (ldb s).
Proof.
  intros ops Hok Hp s.
  destruct (flush_makes_durable srs no_rwant ops (inv_step sinit (OSwitch true) inv_init I) eq_refl (fun id => eq_refl) Hok Hp) as (B & Is & Rs & L).
  fold s in B, Is, Rs, L. rewrite (rs_load_obs s Is Rs), (regions_all_pass ops Hok _ (i_ldb s Is) L).
  exact (conj B (conj L (conj (i_ldb s Is) eq_refl))).
Qed.

(* LoadRegionsOnce sets its once-flag only after a successful load: a first call that fails half-way (an unreadable
   value) delivers the regions below the bad one and changes nothing; the retry delivers every region; only then are
   later calls skipped *)
Theorem C17_load_once_retry :
  forall s bad, SInv s -> use_rs s = true -> loaded_once s = false -> lookup (ldb s) bad <> None ->
    let s1 := fst (run_op s (OLoadOnceCorrupt bad)) in
    snd (run_op s (OLoadOnceCorrupt bad)) = BRegions RFailed (filter (fun p => fst p <? bad) (ldb s)) /\
    s1 = s /\
    snd (run_op s1 OLoadOnce) = BRegions RDone (filter (fun p => fst p <? range_end) (ldb s)) /\
    snd (run_op (fst (run_op s1 OLoadOnce)) OLoadOnce) = BSkipped.
Proof.
  intros s bad I Hrs Hl Hbad s1. unfold s1. cbn [run_op]. unfold regions_of. rewrite Hrs, Hl.
  destruct (lookup (ldb s) bad) eqn:E; [|contradiction]. cbn [andb fst snd].
  rewrite (load_once_first s I Hrs Hl). split; [reflexivity|]. split; [reflexivity|]. split; [reflexivity|].
  cbn [fst]. unfold load_once. cbn [with_loaded use_rs loaded_once]. rewrite Hrs. reflexivity.
Qed.

(* a stop of the process inside a flush: the leveldb batch write is atomic, so leveldb holds either everything the
   batch carried or nothing of it *)
Theorem C17_crash_in_flush_atomic :
  forall s written, SInv s ->
    let s' := fst (run_op s (OCrashInFlush written)) in
    batch s' = [] /\ base_r s' = base_r s /\
    forall id, lookup (ldb s') id = if written then overlay s id else lookup (ldb s) id.
Proof.
  intros s written I s'. unfold s'. cbn [run_op fst]. destruct written; cbn [batch base_r ldb flush_batch]; [|repeat split].
  split; [reflexivity|]. split; [reflexivity|]. intros id.
  pose proof (overlay_flush s I id) as O. unfold overlay in O at 1. cbn [flush_batch batch ldb lookup] in O. exact O.
Qed.

(* a stop of the process between two batches loses the unflushed batch and nothing else *)
Theorem C17_crash_keeps_flushed :
  forall s, ldb (fst (run_op s OCrash)) = ldb s /\ batch (fst (run_op s OCrash)) = [] /\
            base_r (fst (run_op s OCrash)) = base_r s.
Proof. repeat split. Qed.

(* After LoadRegions(CheckAndPutRegion) into an empty cluster (no LoadRange faults), every stored region was offered
   once, storage and cache hold the same set of regions with the same values, cached ids are distinct and no two
   cached ranges intersect: stale and overlapped leftovers are gone from both — the region with id 2^64-1 included. *)
Theorem C17_load_prunes_to_cache :
  forall (m : amap rv), sorted_from 0 m -> (forall k v, In (k, v) m -> k < two64) ->
    let res := load_regions never_fails check_and_put m [] in
    fst (fst (fst res)) = RDone /\ same_content (snd (fst res)) (snd res) /\ disjoint (snd res) /\ ids_distinct (snd res) /\
    snd (fst (fst res)) = m.
Proof. exact load_prunes_to_cache. Qed.

(* the same for the operation, either backend; with the RegionStorage backend a pruned region does not wait in the
   write-back batch either, so a later flush cannot bring it back *)
Theorem C17_prune_operation :
  forall s, SInv s -> (use_rs s = true \/ budget s = None) ->
    (forall k v, In (k, v) (regions_of s (use_rs s)) -> k < two64) ->
    exists c after,
      snd (run_op s OLoadIntoCache) = BCache RDone (regions_of s (use_rs s)) c after /\
      same_content after c /\ disjoint c /\
      regions_of (fst (run_op s OLoadIntoCache)) (use_rs s) = after /\
      (forall id, lookup (regions_of s (use_rs s)) id <> None -> lookup after id = None ->
                  In id (map fst (batch (fst (run_op s OLoadIntoCache)))) -> use_rs s = false) /\
      (batch s = [] -> batch (fst (run_op s OLoadIntoCache)) = []).
Proof. exact prune_op. Qed.

(* Loading over a WARM cache (a member elected again without a restart, a follower following a new leader): a record that
   the cache rejects as stale while it holds a region of the same id shares its key with the live region — the load
   callback (BasicCluster.CheckAndPutLoadedRegion, fix in /repo) rewrites it from the cache and deletes nothing: deleting the key would leave
   the served region without any record (Example C17_reelected_leader below is the audit's history). *)
Theorem C17_stale_record_is_rewritten :
  forall (m : amap rv) (c : cache) k v v' nx,
    sorted_from 0 m -> accepts c (k, v) = false -> find_id c k = Some v' ->
    let r := step_item put_loaded rw_loaded (m, c, nx) (k, v) in
    snd (fst r) = c /\ lookup (fst (fst r)) k = Some v' /\ forall j, j <> k -> lookup (fst (fst r)) j = lookup m j.
Proof.
  intros m c k v v' nx Hs Ha Hf r. subst r. unfold step_item, put_loaded, rw_loaded. cbn [fst]. rewrite Ha, Hf. cbn [fold_left fst snd].
  split; [reflexivity|]. split; [rewrite (lookup_put 0), Z.eqb_refl by exact Hs; reflexivity|].
  intros j Hj. rewrite (lookup_put 0) by exact Hs. apply Z.eqb_neq in Hj. rewrite Hj. reflexivity.
Qed.

(* while every cached region lies behind the record that is read (a cold start: the cache holds loaded records only), the
   callback is CheckAndPutRegion for new ids and for accepted records, so the cold-start theorems above speak about it too *)
Theorem C17_loaded_callback_cold :
  forall c r, (forall o, In o c -> fst o <= fst r) -> find_id c (fst r) = None \/ accepts c r = true ->
    put_loaded c r = check_and_put c r /\ rw_loaded c r = None.
Proof. exact put_loaded_behind. Qed.

(* over ANY cache (warm, lagging behind the storage): the callback never has a record deleted that the load has not reached
   yet - the hypothesis under which C17_paging_exact holds - and otherwise answers as CheckAndPutRegion does (dc3cb19) *)
Theorem C17_loaded_callback_deletes_behind :
  forall c r id, In id (snd (put_loaded c r)) -> id <= fst r.
Proof. exact put_loaded_deletes_behind. Qed.
Theorem C17_loaded_callback_cache :
  forall c r, accepts c r = true ->
    fst (put_loaded c r) = fst (check_and_put c r) /\
    forall id, In id (snd (check_and_put c r)) -> id <= fst r -> In id (snd (put_loaded c r)).
Proof.
  intros c r Ha. unfold put_loaded. rewrite Ha. cbn [fst snd]. split; [reflexivity|].
  intros id Hi Hle. apply filter_In. split; [exact Hi|]. apply Z.leb_le. exact Hle.
Qed.

(* After a load over ANY warm cache - ids pairwise different, nothing else is asked of it: it may lag behind the storage, its
   ranges need not even be disjoint - for every stored set of uint64 ids: the load ends, it has shown every record once, every
   record left in storage describes the cached region of its id, and every cached region that had a record still has one, of
   exactly the cached version. (With the callback that deletes everything pushed out the second half is false: C17_lagging_cache_eager_callback_refuted.)
   Ids are below 2^64: a record with a larger id cannot exist and would never be read. *)
Theorem C17_warm_load :
  forall (m : amap rv) (c0 : cache), sorted_from 0 m -> (forall k v, In (k, v) m -> k < two64) -> ids_distinct c0 ->
    let res := page_loop never_fails put_loaded rw_loaded region_limit_min (fuel_for m region_limit0) m 0 region_limit0 O c0 [] in
    fst (fst (fst res)) = RDone /\
    snd (fst (fst res)) = m /\
    (forall id v, lookup (snd (fst res)) id = Some v -> In (id, v) (snd res)) /\
    (forall id v, In (id, v) (snd res) -> lookup m id <> None -> lookup (snd (fst res)) id = Some v).
Proof. exact warm_load. Qed.

(* the lagging cache (region 5 split and its left half merged into region 1 during another leader's term): storage, cache
   and the next full load agree after the warm load; with the eager callback (put_loaded_eager: everything pushed out is deleted) region 5 is served and has
   no record *)
Example C17_lagging_cache :
  let old5 := RV 10 40 1 5 28 in let r1 := RV 10 20 1 6 28 in let r5 := RV 20 40 1 6 28 in
  let ops := [OSaveRegion 5 old5; OSaveRegion 1 r1; OSaveRegion 5 r5; OLoadWarm [(5, old5)]; OLoadRegions] in
  skipn 3 (run run_op sinit ops) = [BCache RDone [(1, r1); (5, r5)] [(1, r1); (5, r5)] [(1, r1); (5, r5)]; BRegions RDone [(1, r1); (5, r5)]].
Proof. vm_compute. reflexivity. Qed.
Example C17_lagging_cache_eager_callback_refuted :
  let old5 := RV 10 40 1 5 28 in let r1 := RV 10 20 1 6 28 in let r5 := RV 20 40 1 6 28 in
  let m := [(1, r1); (5, r5)] in
  let res := page_loop never_fails put_loaded_eager rw_loaded region_limit_min (fuel_for m region_limit0) m 0 region_limit0 O [(5, old5)] [] in
  fst (fst (fst res)) = RDone /\ snd (fst res) = [(1, r1)] /\ find_id (snd res) 5 = Some r5.
Proof. vm_compute. repeat split; reflexivity. Qed.

(* the audit's history in the model: region 1 is cached with conf_ver 6 (its save failed), the record has conf_ver 5; the
   member is elected again and reloads over its warm cache: the record is rewritten, storage and cache agree *)
Example C17_reelected_leader :
  let r1 := RV 0 100 5 5 30 in let r1' := RV 0 100 6 5 30 in let r2 := RV 100 0 5 5 30 in
  let ops := [OSaveRegion 1 r1; OSaveRegion 2 r2; OSaveRegionF 1 r1' false; OLoadWarm [(1, r1'); (2, r2)]] in
  last (run run_op sinit ops) BUnit = BCache RDone [(1, r1); (2, r2)] [(1, r1'); (2, r2)] [(1, r1'); (2, r2)].
Proof. vm_compute. reflexivity. Qed.

(* non-vacuity, and the witnesses of S9 and S10 *)
Example C17_nonvacuous :
  let ops := [OSaveStore 3 30; OSaveStore 1 10; OSaveWeight 1 2000 500; OSaveStore 2 20; ODeleteStore 2; OLoadStores] in
  ops_ok ops /\
  last (run run_op sinit ops) BUnit = BStores RDone [(1, 10, 2000, 500); (3, 30, 1000, 1000)].
Proof. split; [cbn; repeat split; vm_compute; discriminate|vm_compute; reflexivity]. Qed.

Example C17_max_id_is_loaded :
  last (run run_op sinit [OSaveStore 1 10; OSaveStore max_id 99; OLoadStores]) BUnit
    = BStores RDone [(1, 10, 1000, 1000); (max_id, 99, 1000, 1000)] /\
  snd (run_op (run_state run_op sinit [OSaveRegion max_id (RV 1 2 1 1 10)]) OLoadIntoCache)
    = BCache RDone [(max_id, RV 1 2 1 1 10)] [(max_id, RV 1 2 1 1 10)] [(max_id, RV 1 2 1 1 10)].
Proof. split; vm_compute; reflexivity. Qed.

Example C17_delete_drops_pending_save :
  let ops := [OSaveRegion 5 (RV 1 2 1 1 10); ODeleteRegion 5] in
  ops_ok ops /\ plain_ops ops = true /\ ldb (run_state run_op srs (ops ++ [OFlush])) = [].
Proof. split; [cbn; repeat split; vm_compute; discriminate|]. split; reflexivity. Qed.

Example C17_batch_nonvacuous :
  let ops := [OSaveRegion 7 (RV 1 2 1 1 10); OSaveRegion 5 (RV 2 3 1 1 10); OFlush; ODeleteRegion 7; OSaveRegion 9 (RV 3 0 1 1 10)] in
  ops_ok ops /\ plain_ops ops = true /\
  map fst (ldb (run_state run_op srs (ops ++ [OFlush]))) = [5; 9].
Proof. split; [cbn; repeat split; vm_compute; discriminate|]. split; [reflexivity|vm_compute; reflexivity]. Qed.

Print Assumptions C17_pad_covers_uint64.
Print Assumptions C17_paging_exact.
Print Assumptions C17_region_limit_chain.
Print Assumptions C17_load_returns_each_saved_once.
Print Assumptions C17_load_regions_direct.
Print Assumptions C17_flush_makes_durable.
Print Assumptions C17_crash_keeps_flushed.
Print Assumptions C17_load_once_retry.
Print Assumptions C17_crash_in_flush_atomic.
Print Assumptions C17_load_prunes_to_cache.
Print Assumptions C17_stale_record_is_rewritten.
Print Assumptions C17_loaded_callback_cold.
Print Assumptions C17_loaded_callback_deletes_behind.
Print Assumptions C17_loaded_callback_cache.
Print Assumptions C17_paging_exact_with_rewrite.
Print Assumptions C17_warm_load.
Print Assumptions C17_prune_operation.
