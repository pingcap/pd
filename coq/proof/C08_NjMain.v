(* C08 — the general theorem for the non-joint build path: for every region (any number of peers), every
   sequence of builder calls, every cluster and every allocator answer with pairwise distinct peer ids, if the
   builder model takes the non-joint path and produces a plan, the checker accepts it. *)
From Coq Require Import String Sorting.Sorted.
From PDV Require Import lib.Base gen.Gen_C08 model.C08_Steps model.C08_Builder
     proof.C08_ListFacts proof.C08_PmapFacts proof.C08_SimPhases proof.C08_JointScript proof.C08_PrepareFacts
     proof.C08_JointBuild proof.C08_JointFacts proof.C08_JointMain proof.C08_StepSpec proof.C08_NjSteps proof.C08_NjPlans proof.C08_NjApply proof.C08_Skel.
Local Open Scope list_scope.
Local Open Scope Z_scope.

Section Initial.
  Variables (ps0 : list peer) (T : pmap) (allow : bool) (alloc : list (Z * Z)).
  Hypotheses (Hnd0 : ND ps0) (Hnj0 : NJ ps0) (Hst : PSorted T) (Hnjt : NJ T).
  Hypothesis Hnz0 : forall p, In p ps0 -> pstore p <> 0.
  Hypothesis HnzT : forall p, In p T -> pstore p <> 0.

  Let origin := pm_of_list ps0.
  Let rem := cfold (f_rem T allow) origin [].
  Let pro := cfold (f_pro T) origin [].
  Let dem := cfold (f_dem T allow) origin [].
  Let add := cfold (f_add origin allow alloc) T [].

  Lemma o_get st : pm_get origin st = lk ps0 st.
  Proof. apply pm_of_list_get. exact Hnd0. Qed.
  Lemma o_nd : ND origin.
  Proof. apply PSorted_ND, pm_of_list_sorted. Qed.

  Lemma rem_at st : pm_get rem st = match lk ps0 st with Some o => f_rem T allow o | None => None end.
  Proof.
    unfold rem. rewrite cfold_get; [| |apply o_nd].
    - fold (pm_get origin st). rewrite o_get. destruct (lk ps0 st) as [o|]; [|reflexivity]. destruct (f_rem T allow o); reflexivity.
    - intros o n. unfold f_rem. destruct (pm_get T (pstore o)) as [n0|]; [|intros H; inversion H; reflexivity].
      destruct (is_learner o); [discriminate|]. destruct (is_learner (retarget o n0)); [|discriminate].
      destruct allow; [discriminate|]. intros H; inversion H; reflexivity.
  Qed.

  Lemma pro_at st : pm_get pro st = match lk ps0 st with Some o => f_pro T o | None => None end.
  Proof.
    unfold pro. rewrite cfold_get; [| |apply o_nd].
    - fold (pm_get origin st). rewrite o_get. destruct (lk ps0 st) as [o|]; [|reflexivity]. destruct (f_pro T o); reflexivity.
    - intros o n. unfold f_pro. destruct (pm_get T (pstore o)) as [n0|] eqn:Et; [|discriminate].
      destruct (is_learner o); [|discriminate]. destruct (negb (is_learner (retarget o n0))); [|discriminate].
      intros H; inversion H. apply retarget_store. apply (lk_Some _ _ _ Et).
  Qed.

  Lemma dem_at st : pm_get dem st = match lk ps0 st with Some o => f_dem T allow o | None => None end.
  Proof.
    unfold dem. rewrite cfold_get; [| |apply o_nd].
    - fold (pm_get origin st). rewrite o_get. destruct (lk ps0 st) as [o|]; [|reflexivity]. destruct (f_dem T allow o); reflexivity.
    - intros o n. unfold f_dem. destruct (pm_get T (pstore o)) as [n0|] eqn:Et; [|discriminate].
      destruct (is_learner o); [discriminate|]. destruct (is_learner (retarget o n0)); [|discriminate].
      destruct allow; [|discriminate]. intros H; inversion H. apply retarget_store. apply (lk_Some _ _ _ Et).
  Qed.

  Lemma add_at st : pm_get add st = match pm_get T st with Some n => f_add origin allow alloc n | None => None end.
  Proof.
    unfold add. rewrite cfold_get; [| |apply PSorted_ND; exact Hst].
    - change (lk T st) with (pm_get T st). destruct (pm_get T st) as [n|]; [|reflexivity]. destruct (f_add origin allow alloc n); reflexivity.
    - intros o n. unfold f_add. match goal with |- (if ?c then _ else _) = _ -> _ => destruct c end; [|discriminate].
      intros H; inversion H. match goal with |- pstore (if ?c then _ else _) = _ => destruct c end; reflexivity.
  Qed.

  Lemma initial_at st : PIat T (lk ps0 st, pm_get add st, pm_get rem st, pm_get pro st, pm_get dem st) st.
  Proof.
    rewrite add_at, rem_at, pro_at, dem_at.
    destruct (lk ps0 st) as [o|] eqn:Eo.
    - pose proof (lk_Some _ _ _ Eo) as [Hino Hso].
      pose proof (Hnz0 o Hino) as Hz. rewrite Hso in Hz.
      pose proof (Hnj0 o Hino) as Hro.
      unfold f_rem, f_pro, f_dem. rewrite Hso.
      destruct (pm_get T st) as [n0|] eqn:Et.
      + pose proof (lk_Some _ _ _ Et) as [Hinn Hsn]. pose proof (Hnjt n0 Hinn) as Hrn.
        assert (Ert : retarget o n0 = Peer st (pid o) (prole n0)).
        { rewrite retarget_eta by congruence. rewrite Hso. reflexivity. }
        rewrite retarget_learner. unfold f_add. rewrite Hsn, o_get, Eo. cbn [is_some negb orb olearner orole].
        unfold olearner. cbn [orole]. rewrite orb_true_r. change (role_eqb (prole o) Learner) with (is_learner o).
        destruct Hro as [Ro|Ro], Hrn as [Rn|Rn]; unfold is_learner; rewrite Ro, Rn; cbn [role_eqb negb andb]; rewrite ?Ert;
          destruct allow; cbn [negb andb].
        all: unfold PIat; rewrite ?Et; cbn [option_map].
        all: split; [|split; [|split; [|split; [|split]]]].
        all: try (intros ? C; discriminate C).
        all: try (cbn; rewrite ?Ro, ?Rn; reflexivity).
        all: try (intros o' C; inversion C; subst o'; solve [auto]).
        all: try (intros n C; inversion C; subst n; exists o; rewrite ?Rn; solve [auto]).
        all: try (intros x C; inversion C; subst x; cbn [pstore prole]; rewrite ?Rn; repeat split; auto; right; split; [discriminate|reflexivity]).
      + unfold PIat. rewrite Et. split; [|split; [|split; [|split; [|split]]]]; try (intros ? C; discriminate C).
        * intros x C. inversion C; subst x. auto.
        * cbn. reflexivity.
        * intros o' C. inversion C; subst o'. auto.
    - destruct (pm_get T st) as [n|] eqn:Et.
      + pose proof (lk_Some _ _ _ Et) as [Hinn Hsn]. pose proof (Hnjt n Hinn) as Hrn. pose proof (HnzT n Hinn) as Hz. rewrite Hsn in Hz.
        unfold f_add. rewrite Hsn, o_get, Eo. cbn [is_some negb orb]. unfold PIat. rewrite Et.
        split; [|split; [|split; [|split; [|split]]]]; try (intros ? C; discriminate C).
        * intros x C. inversion C; subst x. rewrite orb_false_r.
          destruct (pid n =? 0); cbn [pstore prole]; repeat split; auto.
        * cbn. rewrite orb_false_r. destruct (pid n =? 0); reflexivity.
      + unfold PIat. rewrite Et. split; [|split; [|split; [|split; [|split]]]]; try (intros ? C; discriminate C). reflexivity.
  Qed.
End Initial.

Definition TNz (b : bstate) : Prop := forall p, In p (b_target b) -> pstore p <> 0.

Lemma api_op_nz b o b' : TNz b -> api_op b o = Some b' -> TNz b'.
Proof.
  intros N H. refine (api_op_target_all (fun p => pstore p <> 0) _ b o b' H _ N); auto.
Qed.

Lemma api_ops_nz : forall os b b', TNz b -> api_ops b os = Some b' -> TNz b'.
Proof.
  induction os as [|o os IH]; intros b b' N H; cbn [api_ops] in H; [inversion H; subst; exact N|].
  destruct (api_op b o) as [b1|] eqn:E; [|discriminate]. eapply IH; [eapply api_op_nz; eauto|exact H].
Qed.

Definition keeps (b0 b : bstate) : Prop :=
  b_target b = b_target b0 /\ b_tleader b = b_tleader b0 /\ b_cluster b = b_cluster b0 /\ b_force b = b_force b0.

Lemma keeps_closed T g r0 b0 : NjClosed T g r0 (keeps b0).
Proof. constructor; intros; assumption. Qed.

Lemma apply_plan_keeps b0 b p : keeps b0 b -> keeps b0 (apply_plan b p).
Proof.
  intros K. rewrite apply_plan_eq.
  assert (Tr : forall b l, keeps b0 b -> keeps b0 (maybe_transfer b l)).
  { intros c l. unfold maybe_transfer. destruct (negb (l =? 0) && negb (l =? b_cur_leader c)); exact (fun H => H). }
  assert (A : forall b o, keeps b0 b -> keeps b0 (do_add b o)) by (intros c [x|]; exact (fun H => H)).
  assert (Pm : forall b o, keeps b0 b -> keeps b0 (do_promote b o)) by (intros c [x|]; exact (fun H => H)).
  assert (D : forall b o, keeps b0 b -> keeps b0 (do_demote b o)) by (intros c [x|]; exact (fun H => H)).
  assert (R : forall b o, keeps b0 b -> keeps b0 (do_remove b o)) by (intros c [x|]; exact (fun H => H)).
  apply R, D, Tr, Pm, A, Tr, K.
Qed.

Lemma loop_keeps fuel b bF : nonjoint_loop fuel b = BOk bF -> keeps b bF.
Proof.
  intros H. apply (nonjoint_loop_inv (keeps b) (fun c _ => apply_plan_keeps b c _) fuel b bF); [repeat split|exact H].
Qed.

Section Loop.
  Variables (T : pmap) (g : goal) (r0 : region) (Q : bstate -> Prop).
  Hypothesis HQ : NjClosed T g r0 Q.
  Hypothesis HTs : PSorted T.
  Hypothesis HTnj : NJ T.
  Hypothesis HTv : g_min_voters g <= voters_new T.

  Lemma loop_ok fuel b r bF :
    Sim g r0 b r -> PInv T b -> Q b -> nonjoint_loop fuel b = BOk bF ->
    exists rF, Sim g r0 bF rF /\ PInv T bF /\ Q bF /\ pending bF = 0%nat.
  Proof.
    intros S P M H.
    destruct (nonjoint_loop_inv (fun c => exists rc, Sim g r0 c rc /\ PInv T c /\ Q c)) with (fuel := fuel) (b := b) (bF := bF)
      as [(rF & SF & PF & MF) E0]; eauto.
    intros c Ee (rc & Sc & Pc & Mc).
    exact (apply_plan_ok T g r0 Q HQ c rc (peer_plan c) Sc Pc (plan_kind_ok T g r0 HTs HTnj HTv c rc _ Sc Pc (peer_plan_spec c Ee)) Mc).
  Qed.
End Loop.

Lemma nonjoint_initial i b :
  Prep i b -> NoDup (map pid (peers (i_region i)) ++ map pid (b_add b)) ->
  Sim (goal_of b) (i_region i) b (i_region i) /\ PInv (b_target b) b.
Proof.
  intros P Hids. pose proof (goal_min_le_origin i b P) as Hmin.
  destruct P as [Hnd Hnj Hnz (lp & Hlp & Hlr) _ Eo Eol Ec Ecl Es HTs HTnj HTnz Ea Er Ep Ed _ _]. split.
  - constructor.
    + intros rest. rewrite Es. reflexivity.
    + constructor.
      * exact Hnd.
      * exists lp. split; [exact Hlp|]. unfold is_learner. rewrite Hlr. reflexivity.
      * apply Hmin.
      * apply Hmin.
    + exact Hnj.
    + intros st. rewrite Ec, Eo. symmetry. apply pm_of_list_get. exact Hnd.
    + rewrite Ecl, Eol. reflexivity.
    + exact Hids.
  - constructor.
    + rewrite Ec, Eo. apply pm_of_list_sorted.
    + rewrite Ea. apply cfold_sorted. constructor.
    + rewrite Er. apply cfold_sorted. constructor.
    + rewrite Ep. apply cfold_sorted. constructor.
    + rewrite Ed. apply cfold_sorted. constructor.
    + intros st. unfold look. rewrite Ec, Ea, Er, Ep, Ed, Eo. rewrite (pm_of_list_get _ _ Hnd). apply initial_at; auto.
Qed.

Lemma pending_zero b : pending b = 0%nat -> b_add b = [] /\ b_remove b = [] /\ b_promote b = [] /\ b_demote b = [].
Proof.
  unfold pending. intros H.
  destruct (b_add b), (b_remove b), (b_promote b), (b_demote b); cbn [length] in H; try lia. auto.
Qed.

Section Final.
  Variables (T : pmap) (g : goal) (r0 : region).
  Hypothesis HTs : PSorted T.
  Hypothesis HTnj : NJ T.

  Lemma nj_finish_ok bF rF :
    Sim g r0 bF rF -> PInv T bF -> pending bF = 0%nat -> b_target bF = T ->
    g_target g = placement T -> g_leader g = b_tleader bF ->
    (b_tleader bF = 0 \/ exists p, pm_get T (b_tleader bF) = Some p /\ is_learner p = false) ->
    plan_check g r0 (b_steps (nj_finish bF)) = None.
  Proof.
    intros S P Hp0 HT Hgt Hgl Htl. unfold nj_finish. set (b2 := set_target_leader_if_not_exist bF).
    match goal with |- plan_check _ _ (b_steps ?x) = None => set (b3 := x) end.
    destruct (pending_zero _ Hp0) as (Ea & Er & Epr & Ed).
    (* at the end the current peers have the target's roles, store by store *)
    assert (Hroles : forall st, option_map prole (pm_get (b_cur bF) st) = option_map prole (pm_get T st)).
    { intros st. pose proof (pi_at _ _ P st) as Q. unfold look, PIat in Q. rewrite Ea, Er, Epr, Ed in Q.
      destruct Q as (_ & _ & _ & _ & Qf & _). exact Qf. }
    assert (S2 : Sim g r0 b2 rF).
    { unfold b2, set_target_leader_if_not_exist. destruct (negb (b_tleader bF =? 0)); [exact S|].
      eapply Sim_same; [..|exact S]; reflexivity. }
    assert (P2 : PInv T b2).
    { unfold b2, set_target_leader_if_not_exist. destruct (negb (b_tleader bF =? 0)); [exact P|].
      eapply PInv_same; [..|exact P]; reflexivity. }
    assert (Hcur2 : b_cur b2 = b_cur bF /\ b_cur_leader b2 = b_cur_leader bF).
    { unfold b2, set_target_leader_if_not_exist. destruct (negb (b_tleader bF =? 0)); split; reflexivity. }
    destruct Hcur2 as [Hc2 Hl2].
    (* the leader PD aims at, if any, is a voter of the target *)
    assert (Htl2 : b_tleader b2 = 0 \/ exists p, pm_get T (b_tleader b2) = Some p /\ prole p = Voter).
    { unfold b2, set_target_leader_if_not_exist. destruct (b_tleader bF =? 0) eqn:E0; cbn [negb].
      - cbn [b_tleader set_tleader]. destruct (pick_target_leader_spec bF) as [Hz|(p & Hp & Ha)]; [left; exact Hz|right].
        rewrite HT in Hp. exists p. split; [exact Hp|].
        destruct (HTnj p (proj1 (lk_Some _ _ _ Hp))) as [R|R]; [exact R|].
        destruct (allow_leader_role _ _ _ Ha) as [R'|R']; congruence.
      - right. destruct Htl as [Hz|(p & Hp & Hl)]; [apply Z.eqb_neq in E0; contradiction|].
        exists p. split; [exact Hp|]. destruct (HTnj p (proj1 (lk_Some _ _ _ Hp))) as [R|R]; [exact R|].
        apply is_learner_role in R. congruence. }
    assert (Hend : exists r3, Sim g r0 b3 r3 /\ peers r3 = peers rF
                              /\ (b_tleader b2 <> 0 -> leader r3 = b_tleader b2)).
    { unfold b3. destruct (b_tleader b2 =? 0) eqn:E0; cbn [negb andb].
      - exists rF. split; [exact S2|split; [reflexivity|]]. intros C. apply Z.eqb_eq in E0. contradiction.
      - destruct (b_cur_leader b2 =? b_tleader b2) eqn:E1; cbn [negb andb].
        + exists rF. split; [exact S2|split; [reflexivity|]]. intros _. apply Z.eqb_eq in E1. rewrite (sim_leader _ _ _ _ S2). exact E1.
        + destruct Htl2 as [Hz|(p & Hp & Hro)]; [apply Z.eqb_neq in E0; contradiction|].
          (* the target's voter is a current voter *)
          pose proof (Hroles (b_tleader b2)) as Hr. rewrite Hp in Hr. cbn [option_map] in Hr.
          destruct (pm_get (b_cur bF) (b_tleader b2)) as [q|] eqn:Eq; [|discriminate]. cbn [option_map] in Hr.
          rewrite Hc2, Eq. cbn [is_some].
          assert (Hq : pm_get (b_cur b2) (b_tleader b2) = Some q) by (rewrite Hc2; exact Eq).
          assert (Hqr : prole q = Voter) by congruence.
          assert (Hne : b_tleader b2 <> b_cur_leader b2) by (apply Z.eqb_neq in E1; auto).
          destruct (step_transfer T g r0 b2 rF (b_tleader b2) q S2 P2 Hq Hqr Hne) as [S3 _].
          exists (set_leader rF (b_tleader b2)). split; [|split; [reflexivity|intros _; reflexivity]].
          eapply Sim_same; [..|exact S3]; reflexivity. }
    destruct Hend as (r3 & S3 & Hpeers & Hlead).
    pose proof (sim_pc _ _ _ _ S3 []) as E. rewrite app_nil_r in E. rewrite E. cbn [plan_check].
    destruct S3 as [_ I3 N3 C3 L3 _]. destruct I3 as [Hnd3 (lp & Hlp & Hll) _ _].
    unfold final_violation.
    assert (Hsame : same_placement (placement (peers r3)) (g_target g) = true).
    { rewrite Hgt. apply same_placement_lookup; [exact Hnd3|apply PSorted_ND; exact HTs|].
      intros st. rewrite Hpeers, (sim_cur _ _ _ _ S). apply Hroles. }
    rewrite Hsame. cbn [negb].
    assert (Hleader : negb (g_leader g =? 0) && negb (leader r3 =? g_leader g) = false).
    { rewrite Hgl. destruct (b_tleader bF =? 0) eqn:E0; [reflexivity|]. cbn [negb andb].
      assert (Eb : b_tleader b2 = b_tleader bF) by (unfold b2, set_target_leader_if_not_exist; rewrite E0; reflexivity).
      rewrite <- Eb. rewrite Hlead by (rewrite Eb; apply Z.eqb_neq; exact E0). rewrite Z.eqb_refl. reflexivity. }
    rewrite Hleader.
    unfold get_store_peer. fold (lk (peers r3) (leader r3)). rewrite Hlp.
    assert (Hv : new_voter lp = true).
    { destruct (N3 lp (proj1 (lk_Some _ _ _ Hlp))) as [R|R]; [unfold new_voter; rewrite R; reflexivity|].
      apply is_learner_role in R. congruence. }
    rewrite Hv. reflexivity.
  Qed.
End Final.

Theorem builder_nonjoint_plan_ok_general_pf i b ss kl kr :
  nodup_stores (peers (i_region i)) = true ->
  is_in_joint (i_region i) = false ->
  (exists lp, get_store_peer (i_region i) (leader (i_region i)) = Some lp /\ prole lp = Voter) ->
  prepared i = Some b -> b_use_joint b = false ->
  NoDup (map pid (peers (i_region i)) ++ map pid (b_add b)) ->
  build i = Built ss kl kr ->
  plan_ok (goal_of b) (i_region i) ss = true.
Proof.
  intros Hnd Hnj Hlead Hprep Huj Hids Hbuild.
  pose proof (prepared_prep i b Hnd Hnj Hlead Hprep) as P.
  pose proof (build_of_prepared _ _ _ _ _ Hprep Hbuild) as B. rewrite Huj in B. destruct B as (bF & Eloop & ->).
  destruct (nonjoint_initial i b P Hids) as [S0 P0].
  assert (HTv : g_min_voters (goal_of b) <= voters_new (b_target b)) by (unfold goal_of; cbn [g_min_voters]; lia).
  destruct (loop_ok (b_target b) (goal_of b) (i_region i) (keeps b) (keeps_closed _ _ _ b) (pp_Ts _ _ P) (pp_Tnj _ _ P) HTv
              _ _ _ _ S0 P0 (conj eq_refl (conj eq_refl (conj eq_refl eq_refl))) Eloop) as (rF & SF & PF & (EtF & ElF & _) & E0).
  assert (X : plan_check (goal_of b) (i_region i) (b_steps (nj_finish bF)) = None); [|unfold plan_ok; rewrite X; reflexivity].
  apply (nj_finish_ok (b_target b) (goal_of b) (i_region i) (pp_Ts _ _ P) (pp_Tnj _ _ P) bF rF SF PF E0 EtF);
    [reflexivity|symmetry; exact ElF|].
  rewrite ElF. destruct (pp_tleader _ _ P) as [Z0|(p & Hp & Hl & _)]; [left; exact Z0|right; eauto].
Qed.

(* both build paths; the peer ids matter only on the path that emits DemoteFollower *)
Theorem builder_plan_ok_general_pf i b ss kl kr :
  nodup_stores (peers (i_region i)) = true ->
  is_in_joint (i_region i) = false ->
  (exists lp, get_store_peer (i_region i) (leader (i_region i)) = Some lp /\ prole lp = Voter) ->
  prepared i = Some b ->
  (b_use_joint b = false -> NoDup (map pid (peers (i_region i)) ++ map pid (b_add b))) ->
  build i = Built ss kl kr ->
  plan_ok (goal_of b) (i_region i) ss = true.
Proof.
  intros H1 H2 H3 H4 H5 H6. destruct (b_use_joint b) eqn:E.
  - exact (builder_joint_plan_ok_general_pf i b ss kl kr H1 H2 H3 H4 E H6).
  - exact (builder_nonjoint_plan_ok_general_pf i b ss kl kr H1 H2 H3 H4 E (H5 eq_refl) H6).
Qed.
