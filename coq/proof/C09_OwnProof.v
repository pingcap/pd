(* C09 — the closed loop controller + stores on an operator's own steps: the history in which the operator is
   created from the region as the stores have it, added at once, and nothing but its own commands touches the
   region (own_history), and what it means that it runs well (plan_runs_ok: no command refused or stale, the
   operator never cancelled, SUCCESS at the end).  That every accepted plan runs well is proof/C09_ClosedLoop.v.
   Here the witnesses: a hand-made plan that removes a peer and re-adds it with the same id is judged stale on its
   own steps (for the same input the builder allocates a new id for the re-added peer), a plan that undoes its own
   step, and the region and step of the S2 state of ChangePeerV2Leave.ConfVerChanged. *)
From PDV Require Import lib.Base model.C08_Steps model.C08_Builder model.C09_OpCtl proof.C08_BuilderProof
     proof.C09_OwnGeneral.
Local Open Scope Z_scope.

(* deliver what was sent, then let the leader report: repeated *)
Fixpoint own_events (k : nat) : list ev :=
  match k with O => [] | S n => EDeliver 1 :: EHeartbeat 1 :: own_events n end.

(* the operator is created from the region as the stores have it, added at once, and nothing but its own
   commands ever touches the region *)
Definition own_history (r0 : region) (ss : list step) : list ev :=
  [ERegion 1 r0; ECreate 1 1 (conf_ver r0) (rng r0) ss 1 true 1; EAdd [1]] ++ own_events (S (length ss)).

Definition plan_runs_ok (r0 : region) (ss : list step) : bool :=
  let os := run ctl_step (init 5) (own_history r0 ss) in
  forallb (fun o => match b_deliver o with DStale | DRejected => false | _ => true end) os
  && forallb (fun o => match b_status o with [(_, CANCELED)] | [(_, TIMEOUT)] | [(_, EXPIRED)] | [(_, REPLACED)] => false | _ => true end) os
  && match last os (Obs 0 [] [] [] [] None DNone) with
     | Obs _ _ _ [(1, SUCCESS)] _ _ _ => true
     | _ => false
     end.

(* a plan that undoes its own step: accepted by the C08 checker, no peer re-added under its old id, and still judged
   stale on its own steps (the add no longer counts once the peer is removed again) *)
Definition undo_region : region := Region [Peer 1 101 Voter; Peer 2 102 Voter] 1 5 0.
Definition undo_plan : list step := [AddLearner 4 44; RemovePeer 4 44; TransferLeader 1 2].
Definition undo_goal : goal := Goal (placement (peers undo_region)) 2 2.

Lemma undo_plan_facts :
  plan_ok undo_goal undo_region undo_plan = true /\ readded_same_id undo_plan = false
  /\ plan_runs_ok undo_region undo_plan = false /\ monotone_from [] undo_region undo_plan = false.
Proof. vm_compute. repeat split; reflexivity. Qed.

(* a peer removed and re-added with the same id: judged stale on its own steps *)
(* JointConsensus unsupported; {1 voter, 4 voter leader, 5 voter}; DemoteVoter(5) + AddPeer(6 learner).
   stale_plan re-adds peer 5 with the SAME peer id (remove 5, add learner 5, add learner 6); the builder's plan for
   this input, fresh_plan, gives the re-added peer a new id. *)
Definition stale_region : region := Region [Peer 1 1007 Voter; Peer 4 1014 Voter; Peer 5 1021 Voter] 4 2 3.
Definition stale_plan : list step := [RemovePeer 5 1021; AddLearner 5 1021; AddLearner 6 1].
Definition fresh_plan : list step := [RemovePeer 5 1021; AddLearner 5 2; AddLearner 6 1].

Definition stale_input : binput :=
  BInput (Cluster [up_store 1; up_store 4; up_store 5; up_store 6] false true 0) stale_region [] false
         [ODemoteVoter 5; OAddPeer (Peer 6 0 Learner)] [(5, 2); (6, 1)].

Lemma stale_plan_accepted_by_checker :
  exists b, prepared stale_input = Some b /\ plan_ok (goal_of b) stale_region stale_plan = true.
Proof. eexists. split; vm_compute; reflexivity. Qed.

(* ... yet the controller cancels it at the heartbeat after its second step, with no foreign event at all *)
Lemma stale_plan_cancelled :
  map b_status (run ctl_step (init 5) (own_history stale_region stale_plan)) =
  [[]; [(1, CREATED)]; [(1, STARTED)]; [(1, STARTED)]; [(1, STARTED)]; [(1, STARTED)]; [(1, CANCELED)];
   [(1, CANCELED)]; [(1, CANCELED)]; [(1, CANCELED)]; [(1, CANCELED)]].
Proof. vm_compute. reflexivity. Qed.

(* the reason: after the re-add, RemovePeer.ConfVerChanged no longer counts the removal *)
Lemma stale_reason :
  let after := Region [Peer 1 1007 Voter; Peer 4 1014 Voter; Peer 5 1021 Learner] 4 4 3 in
  conf_ver_changed after (RemovePeer 5 1021) = 0 /\ conf_ver_changed after (AddLearner 5 1021) = 1
  /\ conf_ver after - conf_ver stale_region = 2.
Proof. vm_compute. repeat split; reflexivity. Qed.

(* S2 repaired: an unapplied ChangePeerV2Leave with pending demotions counts nothing *)
Definition s2_region : region := Region [Peer 1 101 Voter; Peer 2 102 Demoting; Peer 3 103 Demoting] 1 7 1.
Definition s2_step : step := ChangePeerV2Leave [] [(2, 102); (3, 103)].
