(* C06 — the storage clause for concurrent heartbeats.
   The statement of C06 requires "displaced regions disappear from storage" only when heartbeats are handled one at a
   time.  For arbitrary interleavings of the atomic sections of processRegionHeartbeat (first precheck | locked section |
   one storage write at a time) the clause is false (the storage writes are made after c.Unlock(), see the comment in
   cluster.go: "the last write will win ... Not successfully saved to storage is not fatal"): a save that is overtaken by
   the delete of the heartbeat that displaced its region leaves the displaced region in storage (overtaken_schedule).
   The strongest statement that is true for every interleaving is the invariant below; it gives "storage holds served
   regions only" for every schedule in which no locked section displaces a region whose save is still pending
   (no_overtaking), which covers one-at-a-time handling and every interleaving of heartbeats that do not overlap. *)
From PDV Require Import lib.Base model.C07_Region proof.C07_RegionProof proof.C07_Spec model.C06_Heartbeat
  proof.C06_HeartbeatProof proof.C06_Storage.
Local Open Scope Z_scope.

Definition tkeys (l : list (Z * pc)) : list Z := map fst l.

Lemma th_del_keys l t k : In k (tkeys (th_del l t)) -> In k (tkeys l).
Proof.
  induction l as [|[k0 v] l IH]; cbn; [tauto|]. destruct (k0 =? t); [auto|]. cbn. intros [H|H]; auto.
Qed.
Lemma th_del_nodup l t : NoDup (tkeys l) -> NoDup (tkeys (th_del l t)) /\ ~ In t (tkeys (th_del l t)).
Proof.
  induction l as [|[k0 v] l IH]; cbn; intros N; [split; [constructor|tauto]|].
  inversion N as [|? ? N1 N2]; subst. destruct (Z.eqb_spec k0 t) as [->|NE].
  - split; [exact N2|exact N1].
  - destruct (IH N2) as [A B]. cbn. split.
    + constructor; [|exact A]. intros H. apply N1. eapply th_del_keys; eauto.
    + intros [E|H]; [congruence|auto].
Qed.
Lemma th_set_nodup l t p : NoDup (tkeys l) -> NoDup (tkeys (th_set l t p)).
Proof. intros N. destruct (th_del_nodup l t N) as [A B]. unfold th_set. cbn. constructor; assumption. Qed.
Lemma th_del_other l t t' p : t' <> t -> In (t', p) l -> In (t', p) (th_del l t).
Proof.
  intros NE. induction l as [|[k0 v] l IH]; cbn; [tauto|].
  destruct (Z.eqb_spec k0 t) as [->|N0]; [intros [E|H]; [congruence|exact H]|].
  intros [E|H]; [left; exact E|right; auto].
Qed.
Lemma th_unique l t p1 p2 : NoDup (tkeys l) -> In (t, p1) l -> In (t, p2) l -> p1 = p2.
Proof.
  induction l as [|[k0 v] l IH]; cbn; intros N H1 H2; [tauto|]. inversion N as [|? ? N1 N2]; subst.
  destruct H1 as [E1|H1]; destruct H2 as [E2|H2].
  - congruence.
  - inversion E1; subst. exfalso. apply N1. apply in_map_iff. exists (t, p2). auto.
  - inversion E2; subst. exfalso. apply N1. apply in_map_iff. exists (t, p1). auto.
  - auto.
Qed.

Definition pending_del (h : hstate) (id : Z) : Prop :=
  exists t todo x, In (t, PStore todo) (h_threads h) /\ In (SDel x) todo /\ r_id x = id.

(* beside HInv, unique thread ids and store_ok: whatever storage or the batch holds is served or some thread still has
   its delete to do; a region whose save is still to do is served *)
Definition cinv (h : hstate) : Prop :=
  HInv h /\ NoDup (tkeys (h_threads h)) /\ store_ok (h_store h) /\
  (forall id, held (h_store h) id -> get_region (h_cache h) id <> None \/ pending_del h id) /\
  (forall t todo r, In (t, PStore todo) (h_threads h) -> In (SSave r) todo -> get_region (h_cache h) (r_id r) <> None).

(* the locked section of thread t does not displace a region whose save is still waiting in another thread *)
Definition no_overtaking (h : hstate) (l : hlabel) : Prop :=
  match l with
  | LStep t =>
      match th_get (h_threads h) t with
      | Some (PLock r fl) =>
          forall t' todo x, In (t', PStore todo) (h_threads h) -> In (SSave x) todo ->
                            ~ In (r_id x) (map r_id (displaced (cached (h_cache h)) r))
      | _ => True
      end
  | _ => True
  end.

Lemma in_store_ops_save ov r fl x : In (SSave x) (store_ops ov r fl) -> x = r.
Proof.
  unfold store_ops. intros H. apply in_app_or in H as [H|H].
  - apply in_map_iff in H as (y & E & _). discriminate.
  - destruct (f_kv fl); [destruct H as [E|[]]; inversion E; reflexivity|destruct H].
Qed.

Lemma in_store_ops_del ov r fl x : In x ov -> In (SDel x) (store_ops ov r fl).
Proof. intros H. unfold store_ops. apply in_or_app. left. apply in_map. exact H. Qed.

Lemma park_nodup l t todo : NoDup (tkeys l) -> NoDup (tkeys (park l t todo)).
Proof. intros N. destruct todo; cbn [park]; [apply th_del_nodup, N|apply th_set_nodup, N]. Qed.

Lemma park_other l t todo t' p : t' <> t -> In (t', p) l -> In (t', p) (park l t todo).
Proof. intros NE H. destruct todo; cbn [park]; [|right]; apply th_del_other; assumption. Qed.

Lemma park_self l t todo p : NoDup (tkeys l) -> In (t, p) (park l t todo) -> p = PStore todo /\ todo <> [].
Proof.
  intros N H. destruct (th_del_nodup l t N) as [_ NI]. destruct todo as [|o todo]; cbn [park] in H.
  - exfalso. apply NI, in_map_iff. exists (t, p). auto.
  - destruct H as [E|H]; [inv E; split; [reflexivity|discriminate]|].
    exfalso. apply NI, in_map_iff. exists (t, p). auto.
Qed.

(* a pending delete survives a section of thread t unless t itself just wrote it *)
Lemma pending_del_park h h' t p todo id :
  h_threads h' = park (h_threads h) t todo -> NoDup (tkeys (h_threads h)) -> In (t, p) (h_threads h) ->
  pending_del h id ->
  (forall x, In (SDel x) (match p with PStore old => old | _ => [] end) -> r_id x = id -> In (SDel x) todo) ->
  pending_del h' id.
Proof.
  unfold pending_del. intros -> N Hp (t0 & old & x & Hin & Hd & E) KEEP. destruct (Z.eq_dec t0 t) as [->|NE].
  - rewrite <- (th_unique _ _ _ _ N Hin Hp) in KEEP. pose proof (KEEP x Hd E) as Hd'.
    exists t, todo, x. split; [|auto]. destruct todo; [destruct Hd'|left; reflexivity].
  - exists t0, old, x. split; [apply park_other; assumption|auto].
Qed.

Theorem cinv_step h l h' : cinv h -> no_overtaking h l -> hl_step h l = Some h' -> cinv h'.
Proof.
  intros (HI & ND & OK & DD & SS) NO H. pose proof (HInv_step _ _ _ HI H) as HI'.
  destruct HI as [I TW]. apply hl_step_hstep in H as (res & H & _). split; [exact HI'|]. clear HI'.
  destruct H as [t r TG|t r TG|t r fl TG|t r fl TG|t r fl todo TG FC A ET|t r fl todo TG FC ET|t o rest TG|t TG|];
    cbn [h_threads h_store h_cache]; try (split; [exact ND|split; [exact OK|split; [exact DD|exact SS]]]).
  - (* a thread starts to wait for the lock *)
    split; [apply th_set_nodup, ND|]. split; [exact OK|]. split.
    + intros id Hh. destruct (DD id Hh) as [S|(t0 & old & x & Hin & Hd)]; [left; exact S|].
      right. exists t0, old, x. split; [|exact Hd]. unfold th_set. rewrite (th_del_none _ _ TG). right. exact Hin.
    + intros t0 old r0 Hin Hs. apply th_set_in in Hin as [E|Hin]; [inv E|eauto].
  - (* rejected under the lock *)
    pose proof (th_get_in _ _ _ TG) as TIn. split; [apply th_del_nodup, ND|]. split; [exact OK|]. split.
    + intros id Hh. destruct (DD id Hh) as [S|P]; [left; exact S|right].
      eapply (pending_del_park h _ t _ [] id); [reflexivity|exact ND|exact TIn|exact P|intros x []].
    + intros t0 old r0 Hin Hs. apply th_del_in in Hin. eauto.
  - (* the locked section puts r *)
    pose proof (th_get_in _ _ _ TG) as TIn. destruct (TW _ _ _ TIn) as [W0 _]. destruct (hb_ok_parts _ W0) as [W _].
    destruct (Inv_put _ r I W) as (_ & _ & EO). cbn in NO. rewrite TG in NO.
    split; [apply park_nodup, ND|]. split; [exact OK|]. split.
    + intros id Hh. destruct (DD id Hh) as [S|P].
      * destruct (in_dec Z.eq_dec id (map r_id (snd (put_region (h_cache h) r)))) as [Iov|Nov].
        -- right. apply in_map_iff in Iov as (x & Ex & Hx). exists t, todo, x. cbn [h_threads].
           assert (Hd : In (SDel x) todo) by (rewrite ET; apply in_store_ops_del, Hx).
           split; [destruct todo; [destruct Hd|left; reflexivity]|auto].
        -- left. rewrite EO in Nov. apply served_after_put; auto.
      * right. eapply (pending_del_park h _ t _ todo id); [reflexivity|exact ND|exact TIn|exact P|intros x []].
    + intros t0 old r0 Hin Hs. destruct (Z.eq_dec t0 t) as [->|NE].
      * apply (park_self _ _ _ _ ND) in Hin as [E _]. inv E. rewrite (in_store_ops_save _ _ _ _ Hs).
        apply served_put_self; assumption.
      * apply park_in in Hin as [E|Hin]; [congruence|].
        apply served_after_put; auto; [eapply SS; eauto|eapply NO; eauto].
  - (* a thread that does not write the cache: never under the invariant *)
    destruct (TW _ _ _ (th_get_in _ _ _ TG)) as [_ FC']. congruence.
  - (* one storage write *)
    pose proof (th_get_in _ _ _ TG) as TIn. split; [apply park_nodup, ND|]. split; [|split].
    + destruct o as [x|x]; cbn [apply_sop]; [apply delete_ok, OK|apply save_ok, OK].
    + intros id Hh.
      assert (PEND : pending_del h id -> (forall x, o = SDel x -> r_id x <> id) ->
                     pending_del (HState (h_cache h) (apply_sop (h_store h) o) (park (h_threads h) t rest)) id).
      { intros P NX. eapply (pending_del_park h _ t _ rest id); [reflexivity|exact ND|exact TIn|exact P|].
        intros x [E|Hx] Ex; [exfalso; apply (NX x); auto|exact Hx]. }
      destruct o as [x|x]; cbn [apply_sop] in *.
      * destruct (delete_ok _ x OK) as (_ & HD). apply HD in Hh as [Hh NEx].
        destruct (DD id Hh) as [S|P]; [left; exact S|right]. apply PEND; [exact P|]. intros x0 E0. inv E0. auto.
      * destruct (save_ok _ x OK) as (_ & HS). apply HS in Hh as [->|Hh].
        -- left. apply (SS t (SSave x :: rest) x TIn). left; reflexivity.
        -- destruct (DD id Hh) as [S|P]; [left; exact S|right]. apply PEND; [exact P|]. intros x0 E0. discriminate.
    + intros t0 old r0 Hin Hs. destruct (Z.eq_dec t0 t) as [->|NE].
      * apply (park_self _ _ _ _ ND) in Hin as [E _]. inv E. apply (SS t (o :: rest) r0 TIn). right; exact Hs.
      * apply park_in in Hin as [E|Hin]; [congruence|eauto].
  - (* a thread with nothing left to write *)
    pose proof (th_get_in _ _ _ TG) as TIn. split; [apply th_del_nodup, ND|]. split; [exact OK|]. split.
    + intros id Hh. destruct (DD id Hh) as [S|P]; [left; exact S|right].
      eapply (pending_del_park h _ t _ [] id); [reflexivity|exact ND|exact TIn|exact P|intros x []].
    + intros t0 old r0 Hin Hs. apply th_del_in in Hin. eauto.
  - (* flush *)
    destruct (flush_ok _ OK) as [A B]. split; [exact ND|]. split; [exact A|]. split; [|exact SS].
    intros id Hh. apply B in Hh. destruct (DD id Hh) as [S|(t0 & old & x & Hin & Hd)]; [left; exact S|].
    right. exists t0, old, x. auto.
Qed.

Lemma cinv_init wb : cinv (h_init wb).
Proof.
  split; [apply HInv_init|]. split; [constructor|]. split.
  - cbn. split; [reflexivity|]. split; [constructor|]. split; [constructor|]. intros k v H; destruct H.
  - split; [intros id [[]|[]]|intros t todo r []].
Qed.

(* a schedule in which no save is overtaken *)
Fixpoint calm (h : hstate) (ls : list hlabel) : Prop :=
  match ls with [] => True | l :: r => no_overtaking h l /\ calm (next h l) r end.

Theorem cinv_exec ls : forall h, cinv h -> calm h ls -> cinv (exec hl_step h ls).
Proof.
  induction ls as [|l ls IH]; intros h C K; [exact C|]. rewrite exec_next. destruct K as [K1 K2].
  apply IH; [|exact K2]. unfold next. destruct (hl_step h l) eqn:E; [eapply cinv_step; eauto|exact C].
Qed.

Definition storage_subset_concurrent : Prop :=
  forall wb ls, let h := exec hl_step (h_init wb) ls in
  h_threads h = [] -> forall id x, load_region (h_store h) id = Some x -> get_region (h_cache h) id <> None.

Definition overtaken_a : region := Region 1 (K [97]) (K [99]) [Peer 11 1 false; Peer 12 2 false] 11 [] 10 1 1 1 1.
Definition overtaken_b : region := Region 2 (K [97]) (K [99]) [Peer 21 1 false; Peer 22 2 false] 21 [] 10 2 1 1 2.
(* thread 1 puts region 1 and is delayed before its save; thread 2 puts region 2 (displacing region 1), deletes
   region 1 from storage (it is not there yet) and saves region 2; then thread 1 saves region 1 *)
Definition overtaken_schedule : list hlabel :=
  [LBegin 1 overtaken_a; LStep 1; LBegin 2 overtaken_b; LStep 2; LStep 2; LStep 2; LStep 1].

