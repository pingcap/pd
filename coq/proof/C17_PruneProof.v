(* C17 — a load through the cluster's callback over ANY cache (a warm one, one lagging behind the storage): what the scan
   keeps true, record by record.  LoadRegions(CheckAndPutRegion) into an empty cluster is the cold instance: afterwards
   storage and cache hold the same set of regions, and the cache is free of overlaps. *)
From PDV Require Import lib.Base lib.C17_Map gen.Gen_C17 model.C17_Storage proof.C17_PagingProof proof.C17_WarmProof proof.C17_StorageProof.
Local Open Scope Z_scope.
Local Open Scope list_scope.

Lemma intersects_sym a b : intersects a b = intersects b a.
Proof. unfold intersects. apply andb_comm. Qed.

Definition ids_distinct (c : cache) : Prop := NoDup (map fst c).
Definition disjoint (c : cache) : Prop :=
  forall a a', In a c -> In a' c -> fst a <> fst a' -> intersects (snd a) (snd a') = false.

Lemma ids_distinct_functional (c : cache) k v v' : ids_distinct c -> In (k, v) c -> In (k, v') c -> v = v'.
Proof.
  unfold ids_distinct.
  induction c as [|[a w] c IH]; intros Hn H1 H2; [contradiction|].
  cbn [map fst] in Hn. inversion Hn as [|x l Hnot Hn']; subst.
  destruct H1 as [E1|H1]; destruct H2 as [E2|H2].
  - inversion E1; inversion E2; subst. reflexivity.
  - inversion E1; subst. exfalso. apply Hnot. apply in_map_iff. exists (k, v'). split; [reflexivity|exact H2].
  - inversion E2; subst. exfalso. apply Hnot. apply in_map_iff. exists (k, v). split; [reflexivity|exact H1].
  - apply (IH Hn' H1 H2).
Qed.

(* the state after every record below `b` has been shown to the callback: m, c0 = namespace and cache when the load began,
   mc, c = what they are now *)
Record WInv (m mc : amap rv) (c0 c : cache) (b : Z) : Prop := {
  wi_sorted : sorted_from 0 mc;
  wi_nodup  : ids_distinct c;
  wi_ahead  : forall id, b <= id -> lookup mc id = lookup m id;
  wi_stored : forall id v, id < b -> lookup mc id = Some v -> In (id, v) c;
  wi_cached : forall id v, id < b -> In (id, v) c -> lookup m id <> None -> lookup mc id = Some v;
  wi_origin : forall id v, In (id, v) c -> In id (map fst c0) \/ (id < b /\ lookup m id <> None);
  wi_disj   : disjoint c0 -> disjoint c }.

Lemma nodup_filter_fst (f : Z * rv -> bool) (c : cache) : ids_distinct c -> ids_distinct (filter f c).
Proof.
  unfold ids_distinct.
  induction c as [|a c IH]; intros H; cbn [filter map]; [constructor|].
  cbn [map] in H. inversion H as [|x l Hnot Hn]; subst.
  destruct (f a); [|exact (IH Hn)]. cbn [map]. constructor; [|exact (IH Hn)].
  intros Hin. apply Hnot. apply in_map_iff in Hin. destruct Hin as [o [E Ho]]. apply filter_In in Ho.
  apply in_map_iff. exists o. split; [exact E|apply Ho].
Qed.

Lemma warm_step m mc c0 c b k v nx :
  WInv m mc c0 c b -> b <= k -> lookup m k = Some v -> (forall id, b <= id < k -> lookup m id = None) ->
  let r := step_item put_loaded rw_loaded (mc, c, nx) (k, v) in
  WInv m (fst (fst r)) c0 (snd (fst r)) (k + 1).
Proof.
  intros [Hs Hn Ha H1 H2 Hor Hd] Hbk Hmk Hgap r. subst r.
  assert (Ho' : forall id w, In (id, w) c -> In id (map fst c0) \/ (id < k + 1 /\ lookup m id <> None)).
  { intros id w Hin. destruct (Hor id w Hin) as [G|[G1 G2]]; [left; exact G|right; split; [lia|exact G2]]. }
  assert (Hmck : lookup mc k = Some v) by (rewrite Ha by lia; exact Hmk).
  assert (Hgap1 : forall id w, id < k -> lookup mc id = Some w -> In (id, w) c).
  { intros id w Hid Hl. destruct (Z.lt_ge_cases id b) as [G|G]; [exact (H1 id w G Hl)|].
    rewrite Ha in Hl by lia. rewrite Hgap in Hl by lia. discriminate. }
  assert (Hgap2 : forall id w, id < k -> In (id, w) c -> lookup m id <> None -> lookup mc id = Some w).
  { intros id w Hid Hin Hne. destruct (Z.lt_ge_cases id b) as [G|G]; [exact (H2 id w G Hin Hne)|].
    exfalso. apply Hne. apply Hgap. lia. }
  unfold step_item. destruct (put_loaded_cases c k v) as [(Eacc & -> & ->)|[(v' & Eacc & Ef & -> & ->)|(Eacc & Ef & -> & ->)]];
    cbn [fst snd fold_left].
  - (* the record goes into the cache; what it pushes out behind the scan loses its record *)
    set (c' := (k, v) :: filter (kept k v) c). set (dels := filter (fun id => id <=? k) (map fst (evicted c (k, v)))).
    assert (Ec' : c' = (k, v) :: filter (kept k v) c) by reflexivity.
    pose proof (put_loaded_dels_iff c k v) as Hdel_iff. fold dels in Hdel_iff.
    split.
    + apply dels_sorted. exact Hs.
    + rewrite Ec'. cbn [map fst]. constructor; [|apply nodup_filter_fst; exact Hn].
      intros Hin. apply in_map_iff in Hin. destruct Hin as [[a w] [E Ho]]. cbn [fst] in E; subst a.
      apply filter_In in Ho. destruct Ho as [_ Hc]. unfold kept in Hc. cbn [fst] in Hc. rewrite Z.eqb_refl in Hc. discriminate.
    + intros id Hid. rewrite (lookup_dels _ _ 0) by exact Hs.
      destruct (existsb (Z.eqb id) dels) eqn:E; [|apply Ha; lia].
      apply Hdel_iff in E. lia.
    + intros id w Hid Hl. rewrite (lookup_dels _ _ 0) in Hl by exact Hs.
      destruct (existsb (Z.eqb id) dels) eqn:E; [discriminate|].
      rewrite Ec'. destruct (Z.eq_dec id k) as [->|Hne].
      * left. rewrite Hmck in Hl. inversion Hl. reflexivity.
      * right. apply filter_In. split; [apply Hgap1; [lia|exact Hl]|].
        unfold kept. cbn [fst snd]. replace (id =? k) with false by (symmetry; lia). cbn [negb andb].
        destruct (intersects w v) eqn:Ei; [|reflexivity]. exfalso.
        assert (G : existsb (Z.eqb id) dels = true).
        { apply Hdel_iff. split; [lia|]. exists w. split; [apply Hgap1; [lia|exact Hl]|]. split; [exact Hne|exact Ei]. }
        rewrite G in E. discriminate.
    + intros id w Hid Hin Hne. rewrite (lookup_dels _ _ 0) by exact Hs. rewrite Ec' in Hin.
      destruct Hin as [E|Hin].
      * inversion E; subst id w.
        destruct (existsb (Z.eqb k) dels) eqn:E2; [|exact Hmck].
        apply Hdel_iff in E2. destruct E2 as [_ [w [_ [G _]]]]. contradiction.
      * apply filter_In in Hin. destruct Hin as [Hin Hk]. unfold kept in Hk. cbn [fst snd] in Hk.
        apply andb_true_iff in Hk. destruct Hk as [Hk1 Hk2]. apply negb_true_iff in Hk1, Hk2. apply Z.eqb_neq in Hk1.
        destruct (existsb (Z.eqb id) dels) eqn:E2.
        -- apply Hdel_iff in E2. destruct E2 as [_ [w' [Hin' [_ Hi]]]].
           rewrite (ids_distinct_functional c id w w' Hn Hin Hin') in Hk2. rewrite Hk2 in Hi. discriminate.
        -- apply Hgap2; [lia|exact Hin|exact Hne].
    + intros id w Hin. rewrite Ec' in Hin. destruct Hin as [E|Hin].
      * inversion E; subst id w. right. split; [lia|]. rewrite Hmk. discriminate.
      * apply filter_In in Hin. apply (Ho' id w), Hin.
    + intros Hd0 a a' Hi Hi' Hne. rewrite Ec' in Hi, Hi'. specialize (Hd Hd0).
      assert (Hk : forall o, In o (filter (kept k v) c) -> In o c /\ intersects (snd o) v = false).
      { intros o Hin. apply filter_In in Hin. destruct Hin as [Hin Hc]. unfold kept in Hc.
        apply andb_true_iff in Hc. destruct Hc as [_ Hc]. apply negb_true_iff in Hc. auto. }
      destruct Hi as [<-|Hi]; destruct Hi' as [<-|Hi']; cbn [fst snd] in *.
      * congruence.
      * rewrite intersects_sym. exact (proj2 (Hk a' Hi')).
      * exact (proj2 (Hk a Hi)).
      * exact (Hd a a' (proj1 (Hk a Hi)) (proj1 (Hk a' Hi')) Hne).
  - (* rejected while the cache holds a newer version of this region: the record is brought up to date *)
    pose proof (find_id_In c k v' Ef) as Hkin.
    split.
      * pose proof (put_sorted 0 mc k v' Hs) as G. replace (Z.min 0 k) with 0 in G; [exact G|].
        clear - Hmck Hs.
        assert (0 <= k); [|lia].
        destruct (Z.lt_ge_cases k 0) as [L|L]; [|lia]. rewrite (lookup_below 0 mc k Hs L) in Hmck. discriminate.
      * exact Hn.
      * intros id Hid. rewrite (lookup_put 0) by exact Hs. replace (id =? k) with false by (symmetry; lia). apply Ha. lia.
      * intros id w Hid Hl. rewrite (lookup_put 0) in Hl by exact Hs. destruct (id =? k) eqn:E.
        -- apply Z.eqb_eq in E; subst id. inversion Hl; subst w. exact Hkin.
        -- apply Z.eqb_neq in E. apply Hgap1; [lia|exact Hl].
      * intros id w Hid Hin Hne. rewrite (lookup_put 0) by exact Hs. destruct (id =? k) eqn:E.
        -- apply Z.eqb_eq in E; subst id. rewrite (ids_distinct_functional c k w v' Hn Hin Hkin). reflexivity.
        -- apply Z.eqb_neq in E. apply Hgap2; [lia|exact Hin|exact Hne].
      * exact Ho'.
      * exact Hd.
  - (* rejected, and nothing of that id is served: the record goes *)
    split.
      * apply del_sorted. exact Hs.
      * exact Hn.
      * intros id Hid. rewrite (lookup_del 0) by exact Hs. replace (id =? k) with false by (symmetry; lia). apply Ha. lia.
      * intros id w Hid Hl. rewrite (lookup_del 0) in Hl by exact Hs. destruct (id =? k) eqn:E; [discriminate|].
        apply Z.eqb_neq in E. apply Hgap1; [lia|exact Hl].
      * intros id w Hid Hin Hne. rewrite (lookup_del 0) by exact Hs. destruct (id =? k) eqn:E.
        -- apply Z.eqb_eq in E; subst id. exfalso. exact (find_id_none c k w Ef Hin).
        -- apply Z.eqb_neq in E. apply Hgap2; [lia|exact Hin|exact Hne].
      * exact Ho'.
      * exact Hd.
Qed.

Lemma warm_fold : forall (p : amap rv) m mc c0 c b nx,
  WInv m mc c0 c b -> sorted_from b p -> (forall id, b <= id -> lookup m id = lookup p id) ->
  let r := fold_left (step_item put_loaded rw_loaded) p (mc, c, nx) in
  (forall id v, (lookup (fst (fst r)) id = Some v -> In (id, v) (snd (fst r))) /\
                (In (id, v) (snd (fst r)) -> lookup m id <> None -> lookup (fst (fst r)) id = Some v) /\
                (In (id, v) (snd (fst r)) -> In id (map fst c0) \/ lookup m id <> None)) /\
  ids_distinct (snd (fst r)) /\ (disjoint c0 -> disjoint (snd (fst r))).
Proof.
  induction p as [|[k v] p IH]; intros m mc c0 c b nx HW Hs Hl r; subst r.
  - cbn [fold_left fst snd]. destruct HW as [W1 W2 W3 W4 W5 W6 W7]. split; [|split; assumption]. intros id w. split; [|split].
    + intros H. destruct (Z.lt_ge_cases id b) as [G|G]; [exact (W4 id w G H)|].
      rewrite W3, Hl in H by lia. discriminate.
    + intros Hin Hne. destruct (Z.lt_ge_cases id b) as [G|G]; [exact (W5 id w G Hin Hne)|].
      exfalso. apply Hne. rewrite Hl by lia. reflexivity.
    + intros Hin. destruct (W6 id w Hin) as [G|[_ G]]; auto.
  - destruct Hs as [Hbk Hs]. cbn [fold_left].
    assert (Hmk : lookup m k = Some v) by (rewrite Hl by lia; cbn [lookup]; rewrite Z.eqb_refl; reflexivity).
    assert (Hgap : forall id, b <= id < k -> lookup m id = None).
    { intros id Hid. rewrite Hl by lia. cbn [lookup]. replace (id =? k) with false by (symmetry; lia).
      replace (id <? k) with true by (symmetry; lia). reflexivity. }
    pose proof (warm_step m mc c0 c b k v nx HW Hbk Hmk Hgap) as HW'. cbv zeta in HW'.
    destruct (step_item put_loaded rw_loaded (mc, c, nx) (k, v)) as [[mc' c'] nx'] eqn:E. cbn [fst snd] in HW'.
    apply (IH m mc' c0 c' (k + 1) nx' HW' Hs).
    intros id Hid. rewrite Hl by lia. cbn [lookup]. replace (id =? k) with false by (symmetry; lia).
    replace (id <? k) with false by (symmetry; lia). reflexivity.
Qed.

Lemma WInv_start m c0 : sorted_from 0 m -> ids_distinct c0 -> WInv m m c0 c0 0.
Proof.
  intros Hs Hn. split; [exact Hs|exact Hn|reflexivity| | | |auto].
  - intros id v Hid Hl. rewrite (lookup_below 0 m id Hs Hid) in Hl. discriminate.
  - intros id v Hid _ Hne. exfalso. apply Hne. exact (lookup_below 0 m id Hs Hid).
  - intros id v Hin. left. apply in_map_iff. exists (id, v). auto.
Qed.

Theorem warm_load : forall (m : amap rv) (c0 : cache),
  sorted_from 0 m -> (forall k v, In (k, v) m -> k < two64) -> ids_distinct c0 ->
  let res := page_loop never_fails put_loaded rw_loaded region_limit_min (fuel_for m region_limit0) m 0 region_limit0 O c0 [] in
  pl_status res = RDone /\
  pl_seen res = m /\
  (forall id v, lookup (pl_map res) id = Some v -> In (id, v) (pl_cb res)) /\
  (forall id v, In (id, v) (pl_cb res) -> lookup m id <> None -> lookup (pl_map res) id = Some v).
Proof.
  intros m c0 Hs Hb Hn res.
  destruct (page_loop_no_faults put_loaded rw_loaded region_limit_min (fun _ _ => True) region_min_pos (fun _ _ _ _ _ => I)
              (fun c it _ => conj (put_loaded_deletes_behind c it) I) m region_limit0 c0 0 Hs I region_limit0_pos) as (Hdone & A & B & _).
  fold res in Hdone, A, B. rewrite (todo_all m Hs Hb) in A, B.
  split; [exact Hdone|]. split; [exact A|].
  pose proof (warm_fold m m m c0 c0 0 0 (WInv_start m c0 Hs Hn) Hs (fun id _ => eq_refl)) as [F _]. cbv zeta in F.
  rewrite <- B in F. cbn [fst snd] in F.
  split; intros id v; apply (F id v).
Qed.

(* while every cached region lies behind the scan, CheckAndPutRegion and the load callback are the same callback *)
Lemma cold_is_warm : forall (items : amap rv) m c b nx, sorted_from b items -> Jcache c b ->
  fold_left (step_item check_and_put no_rw) items (m, c, nx) = fold_left (step_item put_loaded rw_loaded) items (m, c, nx).
Proof.
  induction items as [|[k v] r IH]; intros m c b nx Hs HJ; cbn [fold_left]; [reflexivity|]. destruct Hs as [Hbk Hs].
  assert (Hb : all_behind c (k, v)) by (intros o Ho; specialize (HJ o Ho); cbn [fst]; lia).
  assert (Hf : find_id c k = None).
  { destruct (find_id c k) as [w|] eqn:E; [|reflexivity]. apply find_id_In in E. specialize (HJ _ E). cbn [fst] in HJ. lia. }
  destruct (put_loaded_behind c (k, v) Hb (or_introl Hf)) as [E1 E2]. rewrite !step_item_eq, E1, E2. cbn [no_rw].
  apply (IH _ _ (k + 1) _ Hs). apply (Jcache_step c (k, v)). apply (Jcache_mono c b); [exact HJ|exact Hbk].
Qed.

Definition same_content (m : amap rv) (c : cache) : Prop := forall id v, lookup m id = Some v <-> In (id, v) c.

Theorem load_prunes_to_cache (m : amap rv) :
  sorted_from 0 m -> (forall k v, In (k, v) m -> k < two64) ->
  let res := load_regions never_fails check_and_put m [] in
  pl_status res = RDone /\ same_content (pl_map res) (pl_cb res) /\ disjoint (pl_cb res) /\ ids_distinct (pl_cb res) /\
  pl_seen res = m.
Proof.
  intros Hs Hmax res.
  destruct (page_loop_no_faults check_and_put no_rw region_limit_min Jcache region_min_pos Jcache_mono Jcache_step
              m region_limit0 [] 0 Hs (fun o (H : In o []) => match H with end) region_limit0_pos) as (Hd & Hacc & F & _).
  fold (load_regions never_fails check_and_put m []) in Hd, Hacc, F. fold res in Hd, Hacc, F.
  rewrite (todo_all m Hs Hmax) in Hacc, F. split; [exact Hd|].
  rewrite (cold_is_warm m m [] 0 0 Hs (fun o (H : In o []) => match H with end)) in F.
  destruct (warm_fold m m m [] [] 0 0 (WInv_start m [] Hs (NoDup_nil _)) Hs (fun id _ => eq_refl)) as (W & Wn & Wd). cbv zeta in W, Wn, Wd.
  rewrite <- F in W, Wn, Wd. cbn [fst snd] in W, Wn, Wd.
  split; [|split; [apply Wd; intros a a' []|split; [exact Wn|exact Hacc]]].
  intros id v. destruct (W id v) as (W1 & W2 & W3). split; [exact W1|].
  intros Hin. apply W2; [exact Hin|]. destruct (W3 Hin) as [[]|G]; exact G.
Qed.

Lemma in_ins_sorted {V} (x y : Z * V) l : In x (ins_sorted y l) <-> x = y \/ In x l.
Proof.
  induction l as [|z l IH]; cbn [ins_sorted In]; [intuition|].
  destruct (fst y <=? fst z); cbn [In]; [intuition|]. rewrite IH. intuition.
Qed.
Lemma in_sort_by_id {V} (x : Z * V) l : In x (sort_by_id l) <-> In x l.
Proof.
  unfold sort_by_id. induction l as [|y l IH]; cbn [fold_right In]; [tauto|]. rewrite in_ins_sorted, IH. intuition.
Qed.

Theorem prune_op s : SInv s -> (use_rs s = true \/ budget s = None) ->
  (forall k v, In (k, v) (regions_of s (use_rs s)) -> k < two64) ->
  exists c after,
    snd (run_op s OLoadIntoCache) = BCache RDone (regions_of s (use_rs s)) c after /\
    same_content after c /\ disjoint c /\
    regions_of (fst (run_op s OLoadIntoCache)) (use_rs s) = after /\
    (* nothing that was pruned is still waiting in the write-back batch *)
    (forall id, lookup (regions_of s (use_rs s)) id <> None -> lookup after id = None ->
                In id (map fst (batch (fst (run_op s OLoadIntoCache)))) -> use_rs s = false) /\
    (batch s = [] -> batch (fst (run_op s OLoadIntoCache)) = []).
Proof.
  intros I Hf Hb.
  assert (Hs : sorted_from 0 (regions_of s (use_rs s))) by (destruct I; unfold regions_of; destruct (use_rs s); assumption).
  assert (Hfaults : faults_of s (use_rs s) = never_fails).
  { unfold faults_of. destruct (use_rs s) eqn:E; [reflexivity|]. destruct Hf as [Hf|Hf]; [discriminate|]. rewrite Hf. reflexivity. }
  pose proof (load_prunes_to_cache (regions_of s (use_rs s)) Hs Hb) as P. cbv zeta in P.
  cbn [run_op]. unfold load_into_cache. rewrite Hfaults.
  destruct (load_regions never_fails check_and_put (regions_of s (use_rs s)) []) as [[[st acc] m'] c]. cbn [fst snd] in *.
  destruct P as (P1 & P2 & P3 & _ & P5). subst st acc.
  exists (sort_by_id c), m'. split; [reflexivity|]. split.
  { intros id v. rewrite in_sort_by_id. apply P2. }
  split.
  { intros a a' Ha Ha' Hne. apply (proj1 (in_sort_by_id a c)) in Ha. apply (proj1 (in_sort_by_id a' c)) in Ha'. apply P3; assumption. }
  destruct (use_rs s) eqn:Ers; cbn [fst regions_of set_regions ldb base_r batch].
  - split; [reflexivity|]. split.
    + intros id Hin Hout Hbatch. exfalso. apply in_map_iff in Hbatch as ([k v] & E & Hk). cbn in E. subst k.
      apply filter_In in Hk as [_ Hk]. cbn [fst] in Hk.
      destruct (lookup (ldb s) id); [|contradiction]. rewrite Hout in Hk. discriminate.
    + intros ->. reflexivity.
  - split; [reflexivity|]. split; [intros; reflexivity|]. intros E. exact E.
Qed.
