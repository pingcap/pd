(* C15 — GC safe points never move backwards.  The statements, each with its short derivation from proof/C15_GcProof.v (cluster safe point, one plain
   service call), proof/C15_GcLoadMinX.v (storage faults) and proof/C15_GcInterleave.v (REST deletes slipping in, histories).
   The model mirrors the code after three fix: commits in /repo
     "fix: serialize UpdateGCSafePoint's load-compare-save"                         (gcSafePointLock)
     "fix: reject service ids that are not a single path element in service GC safe points"  (checkServiceID)
     "fix: save the cluster GC safe point only as leader and only over the value it was compared with"  (saveGCSafePointAsLeader)

   Quantification.  Every label list `ls` is one history and one interleaving: any number of
   UpdateGCSafePoint request threads (LLoad t v ; LSave t o — the request's two storage operations, with
   the storage outcome Ok / ErrNotApplied / ErrApplied of the save; a request that finds the mutex taken is
   a disabled LLoad), GetGCSafePoint (LGet), UpdateServiceGCSafePoint (LSvc id ttl safepoint now — one
   label, it runs under serviceSafePointLock; `now` is an arbitrary input of every call, not even monotone,
   so expiry of any entry at any moment is covered; ids are arbitrary (text, storage key) pairs, including
   ".." and "x/../gc_worker"), REST deletes (LApiDel) and raw entries found below the service prefix (LSeed).
   `step = step_gen gc_locked gc_cas`; gc_locked (a mutex around load..save of one member) and gc_cas (the save is a
   compare-and-swap on the loaded value) are computed from the regenerated skeleton / comparison list (both true on this tree).
   Clauses of the property: 1a the stored cluster safe point never decreases; 1b every response is >= every value acknowledged
   before its request began; 2 the reported service minimum is not above the safe point of a live registered service; 3 a
   registration below the minimum is not recorded; 4 gc_worker's entry always exists with unlimited lifetime; 5 expired and
   non-positive-TTL registrations disappear.  The service clauses (2-5) are postconditions of one call from ANY well-formed store
   (wf_svcs: keys strictly increasing, "gc_worker" text only under gc_worker's key, safe points >= 0), which
   every history preserves (C15_store_wellformed_always); they therefore hold at every call of every history. *)
From Coq Require Import String.
From PDV Require Import lib.Base lib.Skel lib.C15_Guard gen.Gen_C15 model.C15_Gc proof.C15_GcProof proof.C15_GcLoadMinX proof.C15_GcInterleave proof.C15_Skel.
Local Open Scope Z_scope.

(* ---- clause 1a: the stored cluster GC safe point never decreases (and stays readable), all interleavings ---- *)
Definition C15_gc_safe_point_monotone_full : Prop :=
  forall ls l s', step (exec step init ls) l = Some s' ->
    gc_le (gc (sto (exec step init ls))) (gc (sto s')).

Theorem C15_gc_safe_point_monotone : C15_gc_safe_point_monotone_full.
Proof. unfold C15_gc_safe_point_monotone_full. rewrite step_is_cas. exact (cas_monotone gc_locked). Qed.

(* ---- clause 1b: every response is >= every value acknowledged before the request began ---- *)
Definition C15_response_ge_all_acknowledged_full : Prop :=
  forall ls r before a, In (r, before) (resps (exec step init ls)) -> In a before -> a <= r.

Theorem C15_response_ge_all_acknowledged : C15_response_ge_all_acknowledged_full.
Proof. unfold C15_response_ge_all_acknowledged_full. rewrite step_is_cas. exact (cas_responses gc_locked). Qed.

(* what is stored bounds everything acknowledged so far *)
Theorem C15_acknowledged_le_stored :
  forall ls a, In a (acks (exec step init ls)) ->
    exists g, gc_read (gc (sto (exec step init ls))) = Some g /\ a <= g.
Proof. rewrite step_is_cas. exact (cas_acks gc_locked). Qed.

(* ---- request threads of several members.  gcSafePointLock serialises the requests of ONE member; a request of a deposed
        leader whose write reaches etcd late is a request thread that overlaps with those of the new leader.  The write is a
        compare-and-swap on the value the request was compared with (gc_cas, read off the comparison list of
        saveGCSafePointAsLeader; the transaction is also guarded by the leader key), and with it clause 1 holds for ALL
        interleavings of any number of request threads without any mutual exclusion (step_gen false true) ---- *)
Theorem C15_gc_safe_point_monotone_across_members :
  forall ls l s', step_gen false true (exec (step_gen false true) init ls) l = Some s' ->
    gc_le (gc (sto (exec (step_gen false true) init ls))) (gc (sto s')).
Proof. exact (cas_monotone false). Qed.

Theorem C15_response_ge_all_acknowledged_across_members :
  forall ls r before a, In (r, before) (resps (exec (step_gen false true) init ls)) -> In a before -> a <= r.
Proof. exact (cas_responses false). Qed.

(* a save that arrives after the stored value has moved (the deposed leader's late write) is refused: nothing is stored,
   nothing is acknowledged *)
Theorem C15_stale_save_refused :
  forall b s t o p s', thr s t = Some p -> t_old p < t_new p -> cas_ok (gc (sto s)) (t_old p) = false ->
    step_gen b true s (LSave t o) = Some s' -> sto s' = sto s /\ acks s' = acks s /\ resps s' = resps s /\ thr s' t = None.
Proof.
  intros b s t o p s' Ht Hlt Hc H. cbn [step_gen] in H. rewrite Ht in H.
  apply Z.ltb_lt in Hlt. rewrite Hlt, Hc in H. cbn in H. injection H as <-. cbn. rewrite Nat.eqb_refl. auto.
Qed.

(* why both are there: the same model without the mutex and without the compare-and-swap (step_gen false false = the code
   before the two fixes) violates 1a, and stays correct for the schedules in which load..save sections do not overlap *)
Theorem C15_without_mutex_and_cas_refuted :
  ~ (forall ls l s', step_gen false false (exec (step_gen false false) init ls) l = Some s' ->
       gc_le (gc (sto (exec (step_gen false false) init ls))) (gc (sto s'))).
Proof.
  intros H. destruct overlap_decreases_without_mutex as (s' & Hs & Ha & Hb).
  destruct (H _ _ _ Hs) as (x & y & Hx & Hy & Hle). rewrite Ha in Hx. rewrite Hb in Hy.
  cbn in Hx, Hy. inversion Hx; inversion Hy; subst. lia.
Qed.

Theorem C15_without_cas_partial :
  forall ls l s', guarded (step_gen false false) excl_label init (ls ++ [l]) = true ->
    step_gen false false (exec (step_gen false false) init ls) l = Some s' ->
    gc_le (gc (sto (exec (step_gen false false) init ls))) (gc (sto s')).
Proof. exact (Safe_monotone false false excl_label (or_intror (fun _ _ H => or_intror H))). Qed.

(* the witness of S6 (A loads 5, B loads 5, B saves 20, A saves 10): B's load is disabled while A is inside *)
Example C15_old_interleaving_now_serialised :
  step (exec step init [LLoad 0 5; LSave 0 Ok; LLoad 0 10]) (LLoad 1 20) = None
  /\ gc (sto (exec step init (w_overlap ++ [LSave 0 Ok]))) = GVal 10
  /\ resps (exec step init (w_overlap ++ [LSave 0 Ok; LLoad 1 20; LSave 1 Ok; LGet])) = [(20, [20; 10; 5]); (20, [10; 5]); (10, [5]); (5, [])].
Proof. vm_compute. repeat split; reflexivity. Qed.

(* ---- the store every history produces is well-formed, so clauses 2-5 apply at every call ---- *)
Theorem C15_store_wellformed_always :
  forall ls, Forall label_ok ls -> wf_svcs (svcs (sto (exec step init ls))).
Proof. exact (fun ls => wf_exec gc_locked gc_cas ls init wf_init). Qed.

(* ---- clause 2: the reported minimum is never above the safe point of a live registered service ---- *)
Theorem C15_min_le_every_live :
  forall st i ttl sp now st' r, wf_svcs (svcs st) -> 0 <= sp -> now <= maxI64 ->
    svc_update st i ttl sp now = (st', Some r) ->
    forall k e, sv_get k (svcs st') = Some e -> now <= e_exp e -> r_sp r <= e_sp e.
Proof. intros st i ttl sp now st' r Hwf Hsp Hnow Hrun. destruct (svc_update_post st i ttl sp now st' r Hwf Hsp Hnow Hrun) as (_ & _ & Hbound & _). exact Hbound. Qed.

(* ---- clause 3: a registration below the current minimum is not recorded (the call is a pure LoadMin) ---- *)
Theorem C15_below_min_not_recorded :
  forall st i ttl sp now st' r, wf_svcs (svcs st) -> 0 <= sp -> now <= maxI64 ->
    svc_update st i ttl sp now = (st', Some r) ->
    forall n, key_of i = KSvc n -> 0 < ttl -> sp < r_sp r ->
      st' = fst (load_min now st) /\ r = resp_of (snd (load_min now st)) now.
Proof. exact below_min_not_recorded. Qed.

(* ---- clause 4: gc_worker's own entry always exists with unlimited lifetime, whatever the id ---- *)
Definition C15_gc_worker_always_infinite_full : Prop :=
  forall st i ttl sp now st' r, wf_svcs (svcs st) -> gcw_ok (svcs st) -> 0 <= sp -> now <= maxI64 ->
    svc_update st i ttl sp now = (st', Some r) -> gcw_ok (svcs st').

Theorem C15_gc_worker_always_infinite : C15_gc_worker_always_infinite_full.
Proof. intros st i ttl sp now st' r Hwf _ Hsp Hnow Hrun. destruct (svc_update_post st i ttl sp now st' r Hwf Hsp Hnow Hrun) as (_ & Hgcw & _). exact Hgcw. Qed.

(* every answered call establishes it from any store (e.g. one holding a finite gc_worker entry of an older version) ... *)
Theorem C15_gc_worker_established :
  forall st i ttl sp now st' r, wf_svcs (svcs st) -> 0 <= sp -> now <= maxI64 ->
    svc_update st i ttl sp now = (st', Some r) -> gcw_ok (svcs st').
Proof. intros st i ttl sp now st' r Hwf Hsp Hnow Hrun. destruct (svc_update_post st i ttl sp now st' r Hwf Hsp Hnow Hrun) as (_ & Hgcw & _). exact Hgcw. Qed.

(* ... and every label of every history keeps it (failed calls, REST deletes, cluster safe point traffic);
   only a raw write behind the handlers' back (LSeed) is excluded *)
Theorem C15_gc_worker_stays :
  forall ls s, wf_svcs (svcs (sto s)) -> gcw_ok (svcs (sto s)) ->
    Forall (fun l => label_ok l /\ no_seed l) ls -> gcw_ok (svcs (sto (exec step s ls))).
Proof. intros ls s Hwf Hg Hall. exact (gcw_stays gc_locked gc_cas ls s Hwf Hg Hall). Qed.

(* the path-escaping ids ".." and "x/../gc_worker" are refused and change nothing *)
Example C15_old_path_escapes_now_refused :
  let st := fst (svc_update (Store (GVal 30) []) IGcw maxI64 7 1700000000) in
  svc_update st (IName 100 KGc) 0 0 1700000000 = (st, None)
  /\ snd (svc_update st (IName 100 KGc) 1000 9 1700000000) = None
  /\ gc (fst (svc_update st (IName 100 KGc) 1000 9 1700000000)) = GVal 30
  /\ svc_update st (IName 101 (KSvc 0)) 0 8 1700000000 = (st, None)
  /\ svc_update st (IName 101 (KSvc 0)) 1000 8 1700000000 = (st, None).
Proof. vm_compute. repeat split; reflexivity. Qed.

(* ---- clause 5: expired and non-positive-TTL registrations disappear ---- *)
Theorem C15_expired_removed :
  forall st i ttl sp now st' r, wf_svcs (svcs st) -> 0 <= sp -> now <= maxI64 ->
    svc_update st i ttl sp now = (st', Some r) ->
    forall k e, sv_get k (svcs st') = Some e -> now <= e_exp e.
Proof. intros st i ttl sp now st' r Hwf Hsp Hnow Hrun. destruct (svc_update_post st i ttl sp now st' r Hwf Hsp Hnow Hrun) as (_ & _ & _ & Hlive). exact Hlive. Qed.

Theorem C15_nonpositive_ttl_removed :
  forall st i ttl sp now st' r, wf_svcs (svcs st) -> now <= maxI64 ->
    svc_update st i ttl sp now = (st', Some r) ->
    forall n, key_of i = KSvc n -> n <> 0 -> ttl <= 0 -> sv_get n (svcs st') = None.
Proof. exact nonpositive_ttl_removed. Qed.

(* an answered registration at or above the reported minimum is recorded, with the lease it asked for (services other than
   gc_worker): a write that was not committed must therefore not be acknowledged (seeded C15-12) *)
Theorem C15_acknowledged_registration_is_recorded :
  forall st i ttl sp now st' r, wf_svcs (svcs st) -> 0 <= sp -> now <= maxI64 ->
    svc_update st i ttl sp now = (st', Some r) ->
    forall n, key_of i = KSvc n -> n <> 0 -> 0 < ttl -> r_sp r <= sp ->
      sv_get n (svcs st') = Some (Entry (text_of i) (exp_of now ttl) sp).
Proof. exact acknowledged_is_recorded. Qed.

(* ---- clauses 2, 4, 5 when something slips into UpdateServiceGCSafePoint's locked section: the REST delete takes no
        server lock, so it can remove the (clean, non-gc_worker) services d between LoadMin and the request's own save;
        and that save may fail (ErrNotApplied) or be applied although the handler sees an error (ErrApplied) ---- *)
Theorem C15_interleaved_update_is_plain_when_nothing_slips_in :
  forall st i ttl sp now, svc_update_il st i ttl sp now [] Ok = svc_update st i ttl sp now.
Proof. exact svc_update_il_plain. Qed.

Theorem C15_service_clauses_with_concurrent_rest_delete :
  forall st i ttl sp now d o st' r, wf_svcs (svcs st) -> 0 <= sp -> now <= maxI64 ->
    svc_update_il st i ttl sp now d o = (st', Some r) ->
    wf_svcs (svcs st') /\ gcw_ok (svcs st') /\
    forall k e, sv_get k (svcs st') = Some e -> now <= e_exp e /\ r_sp r <= e_sp e.
Proof.
  intros st i ttl sp now d o st' r Hwf Hsp Hnow H. destruct (il_post st i ttl sp now d o Hwf Hsp Hnow) as (A & _ & C).
  rewrite H in A, C. destruct (C r eq_refl) as (G & B & L). split; [exact A|]. split; [exact G|].
  intros k e Hg. split; [exact (L k e Hg)|exact (B k e Hg (L k e Hg))].
Qed.

(* answered or not: the store stays well-formed, gc_worker's entry stays, the cluster safe point is untouched *)
Theorem C15_failed_service_update_keeps_store_sound :
  forall st i ttl sp now d o, wf_svcs (svcs st) -> 0 <= sp -> now <= maxI64 ->
    wf_svcs (svcs (fst (svc_update_il st i ttl sp now d o)))
    /\ (gcw_ok (svcs st) -> gcw_ok (svcs (fst (svc_update_il st i ttl sp now d o))))
    /\ gc (fst (svc_update_il st i ttl sp now d o)) = gc st.
Proof.
  intros st i ttl sp now d o Hwf Hsp Hnow. destruct (il_post st i ttl sp now d o Hwf Hsp Hnow) as (A & B & _).
  exact (conj A (conj B (svc_update_il_gc st i ttl sp now d o))).
Qed.

(* ---- the same at the granularity of the single storage operations of LoadMinServiceGCSafePoint (model load_min_x /
        svc_update_x): the LoadRange may fail; before any entry is looked at, REST deletes may have removed other services; the
        repair save of a finite gc_worker entry may fail or half-fail (LoadMin then returns the error, possibly after having
        pruned some entries); a Remove of an expired entry may fail (the code ignores its error and goes on); the final
        (re)creation of gc_worker's entry may fail.  For EVERY such environment x (and d, o as above): the cluster safe point
        is untouched, the store stays well-formed, gc_worker's never-expiring entry stays, and an answered minimum is a lower
        bound of every live registration.  What is lost under a failing Remove is only clause 5 ("nothing expired is left")
        for that entry, until a later call. ---- *)
Theorem C15_fine_grained_model_is_plain_when_nothing_interferes :
  (forall now st, load_min_x quiet_env now st = (fst (load_min now st), Some (snd (load_min now st))))
  /\ (forall st i ttl sp now d o, svc_update_x st i ttl sp now quiet_env d o = svc_update_il st i ttl sp now d o).
Proof. exact (conj load_min_x_quiet svc_update_x_quiet). Qed.

Theorem C15_load_min_under_faults_and_rest_deletes :
  forall x now st, wf_svcs (svcs st) -> gcw_ok (svcs st) -> now <= maxI64 ->
    let res := load_min_x x now st in
    wf_svcs (svcs (fst res)) /\ gcw_ok (svcs (fst res)) /\ gc (fst res) = gc st
    /\ forall m, snd res = Some m -> lower_bound now (e_sp m) (fst res) /\ 0 <= e_sp m.
Proof. exact load_min_x_post. Qed.

Theorem C15_service_update_under_faults_and_rest_deletes :
  forall st i ttl sp now x d o, wf_svcs (svcs st) -> gcw_ok (svcs st) -> 0 <= sp -> now <= maxI64 ->
    let res := svc_update_x st i ttl sp now x d o in
    wf_svcs (svcs (fst res)) /\ gcw_ok (svcs (fst res)) /\ gc (fst res) = gc st
    /\ forall r, snd res = Some r -> lower_bound now (r_sp r) (fst res).
Proof. exact svc_update_x_post. Qed.

(* non-vacuity: a history with sequential and blocked updates, a fault, service registrations and reads *)
Example C15_nonvacuous :
  let ls := [LLoad 0 5; LSave 0 Ok; LLoad 1 20; LLoad 2 30; LSave 1 ErrApplied; LGet; LSvc IGcw maxI64 7 1700000000;
             LSvc (IName 3 (KSvc 3)) 1000 9 1700000000; LSvc (IName 100 KGc) 0 0 1700000000; LLoad 0 10; LSave 0 Ok; LGet] in
  Forall label_ok ls /\
  map fst (resps (exec step init ls)) = [20; 20; 20; 5] /\
  map fst (svcs (sto (exec step init ls))) = [0; 3].
Proof.
  cbv zeta. split; [|split; vm_compute; reflexivity].
  repeat constructor; vm_compute; discriminate.
Qed.

(* non-vacuity of the service postconditions: a call that prunes, repairs gc_worker, refuses below the minimum *)
Example C15_svc_nonvacuous :
  let st := Store (GVal 5) [(-20, Entry (TName (-20)) 1699990000 3); (0, Entry TGcw 1699990000 10); (20, Entry (TName 20) 1700003000 20)] in
  wf_svcs (svcs st) /\
  svc_update st (IName 10 (KSvc 10)) 1000 9 1700000000
  = (Store (GVal 5) [(0, Entry TGcw maxI64 10); (20, Entry (TName 20) 1700003000 20)], Some (Resp TGcw (maxI64 - 1700000000) 10)).
Proof.
  cbv zeta. split; [|vm_compute; reflexivity].
  split; [cbn; repeat split; intros k' e' Hin; repeat (destruct Hin as [Hin|Hin]; [inversion Hin; subst; lia|]); destruct Hin|].
  intros k e. cbn. repeat (match goal with |- context [k =? ?c] => destruct (Z.eqb_spec k c) end);
    intros Hk; inversion Hk; subst; cbn; split; intros; try discriminate; try reflexivity; lia.
Qed.

Print Assumptions C15_gc_safe_point_monotone.
Print Assumptions C15_response_ge_all_acknowledged.
Print Assumptions C15_acknowledged_le_stored.
Print Assumptions C15_gc_safe_point_monotone_across_members.
Print Assumptions C15_response_ge_all_acknowledged_across_members.
Print Assumptions C15_stale_save_refused.
Print Assumptions C15_without_mutex_and_cas_refuted.
Print Assumptions C15_without_cas_partial.
Print Assumptions C15_store_wellformed_always.
Print Assumptions C15_min_le_every_live.
Print Assumptions C15_below_min_not_recorded.
Print Assumptions C15_gc_worker_always_infinite.
Print Assumptions C15_gc_worker_established.
Print Assumptions C15_gc_worker_stays.
Print Assumptions C15_service_clauses_with_concurrent_rest_delete.
Print Assumptions C15_failed_service_update_keeps_store_sound.
Print Assumptions C15_load_min_under_faults_and_rest_deletes.
Print Assumptions C15_service_update_under_faults_and_rest_deletes.
Print Assumptions C15_expired_removed.
Print Assumptions C15_nonpositive_ttl_removed.
Print Assumptions C15_acknowledged_registration_is_recorded.
