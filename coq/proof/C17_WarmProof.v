(* C17 — the load callback of the cluster (BasicCluster.CheckAndPutLoadedRegion), which may also REWRITE the record it is
   shown: how it answers compared with CheckAndPutRegion. *)
From PDV Require Import lib.Base lib.C17_Map gen.Gen_C17 model.C17_Storage proof.C17_PagingProof.
Local Open Scope Z_scope.
Local Open Scope list_scope.

(* what a load with a rewriting callback ends in (the paging theorem itself is page_loop_exact) *)
Section LoopRw.
  Context {V C : Type}.
  Variable cb : C -> Z * V -> C * list Z.
  Variable rw : C -> Z * V -> option V.

  Notation step := (step_item cb rw).

  Definition final_rw (m : amap V) (c : C) (items : amap V) : amap V * C := fst (fold_left step items (m, c, 0)).
End LoopRw.

Definition all_behind (c : cache) (r : Z * rv) : Prop := forall o, In o c -> fst o <= fst r.
Lemma filter_id_all {A} (f : A -> bool) l : (forall x, In x l -> f x = true) -> filter f l = l.
Proof.
  induction l as [|a l IH]; intros H; [reflexivity|]. cbn [filter]. rewrite (H a (or_introl eq_refl)).
  f_equal. apply IH. intros x Hx. apply H. right. exact Hx.
Qed.
(* while every cached region lies behind the record that is read, the callback is CheckAndPutRegion for new ids and for
   accepted records *)
Lemma put_loaded_behind c r : all_behind c r -> find_id c (fst r) = None \/ accepts c r = true ->
  put_loaded c r = check_and_put c r /\ rw_loaded c r = None.
Proof.
  intros Hb H. unfold put_loaded, rw_loaded, check_and_put. destruct (accepts c r) eqn:Ha.
  - split; [|reflexivity]. cbn [fst snd]. f_equal.
    apply filter_id_all. intros id Hid. apply in_map_iff in Hid. destruct Hid as [o [<- Ho]].
    unfold evicted in Ho. apply filter_In in Ho. destruct Ho as [Ho _]. apply Z.leb_le. exact (Hb o Ho).
  - destruct H as [H|H]; [rewrite H; auto|discriminate].
Qed.

(* whatever the cache holds, the callback never asks the load to delete a record it has not reached yet *)
Lemma put_loaded_deletes_behind c r id : In id (snd (put_loaded c r)) -> id <= fst r.
Proof.
  unfold put_loaded. destruct (accepts c r).
  - cbn [snd]. intros H. apply filter_In in H. destruct H as [_ H]. apply Z.leb_le. exact H.
  - destruct (find_id c (fst r)); cbn [snd In]; intros H; [contradiction|]. destruct H as [<-|[]]. lia.
Qed.

Lemma find_id_In (c : cache) k v : find_id c k = Some v -> In (k, v) c.
Proof.
  unfold find_id. destruct (find (fun o => fst o =? k) c) as [[k' v']|] eqn:E; [|discriminate].
  intros H; inversion H; subst v'. apply find_some in E. destruct E as [E1 E2]. cbn [fst] in E2.
  apply Z.eqb_eq in E2. subst k'. exact E1.
Qed.
Lemma find_id_none (c : cache) k v : find_id c k = None -> ~ In (k, v) c.
Proof.
  unfold find_id. destruct (find (fun o => fst o =? k) c) as [[k' v']|] eqn:E; [discriminate|].
  intros _ Hin. pose proof (find_none _ _ E (k, v) Hin) as G. cbn [fst] in G. rewrite Z.eqb_refl in G. discriminate.
Qed.

Definition kept (k : Z) (v : rv) (o : Z * rv) : bool := negb (fst o =? k) && negb (intersects (snd o) v).

Lemma put_loaded_cases c k v :
  (accepts c (k, v) = true /\ rw_loaded c (k, v) = None /\
   put_loaded c (k, v) = ((k, v) :: filter (kept k v) c, filter (fun id => id <=? k) (map fst (evicted c (k, v)))))
  \/ (exists v', accepts c (k, v) = false /\ find_id c k = Some v' /\ rw_loaded c (k, v) = Some v' /\ put_loaded c (k, v) = (c, []))
  \/ (accepts c (k, v) = false /\ find_id c k = None /\ rw_loaded c (k, v) = None /\ put_loaded c (k, v) = (c, [k])).
Proof.
  unfold put_loaded, rw_loaded, check_and_put. destruct (accepts c (k, v)); [left; auto|]. cbn [fst].
  destruct (find_id c k) as [v'|]; [right; left; exists v'; auto|right; right; auto].
Qed.

(* what an accepted record has deleted: the cached regions it overlaps that lie behind it *)
Lemma put_loaded_dels_iff c k v id :
  existsb (Z.eqb id) (filter (fun id => id <=? k) (map fst (evicted c (k, v)))) = true <->
  id <= k /\ exists w, In (id, w) c /\ id <> k /\ intersects w v = true.
Proof.
  rewrite existsb_exists. split.
  - intros [x [Hx E]]. apply Z.eqb_eq in E; subst x. apply filter_In in Hx. destruct Hx as [Hx Hle].
    apply Z.leb_le in Hle. split; [exact Hle|]. apply in_map_iff in Hx. destruct Hx as [[a w] [E Ho]]. cbn [fst] in E; subst a.
    unfold evicted in Ho. apply filter_In in Ho. destruct Ho as [Ho Hc]. cbn [fst snd] in Hc.
    apply andb_true_iff in Hc. destruct Hc as [Hc1 Hc2]. exists w. split; [exact Ho|]. split; [|exact Hc2].
    apply negb_true_iff in Hc1. apply Z.eqb_neq in Hc1. exact Hc1.
  - intros [Hle [w [Hin [Hne Hi]]]]. exists id. split; [|apply Z.eqb_refl].
    apply filter_In. split; [|apply Z.leb_le; exact Hle].
    apply in_map_iff. exists (id, w). split; [reflexivity|]. unfold evicted. apply filter_In. split; [exact Hin|].
    cbn [fst snd]. rewrite Hi. apply Z.eqb_neq in Hne. rewrite Hne. reflexivity.
Qed.
