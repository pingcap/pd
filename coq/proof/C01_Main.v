(* C01/C02: the combined invariant over step_r (= step: every storage outcome), and the statements. *)
From Coq Require Import ZArith List Bool Lia.
From PDV Require Import lib.Base gen.Gen_C01 model.C01_Tso proof.C01_Step proof.C01_Ctl proof.C01_Win proof.C01_Rec.
Import ListNotations.
Local Open Scope Z_scope.

(* fit of the logical part of granted ranges *)
Definition Gfit (s : state) : Prop := forall r te, In r (recs s) -> gst r = Granted te -> gL r < max_logical.

Lemma gfit_step0 s l s' : Gfit s -> step0 s l = Some s' -> Gfit s'.
Proof.
  intros I H. apply step0_tr in H.
  destruct H as [| l m w x' T | | | m count p Hp Hl Hc | m i r0 Hn Hm Hpd]; try exact I.
  - intros r te [<-|Hr]; [discriminate|apply I; exact Hr].
  - (* an answer is granted only after the overflow test *)
    intros r te Hr Hg. cbn in Hr. destruct (in_set_nth _ _ _ _ Hr) as [Hr1|(r1 & Hn1 & ->)]; [eapply I; eauto|].
    rewrite Hn in Hn1. inv Hn1. cbn in Hg. unfold respond_status in Hg.
    destruct (max_logical <=? gL r1) eqn:E; [discriminate|]. apply Z.leb_gt in E. exact E.
Qed.

Record Inv (s : state) : Prop := { i_ctl : Ctl s; i_cfg : Cfg s; i_win : Win s; i_rec : Rinv s; i_fit : Gfit s }.

Lemma ctl_bump s : Ctl s -> Ctl (bump s).
Proof. intros [E2 NONE FL SYN UR PEND]. constructor; auto. Qed.

(* step_r = step: a step0 transition, then the ghost clock *)
Lemma step_r_bump s l s' : step_r s l = Some s' -> exists s1, step0 s l = Some s1 /\ s' = bump s1.
Proof. unfold step_r, step. destruct (step0 s l) as [s1|]; [|discriminate]. intros H; inj. exists s1. auto. Qed.

Theorem inv_step_r s l s' : Inv s -> step_r s l = Some s' -> Inv s'.
Proof.
  intros [C G Wn R F] H. destruct (step_r_bump _ _ _ H) as (s1 & H0 & ->).
  constructor.
  - apply ctl_bump. eapply ctl_step0; eauto.
  - unfold Cfg in *. cbn. rewrite (tr_interval _ _ _ (step0_tr _ _ _ H0)). exact G.
  - apply (win_recs s1). eapply win_step0; eauto.
  - eapply rinv_step0; eauto.
  - exact (gfit_step0 _ _ _ F H0).
Qed.

Lemma inv_init iv gap : guard < iv -> Inv (init iv gap).
Proof.
  intros H. constructor; [apply ctl_init|exact H|apply win_init|apply rinv_init|].
  intros r te Hr; destruct Hr.
Qed.

Theorem inv_run s ls : Inv s -> Inv (exec step_r s ls).
Proof. apply invariant_exec. exact inv_step_r. Qed.

Theorem inv_exec iv gap ls : guard < iv -> Inv (exec step_r (init iv gap) ls).
Proof. intros H. apply inv_run, inv_init, H. Qed.

Lemma ordered_by_tb l :
  ordered l -> tb_sorted l ->
  forall r1 r2, In r1 l -> In r2 l -> glegit r1 = true -> glegit r2 = true -> (gtb r1 < gtb r2)%nat -> below r1 r2.
Proof.
  induction l as [|r0 t IH]; cbn; [tauto|].
  intros [Ho Hot] [Hs Hst] r1 r2 [<-|H1] [<-|H2] L1 L2 Hlt.
  - lia.
  - specialize (Hs _ H2). lia.
  - apply Ho; auto.
  - apply IH; auto.
Qed.

Lemma granted_ordered s r1 r2 te1 te2 :
  Inv s -> In r1 (recs s) -> In r2 (recs s) -> gst r1 = Granted te1 -> gst r2 = Granted te2 ->
  (gtb r1 < gtb r2)%nat -> below r1 r2.
Proof.
  intros [_ _ _ R _] H1 H2 G1 G2 Hlt.
  eapply ordered_by_tb; eauto using (r_ord _ R), (r_srt _ R), (r_g _ R).
Qed.

Lemma granted_realtime s r1 r2 te1 te2 :
  Inv s -> In r1 (recs s) -> In r2 (recs s) -> gst r1 = Granted te1 -> gst r2 = Granted te2 ->
  (te1 < gtb r2)%nat -> below r1 r2.
Proof.
  intros I H1 H2 G1 G2 Hlt. eapply granted_ordered; eauto.
  destruct (r_te _ (i_rec _ I) _ _ H1 G1). lia.
Qed.

Lemma granted_fits s r te :
  Inv s -> In r (recs s) -> gst r = Granted te -> 0 < gL r - gcount r + 1 /\ gL r < max_logical.
Proof.
  intros I H G. split; [|eapply (i_fit _ I); eauto]. destruct (r_cnt _ (i_rec _ I) _ H). lia.
Qed.

Lemma window_bound s r : Inv s -> In r (recs s) -> exists w, W s = Some w /\ gP r * ns_per_ms < w.
Proof. intros I H. apply (r_e1 _ (i_rec _ I) _ H). Qed.

Lemma window_monotone s l s' : Inv s -> step_r s l = Some s' -> opt_le (W s) (W s').
Proof.
  intros [C G Wn R F] H. destruct (step_r_bump _ _ _ H) as (s1 & H0 & ->). cbn. eapply wmono_step0; eauto.
Qed.

(* tsoutil.ComposeTS on a range that fits: order preserving *)
Lemma land_ones_small l : 0 <= l < 2 ^ 18 -> Z.land l (Z.ones 18) = l.
Proof. intros H. rewrite Z.land_ones by lia. apply Z.mod_small. exact H. Qed.

Lemma land_shift_disjoint p l : 0 <= l < 2 ^ 18 -> Z.land (p * 2 ^ 18) l = 0.
Proof.
  intros Hl. apply Z.bits_inj'. intros n Hn. rewrite Z.land_spec, Z.bits_0.
  destruct (Z.lt_ge_cases n 18).
  - rewrite Z.mul_pow2_bits_low by lia. reflexivity.
  - destruct (Z.eq_dec l 0) as [->|Hne]; [rewrite Z.bits_0; apply andb_false_r|].
    rewrite (Z.bits_above_log2 l n); [apply andb_false_r|lia|].
    assert (Z.log2 l < 18) by (apply Z.log2_lt_pow2; lia). lia.
Qed.

Lemma compose_small p l : 0 <= p < 2 ^ 46 -> 0 <= l < 2 ^ 18 -> compose_ts p l = p * 2 ^ 18 + l.
Proof.
  intros Hp Hl. unfold compose_ts. rewrite (land_ones_small l Hl).
  rewrite Z.shiftl_mul_pow2 by lia.
  assert (E : (p * 2 ^ 18) mod 2 ^ 64 = p * 2 ^ 18).
  { apply Z.mod_small. change (2 ^ 46) with 70368744177664 in Hp. change (2 ^ 18) with 262144.
    change (2 ^ 64) with 18446744073709551616. lia. }
  rewrite E. pose proof (land_shift_disjoint p l Hl) as Hd.
  rewrite <- Z.lxor_lor by exact Hd. symmetry. apply Z.add_nocarry_lxor. exact Hd.
Qed.
