(* C08 — the transcribed CheckSafety / IsFinish of step.go imply what the property asks of them
   (spec_safe / spec_done of model/C08_Steps.v), for every step kind, every region with one peer per
   store and every step naming non-zero peer ids.  The driver's step monitor evaluates the
   IMPLEMENTATION's answers against the same two predicates. *)
From Coq Require Import String.
From PDV Require Import lib.Base gen.Gen_C08 model.C08_Steps proof.C08_ListFacts.
Local Open Scope string_scope.
Local Open Scope list_scope.
Local Open Scope Z_scope.

Section Lookups.
  Variable r : region.
  Hypothesis Hnd : ND (peers r).

  Lemma voter_some st p : get_store_voter r st = Some p -> get_store_peer r st = Some p /\ is_learner p = false.
  Proof.
    rewrite get_store_voter_lk by exact Hnd. rewrite get_store_peer_lk.
    destruct (lk (peers r) st) as [q|]; [|discriminate]. destruct (is_learner q) eqn:E; [discriminate|].
    intros H; inversion H; subst. auto.
  Qed.

  Lemma voter_none st : get_store_voter r st = None ->
    get_store_peer r st = None \/ exists p, get_store_peer r st = Some p /\ is_learner p = true.
  Proof.
    rewrite get_store_voter_lk by exact Hnd. rewrite get_store_peer_lk.
    destruct (lk (peers r) st) as [q|]; [|auto]. destruct (is_learner q) eqn:E; [|discriminate]. intros _. right. eauto.
  Qed.

  Lemma learner_some st p : get_store_learner r st = Some p -> get_store_peer r st = Some p /\ is_learner p = true.
  Proof.
    rewrite get_store_learner_lk by exact Hnd. rewrite get_store_peer_lk.
    destruct (lk (peers r) st) as [q|]; [|discriminate]. destruct (is_learner q) eqn:E; [|discriminate].
    intros H; inversion H; subst. auto.
  Qed.

  Lemma peer_learner st p : get_store_peer r st = Some p -> is_learner p = true -> get_store_learner r st = Some p.
  Proof. rewrite get_store_learner_lk by exact Hnd. rewrite get_store_peer_lk. intros -> ->. reflexivity. Qed.

  Lemma peer_not_learner st p : get_store_peer r st = Some p -> is_learner p = false -> get_store_learner r st = None.
  Proof. rewrite get_store_learner_lk by exact Hnd. rewrite get_store_peer_lk. intros -> ->. reflexivity. Qed.
End Lookups.

Lemma pairs_nonzero l x : pair_ids_nonzero l = true -> In x l -> snd x <> 0.
Proof. unfold pair_ids_nonzero. rewrite forallb_forall. intros H Hin. specialize (H x Hin). apply negb_true_iff, Z.eqb_neq in H. exact H. Qed.

Lemma get_store_peer_store r st p : get_store_peer r st = Some p -> pstore p = st.
Proof. unfold get_store_peer. intros H. apply find_some in H as [_ H]. apply Z.eqb_eq in H. exact H. Qed.

Definition is_jin (c : jcls) : bool := match c with JIn => true | _ => false end.
Definition is_jout (c : jcls) : bool := match c with JOut => true | _ => false end.

Lemma scan_pairs_inr r cls tl : forall l acc acc',
  scan_pairs r cls tl l acc = inr acc' ->
  (forall x, In x l -> oid (get_store_peer r (fst x)) = snd x /\
                       (cls (orole (get_store_peer r (fst x))) = JIn \/ cls (orole (get_store_peer r (fst x))) = JOut))
  /\ fst (fst acc') = (fst (fst acc) || existsb (fun x => is_jin (cls (orole (get_store_peer r (fst x))))) l)
  /\ snd (fst acc') = (snd (fst acc) || existsb (fun x => is_jout (cls (orole (get_store_peer r (fst x))))) l)
  /\ snd acc' = (snd acc || existsb (fun x => is_jin (cls (orole (get_store_peer r (fst x)))) && tl
                                             && (ostore (get_store_peer r (fst x)) =? leader r)) l).
Proof.
  induction l as [|x rest IH]; intros acc acc' H; cbn [scan_pairs] in H.
  - inversion H; subst. cbn [existsb]. rewrite !orb_false_r. split; [intros ? []|repeat split; reflexivity].
  - destruct (negb (oid (get_store_peer r (fst x)) =? snd x)) eqn:Eid; [discriminate|].
    apply negb_false_iff, Z.eqb_eq in Eid.
    destruct (cls (orole (get_store_peer r (fst x)))) eqn:Ec; [discriminate| |].
    + destruct acc as [[ij nj] dl]. apply IH in H as (H1 & H2 & H3 & H4). cbn [fst snd] in *.
      split; [|split; [|split]].
      * intros y [<-|Hy]; [split; [exact Eid|left; exact Ec]|apply H1; exact Hy].
      * rewrite H2. cbn [existsb]. rewrite Ec. cbn [is_jin]. rewrite orb_true_r. reflexivity.
      * rewrite H3. cbn [existsb]. rewrite Ec. cbn [is_jout orb]. reflexivity.
      * rewrite H4. cbn [existsb]. rewrite Ec. cbn [is_jin andb]. rewrite orb_assoc. reflexivity.
    + destruct acc as [[ij nj] dl]. apply IH in H as (H1 & H2 & H3 & H4). cbn [fst snd] in *.
      split; [|split; [|split]].
      * intros y [<-|Hy]; [split; [exact Eid|right; exact Ec]|apply H1; exact Hy].
      * rewrite H2. cbn [existsb]. rewrite Ec. cbn [is_jin orb]. reflexivity.
      * rewrite H3. cbn [existsb]. rewrite Ec. cbn [is_jout]. rewrite orb_true_r. reflexivity.
      * rewrite H4. cbn [existsb]. rewrite Ec. cbn [is_jin andb orb]. reflexivity.
Qed.

Lemma existsb_false_all {A} (f : A -> bool) l : existsb f l = false -> forall x, In x l -> f x = false.
Proof.
  induction l as [|y r IH]; intros H x Hx; [destruct Hx|].
  cbn in H. apply orb_false_iff in H as [H1 H2]. destruct Hx as [<-|Hx]; [exact H1|apply IH; assumption].
Qed.

Lemma count_joint_zero r : count_joint r = 0 -> is_in_joint r = false.
Proof.
  unfold count_joint, is_in_joint. induction (peers r) as [|p l IH]; cbn [filter existsb]; [reflexivity|].
  destruct (in_joint p); cbn [length orb]; [lia|exact IH].
Qed.

(* cls sends exactly role ri to JIn and exactly role ro to JOut *)
Definition cls_roles (cls : role -> jcls) (ri ro : role) : Prop :=
  forall x, (cls x = JIn -> x = ri) /\ (cls x = JOut -> x = ro).

Lemma cls_enter_promote : cls_roles enter_promote_cls Incoming Learner.
Proof. intros []; cbn; split; intros H; try discriminate; reflexivity. Qed.
Lemma cls_enter_demote : cls_roles enter_demote_cls Demoting Voter.
Proof. intros []; cbn; split; intros H; try discriminate; reflexivity. Qed.
Lemma cls_leave_promote : cls_roles leave_promote_cls Incoming Voter.
Proof. intros []; cbn; split; intros H; try discriminate; reflexivity. Qed.
Lemma cls_leave_demote : cls_roles leave_demote_cls Demoting Learner.
Proof. intros []; cbn; split; intros H; try discriminate; reflexivity. Qed.

Lemma role_eqb_refl a : role_eqb a a = true.
Proof. destruct a; reflexivity. Qed.

Section Scan.
  Variables (r : region) (cls : role -> jcls) (ri ro : role) (tl : bool).
  Hypothesis Hcls : cls_roles cls ri ro.

  Lemma scan_entries l acc acc' :
    pair_ids_nonzero l = true -> scan_pairs r cls tl l acc = inr acc' ->
    forallb (entry_is r (one_of ro ri)) l = true
    /\ (fst (fst acc') = true -> fst (fst acc) = true \/ exists x, In x l /\ entry_is r (is_role ri) x = true)
    /\ (fst (fst acc') = false -> forall x, In x l -> entry_is r (is_role ro) x = true)
    /\ (snd (fst acc') = false -> forall x, In x l -> entry_is r (is_role ri) x = true)
    /\ (l <> [] -> fst (fst acc') = true \/ snd (fst acc') = true)
    /\ (snd acc' = false -> tl = true -> snd (fst acc') = false -> forall x, In x l -> (fst x =? leader r) = false).
  Proof.
    intros Hz Hs. apply scan_pairs_inr in Hs as (H1 & H2 & H3 & H4).
    assert (E : forall x, In x l -> exists p, get_store_peer r (fst x) = Some p /\ pid p = snd x /\
                                     ((cls (prole p) = JIn /\ prole p = ri) \/ (cls (prole p) = JOut /\ prole p = ro))).
    { intros x Hx. destruct (H1 x Hx) as (Hid & Hc).
      destruct (get_store_peer r (fst x)) as [p|] eqn:Ep; [|cbn in Hid; exfalso; apply (pairs_nonzero l x Hz Hx); congruence].
      exists p. cbn [oid orole] in *. repeat split; auto.
      destruct (Hcls (prole p)) as [A B]. destruct Hc as [Hc|Hc]; [left|right]; auto. }
    split; [|split; [|split; [|split; [|split]]]].
    - rewrite forallb_forall. intros x Hx. destruct (E x Hx) as (p & Ep & Hid & Hc). unfold entry_is. rewrite Ep, Hid, Z.eqb_refl.
      unfold one_of. destruct Hc as [[_ ->]|[_ ->]]; rewrite role_eqb_refl; cbn; [apply orb_true_r|reflexivity].
    - intros Ht. rewrite H2 in Ht. apply orb_true_iff in Ht as [Ht|Ht]; [left; exact Ht|right].
      apply existsb_exists in Ht as (x & Hx & Hj). exists x. split; [exact Hx|].
      destruct (E x Hx) as (p & Ep & Hid & Hc). rewrite Ep in Hj. cbn [orole] in Hj. unfold entry_is. rewrite Ep, Hid, Z.eqb_refl.
      destruct Hc as [[_ ->]|[Hc _]]; [unfold is_role; rewrite role_eqb_refl; reflexivity|rewrite Hc in Hj; discriminate].
    - intros Hf x Hx. rewrite H2 in Hf. apply orb_false_iff in Hf as [_ Hf].
      pose proof (existsb_false_all _ _ Hf x Hx) as Hj. destruct (E x Hx) as (p & Ep & Hid & Hc).
      cbn beta in Hj. rewrite Ep in Hj. cbn [orole] in Hj. unfold entry_is. rewrite Ep, Hid, Z.eqb_refl.
      destruct Hc as [[Hc _]|[_ ->]]; [rewrite Hc in Hj; discriminate|unfold is_role; rewrite role_eqb_refl; reflexivity].
    - intros Hf x Hx. rewrite H3 in Hf. apply orb_false_iff in Hf as [_ Hf].
      pose proof (existsb_false_all _ _ Hf x Hx) as Hj. destruct (E x Hx) as (p & Ep & Hid & Hc).
      cbn beta in Hj. rewrite Ep in Hj. cbn [orole] in Hj. unfold entry_is. rewrite Ep, Hid, Z.eqb_refl.
      destruct Hc as [[_ ->]|[Hc _]]; [unfold is_role; rewrite role_eqb_refl; reflexivity|rewrite Hc in Hj; discriminate].
    - intros Hne. destruct l as [|x rest]; [congruence|]. destruct (E x (or_introl eq_refl)) as (p & Ep & _ & Hc).
      rewrite H2, H3. cbn [existsb]. rewrite Ep. cbn [orole].
      destruct Hc as [[Hc _]|[Hc _]]; rewrite Hc; cbn; [left; apply orb_true_r|right; apply orb_true_r].
    - intros Hf -> Hnj x Hx. rewrite H4 in Hf. apply orb_false_iff in Hf as [_ Hf].
      rewrite H3 in Hnj. apply orb_false_iff in Hnj as [_ Hnj].
      pose proof (existsb_false_all _ _ Hf x Hx) as Hj. pose proof (existsb_false_all _ _ Hnj x Hx) as Ho.
      cbn beta in Hj, Ho. destruct (E x Hx) as (p & Ep & Hid & Hc).
      rewrite Ep in Hj, Ho. cbn [orole ostore] in Hj, Ho. rewrite (get_store_peer_store _ _ _ Ep) in Hj.
      destruct Hc as [[Hc _]|[Hc _]]; rewrite Hc in *; cbn in Hj, Ho; [exact Hj|discriminate Ho].
  Qed.
End Scan.

Lemma forallb_and {A} (f g : A -> bool) l : forallb f l = true -> forallb g l = true -> forallb (fun x => f x && g x) l = true.
Proof. rewrite !forallb_forall. intros F G x Hx. rewrite (F x Hx), (G x Hx). reflexivity. Qed.

Lemma forallb_of {A} (f : A -> bool) l : (forall x, In x l -> f x = true) -> forallb f l = true.
Proof. intros H. apply forallb_forall. exact H. Qed.

Section Verdict.
  Variables (r : region) (c1 c2 : role -> jcls) (i1 o1 i2 o2 : role) (tl : bool).
  Hypothesis H1 : cls_roles c1 i1 o1.
  Hypothesis H2 : cls_roles c2 i2 o2.

  Lemma verdict_spec pl dv acc1 acc2 :
    pair_ids_nonzero pl = true -> pair_ids_nonzero dv = true ->
    scan_pairs r c1 false pl (false, false, false) = inr acc1 ->
    scan_pairs r c2 tl dv acc1 = inr acc2 ->
    joint_verdict r (length pl + length dv) acc2 = None ->
    forallb (entry_is r (one_of o1 i1)) pl = true /\ forallb (entry_is r (one_of o2 i2)) dv = true
    /\ (match pl, dv with [], [] => True | _, _ => False end
        \/ (forallb (entry_is r (is_role o1)) pl = true /\ forallb (entry_is r (is_role o2)) dv = true /\ count_joint r = 0)
        \/ (forallb (entry_is r (is_role i1)) pl = true /\ forallb (entry_is r (is_role i2)) dv = true
            /\ count_joint r = Z.of_nat (length pl + length dv)
            /\ (tl = true -> forall x, In x dv -> (fst x =? leader r) = false))).
  Proof.
    intros Z1 Z2 S1 S2 Hv.
    destruct (scan_entries r c1 i1 o1 false H1 pl _ _ Z1 S1) as (A1 & A2 & A3 & A4 & A5 & _).
    destruct (scan_entries r c2 i2 o2 tl H2 dv _ _ Z2 S2) as (B1 & B2 & B3 & B4 & B5 & B6).
    cbn [fst snd] in A2, A3, A4, A5.
    split; [exact A1|]. split; [exact B1|].
    destruct acc1 as [[ij1 nj1] dl1]. destruct acc2 as [[ij nj] dl]. cbn [fst snd] in *.
    (* flags only grow from the first list to the second *)
    pose proof (scan_pairs_inr r c2 tl dv _ _ S2) as (_ & G2 & G3 & G4). cbn [fst snd] in G2, G3, G4.
    unfold joint_verdict in Hv.
    destruct (nj && ij) eqn:E1; [discriminate|].
    destruct (nj && negb (count_joint r =? 0)) eqn:E2; [discriminate|].
    destruct (ij && negb (count_joint r =? Z.of_nat (length pl + length dv))) eqn:E3; [discriminate|].
    destruct dl eqn:E4; [discriminate|].
    destruct ij eqn:Eij, nj eqn:Enj.
    - cbn in E1. discriminate.
    -  right. right.
      assert (C : count_joint r = Z.of_nat (length pl + length dv))
        by (cbn [andb] in E3; apply negb_false_iff, Z.eqb_eq in E3; exact E3).
      assert (N1 : nj1 = false) by (symmetry in G3; apply orb_false_iff in G3 as [Q _]; exact Q).
      split; [apply forallb_of; apply A4; exact N1|].
      split; [apply forallb_of; apply B4; reflexivity|].
      split; [exact C|]. intros T. apply (B6 eq_refl T eq_refl).
    -  right. left.
      assert (C : count_joint r = 0) by (cbn [andb] in E2; apply negb_false_iff, Z.eqb_eq in E2; exact E2).
      assert (N1 : ij1 = false) by (symmetry in G2; apply orb_false_iff in G2 as [Q _]; exact Q).
      split; [apply forallb_of; apply A3; exact N1|].
      split; [apply forallb_of; apply B3; reflexivity|exact C].
    - (* no flag: both lists are empty *) left.
      assert (N1 : ij1 = false) by (symmetry in G2; apply orb_false_iff in G2 as [Q _]; exact Q).
      assert (N2 : nj1 = false) by (symmetry in G3; apply orb_false_iff in G3 as [Q _]; exact Q).
      destruct pl as [|x pl'].
      + destruct dv as [|y dv']; [exact I|]. exfalso.
        destruct B5 as [Q|Q]; [discriminate|discriminate Q|discriminate Q].
      + exfalso. destruct A5 as [Q|Q]; [discriminate|congruence|congruence].
  Qed.
End Verdict.

Lemma role_eqb_sym a b : role_eqb a b = role_eqb b a.
Proof. destruct a, b; reflexivity. Qed.

Lemma empty_pair_match (pl dv : list (Z * Z)) :
  match pl, dv with [], [] => True | _, _ => False end -> (match pl, dv with [], [] => true | _, _ => false end) = true.
Proof. destruct pl, dv; intros H; try contradiction; reflexivity. Qed.

Theorem check_safety_sound r s :
  ND (peers r) -> step_ids_nonzero s = true -> check_safety r s = None -> spec_safe r s = true.
Proof.
  intros Hnd Hz Hs.
  destruct s as [f t|st id|st id|st id|st id|st id|st id|st id|pl dv|pl dv|pa tr|fr]; cbn [step_ids_nonzero] in Hz;
    cbn [check_safety spec_safe] in *; try reflexivity.
  - destruct (get_store_peer r t) as [p|]; [|discriminate]. destruct (is_learner p); [discriminate|reflexivity].
  - destruct (get_store_peer r st) as [p|]; [|reflexivity]. destruct (pid p =? id); [reflexivity|discriminate].
  - destruct (get_store_peer r st) as [p|]; [|reflexivity]. destruct (pid p =? id); [|discriminate].
    cbn [negb andb] in *. destruct (is_learner p); [reflexivity|discriminate].
  - destruct (get_store_peer r st) as [p|]; [|reflexivity]. destruct (pid p =? id); [reflexivity|discriminate].
  - destruct (get_store_peer r st) as [p|]; [|reflexivity]. destruct (pid p =? id); [|discriminate].
    cbn [negb andb] in *. destruct (is_learner p); [reflexivity|discriminate].
  - apply negb_true_iff, Z.eqb_neq in Hz. unfold entry_is. cbn [fst snd].
    destruct (get_store_peer r st) as [p|]; cbn [oid] in *.
    + destruct (pid p =? id); [reflexivity|discriminate].
    + destruct (0 =? id) eqn:E; [apply Z.eqb_eq in E; congruence|discriminate].
  - apply negb_true_iff, Z.eqb_neq in Hz. unfold entry_is. cbn [fst snd].
    destruct (get_store_peer r st) as [p|] eqn:Ep; cbn [oid] in *.
    + destruct (pid p =? id) eqn:E1; [|discriminate]. cbn [negb andb] in *.
      destruct (pid p =? leader_id r) eqn:E2; [discriminate|].
      destruct (st =? leader r) eqn:E3; [|reflexivity]. destruct (leader r =? 0) eqn:E4; [reflexivity|].
      exfalso. apply Z.eqb_eq in E3. subst st. unfold leader_id in E2. rewrite E4, Ep in E2. cbn [oid] in E2.
      rewrite Z.eqb_refl in E2. discriminate.
    + destruct (0 =? id) eqn:E; [apply Z.eqb_eq in E; congruence|discriminate].
  - destruct (st =? leader r); [discriminate|reflexivity].
  - apply andb_true_iff in Hz as [Z1 Z2].
    destruct (scan_pairs r enter_promote_cls false pl (false, false, false)) as [e|acc1] eqn:S1; [discriminate|].
    destruct (scan_pairs r enter_demote_cls false dv acc1) as [e|acc2] eqn:S2; [discriminate|].
    destruct (verdict_spec r _ _ _ _ _ _ false cls_enter_promote cls_enter_demote pl dv acc1 acc2 Z1 Z2 S1 S2 Hs)
      as (A & B & [C|[(C1 & C2 & C3)|(C1 & C2 & C3 & _)]]).
    + rewrite A, B, (empty_pair_match _ _ C). reflexivity.
    + rewrite A, B, C1, C2, C3. cbn. rewrite orb_true_r. reflexivity.
    + rewrite A, B, C1, C2, C3, Z.eqb_refl. cbn. rewrite !orb_true_r. reflexivity.
  - apply andb_true_iff in Hz as [Z1 Z2].
    destruct (scan_pairs r leave_promote_cls false pl (false, false, false)) as [e|acc1] eqn:S1; [discriminate|].
    destruct (scan_pairs r leave_demote_cls true dv acc1) as [e|acc2] eqn:S2; [discriminate|].
    destruct (verdict_spec r _ _ _ _ _ _ true cls_leave_promote cls_leave_demote pl dv acc1 acc2 Z1 Z2 S1 S2 Hs)
      as (A & B & [C|[(C1 & C2 & C3)|(C1 & C2 & C3 & C4)]]).
    + rewrite A, B, (empty_pair_match _ _ C). reflexivity.
    + rewrite A, B, C1, C2, C3. cbn. rewrite orb_true_r. reflexivity.
    + rewrite A, B, C1, C2, C3, Z.eqb_refl.
      assert (L : forallb (fun x => negb (fst x =? leader r)) dv = true).
      { apply forallb_of. intros x Hx. rewrite (C4 eq_refl x Hx). reflexivity. }
      rewrite L. cbn. rewrite !orb_true_r. reflexivity.
Qed.

Lemma voter_entry r l ro x : ND (peers r) -> pair_ids_nonzero l = true -> In x l ->
  (let p := get_store_voter r (fst x) in (oid p =? snd x) && role_eqb (orole p) ro) = true -> entry_is r (is_role ro) x = true.
Proof.
  intros Hnd Hz Hx F. cbn zeta in F. apply andb_true_iff in F as [E1 E2]. apply Z.eqb_eq in E1.
  destruct (get_store_voter r (fst x)) as [p|] eqn:Ev; [|cbn in E1; exfalso; apply (pairs_nonzero l x Hz Hx); congruence].
  destruct (voter_some r Hnd _ _ Ev) as [Ep _]. cbn [oid orole] in *. unfold entry_is. rewrite Ep, E1, Z.eqb_refl.
  unfold is_role. rewrite role_eqb_sym. exact E2.
Qed.

Theorem is_finish_sound r s :
  ND (peers r) -> step_ids_nonzero s = true -> is_finish r s = true -> spec_done r s = true.
Proof.
  intros Hnd Hz Hf.
  assert (V : forall st id, match get_store_voter r st with Some p => pid p =? id | None => false end = true ->
                            entry_is r (fun ro => negb (role_eqb ro Learner)) (st, id) = true).
  { intros st id H. destruct (get_store_voter r st) as [p|] eqn:Ev; [|discriminate].
    destruct (voter_some r Hnd _ _ Ev) as [Ep Hl]. unfold entry_is. cbn [fst snd]. rewrite Ep, H. unfold is_learner in Hl. rewrite Hl. reflexivity. }
  assert (L : forall st id, match get_store_learner r st with Some p => pid p =? id | None => false end = true ->
                            entry_is r (is_role Learner) (st, id) = true).
  { intros st id H. destruct (get_store_learner r st) as [p|] eqn:Ev; [|discriminate].
    destruct (learner_some r Hnd _ _ Ev) as [Ep Hl]. unfold entry_is. cbn [fst snd]. rewrite Ep, H. unfold is_role. rewrite role_eqb_sym. exact Hl. }
  destruct s as [f t|st id|st id|st id|st id|st id|st id|st id|pl dv|pl dv|pa tr|fr]; cbn [step_ids_nonzero] in Hz;
    cbn [is_finish spec_done] in *; try reflexivity; try exact Hf; try (apply V; exact Hf); try (apply L; exact Hf).
  - apply andb_true_iff in Hz as [Z1 Z2]. apply andb_true_iff in Hf as [F1 F2]. rewrite forallb_forall in F1, F2.
    apply andb_true_iff. split; apply forallb_of; intros x Hx.
    + exact (voter_entry r pl _ x Hnd Z1 Hx (F1 x Hx)).
    + exact (voter_entry r dv _ x Hnd Z2 Hx (F2 x Hx)).
  - apply andb_true_iff in Hz as [Z1 Z2]. apply andb_true_iff in Hf as [Hf F3]. apply andb_true_iff in Hf as [F1 F2].
    rewrite forallb_forall in F1, F2. rewrite F3, andb_true_r.
    apply andb_true_iff. split; apply forallb_of; intros x Hx.
    + exact (voter_entry r pl _ x Hnd Z1 Hx (F1 x Hx)).
    + specialize (F2 x Hx). unfold dv_finished in F2. destruct x as [st id]. cbn [fst snd] in *. apply L. exact F2.
Qed.

Lemma is_finish_p_nil r s : is_finish_p [] r s = is_finish r s.
Proof. unfold is_finish_p. destruct s; cbn [existsb negb]; rewrite andb_true_r; reflexivity. Qed.

Lemma is_finish_p_sound pend r s : is_finish_p pend r s = true -> is_finish r s = true.
Proof. unfold is_finish_p. intros H. apply andb_true_iff in H. tauto. Qed.

(* a step held back by a pending peer: it is an add step whose peer is already there; its precondition holds, nothing
   is sent again, and ConfVerChanged already counts it - the operator only waits *)
Lemma pending_only_waits pend r s :
  ND (peers r) -> is_finish r s = true -> is_finish_p pend r s = false ->
  (exists st id, (s = AddPeer st id \/ s = AddLearner st id \/ s = AddLightPeer st id \/ s = AddLightLearner st id) /\ In id pend)
  /\ check_safety r s = None /\ cmd_of_step r s = None /\ conf_ver_changed r s = 1.
Proof.
  intros Hnd Hf Hp. unfold is_finish_p in Hp. rewrite Hf in Hp. cbn [andb] in Hp.
  assert (Hin : forall id, negb (existsb (Z.eqb id) pend) = false -> In id pend).
  { intros id H. apply negb_false_iff, existsb_exists in H as (x & Hx & E). apply Z.eqb_eq in E. subst x. exact Hx. }
  destruct s as [f t|st id|st id|st id|st id|st id|st id|st id|pl dv|pl dv|pa tr|fr]; try discriminate Hp;
    cbn [is_finish check_safety cmd_of_step conf_ver_changed] in *.
  - destruct (get_store_voter r st) as [p|] eqn:Ev; [|discriminate]. destruct (voter_some r Hnd _ _ Ev) as [Ep _].
    rewrite Ep. cbn [is_some oid]. rewrite Hf. cbn. split; [exists st, id; split; [auto|exact (Hin id Hp)]|repeat split].
  - destruct (get_store_learner r st) as [p|] eqn:Ev; [|discriminate]. destruct (learner_some r Hnd _ _ Ev) as [Ep Hl].
    rewrite Ep. cbn [is_some oid]. rewrite Hf, Hl. cbn. split; [exists st, id; split; [auto|exact (Hin id Hp)]|repeat split].
  - destruct (get_store_voter r st) as [p|] eqn:Ev; [|discriminate]. destruct (voter_some r Hnd _ _ Ev) as [Ep _].
    rewrite Ep. cbn [is_some oid]. rewrite Hf. cbn. split; [exists st, id; split; [auto|exact (Hin id Hp)]|repeat split].
  - destruct (get_store_learner r st) as [p|] eqn:Ev; [|discriminate]. destruct (learner_some r Hnd _ _ Ev) as [Ep Hl].
    rewrite Ep. cbn [is_some oid]. rewrite Hf, Hl. cbn. split; [exists st, id; split; [auto|exact (Hin id Hp)]|repeat split].
Qed.
