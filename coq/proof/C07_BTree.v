(* C07 — the order statistics PD added to google/btree (`indices`).
   `indices[i] = size(children[0]) + ... + size(children[i]) + i` is the position of item i in the in-order walk.
   Every bookkeeping function of `indices` (model/C07_BTree.v: ix_*; transcribed as list functions, bodies tied in
   proof/C07_Skel.v) implements the obvious operation on the list of child sizes.  Used by proof/C07_BTreeRefine.v. *)
From Coq Require Import List ZArith Lia Bool.
From PDV Require Import lib.C07_List model.C07_BTreeSpec model.C07_BTree.
Import ListNotations.
Local Open Scope Z_scope.

Lemma replace_nth_mid {X} (l1 : list X) x y l2 : replace_nth (length l1) y (l1 ++ x :: l2) = l1 ++ y :: l2.
Proof. induction l1 as [|a l1 IH]; cbn; [reflexivity|]. rewrite IH. reflexivity. Qed.
Lemma replace_nth_mid_S {X} (l1 : list X) x y z l2 : replace_nth (S (length l1)) z (l1 ++ x :: y :: l2) = l1 ++ x :: z :: l2.
Proof. rewrite app_cons_snoc, <- length_snoc with (x := x), replace_nth_mid, <- app_cons_snoc. reflexivity. Qed.
Lemma insert_nth_mid {X} (l1 l2 : list X) y : insert_nth (length l1) y (l1 ++ l2) = l1 ++ y :: l2.
Proof. unfold insert_nth. rewrite firstn_app_l, skipn_app_l. reflexivity. Qed.
Lemma insert_nth_mid_S {X} (l1 : list X) x l2 y : insert_nth (S (length l1)) y (l1 ++ x :: l2) = l1 ++ x :: y :: l2.
Proof. rewrite app_cons_snoc, <- length_snoc with (x := x), insert_nth_mid, <- app_cons_snoc. reflexivity. Qed.
Lemma remove_nth_mid {X} (l1 : list X) x l2 : remove_nth (length l1) (l1 ++ x :: l2) = l1 ++ l2.
Proof. unfold remove_nth. rewrite firstn_app_l, skipn_app_S. reflexivity. Qed.
Lemma remove_nth_mid_S {X} (l1 : list X) x y l2 : remove_nth (S (length l1)) (l1 ++ x :: y :: l2) = l1 ++ x :: l2.
Proof. rewrite app_cons_snoc, <- length_snoc with (x := x), remove_nth_mid, <- app_cons_snoc. reflexivity. Qed.
Lemma replace_nth_two {X} (l1 : list X) a b l2 x y n : length l1 = n ->
  replace_nth (S n) y (replace_nth n x (l1 ++ a :: b :: l2)) = l1 ++ x :: y :: l2.
Proof. intros <-. rewrite replace_nth_mid, replace_nth_mid_S. reflexivity. Qed.
Lemma upd_nth_mid (l1 : list Z) v l2 f : upd_nth (length l1) f (l1 ++ v :: l2) = l1 ++ f v :: l2.
Proof. induction l1 as [|a l1 IH]; cbn; [reflexivity|]. rewrite IH. reflexivity. Qed.
Lemma upd_nth_twice i f g (l : list Z) : upd_nth i g (upd_nth i f l) = upd_nth i (fun v => g (f v)) l.
Proof. revert i. induction l as [|a l IH]; intros [|i]; cbn; try reflexivity. rewrite IH. reflexivity. Qed.
Lemma upd_nth_ext i f g (l : list Z) : (forall v, f v = g v) -> upd_nth i f l = upd_nth i g l.
Proof. intros H. revert i. induction l as [|a l IH]; intros [|i]; cbn; try reflexivity; [rewrite H|rewrite IH]; reflexivity. Qed.
Lemma last_opt_snoc {X} (l : list X) x : last_opt (l ++ [x]) = Some x.
Proof. unfold last_opt. rewrite rev_app_distr. reflexivity. Qed.
Lemma last_opt_app {X} (l1 l2 : list X) : l2 <> [] -> last_opt (l1 ++ l2) = last_opt l2.
Proof.
  intros NE. destruct (exists_last_or_nil l2) as [->|(l' & a & ->)]; [contradiction|].
  rewrite app_assoc, !last_opt_snoc. reflexivity.
Qed.

Local Notation sum := (fold_right Z.add 0).

Lemma sum_app a b : sum (a ++ b) = sum a + sum b.
Proof. induction a as [|x a IH]; cbn; [reflexivity|]. rewrite IH. lia. Qed.

Lemma idx_from_shift acc d ss : idx_from (acc + d) ss = map (fun v => v + d) (idx_from acc ss).
Proof.
  revert acc. induction ss as [|s r IH]; intros acc; cbn; [reflexivity|].
  f_equal; [lia|]. rewrite <- IH. f_equal. lia.
Qed.

Lemma idx_from_app acc a b :
  idx_from acc (a ++ b) = idx_from acc a ++ idx_from (acc + sum a + Z.of_nat (length a)) b.
Proof.
  revert acc. induction a as [|s r IH]; intros acc; cbn [app idx_from fold_right length].
  - f_equal. lia.
  - f_equal. rewrite IH. f_equal. f_equal. lia.
Qed.

Lemma idx_from_length acc ss : length (idx_from acc ss) = length ss.
Proof. revert acc. induction ss as [|s r IH]; intros acc; cbn; [reflexivity|]. rewrite IH. reflexivity. Qed.

(* entry |a|: the sizes before it, the separators before it, its own size *)
Lemma idx_from_nth_prefix acc a s b :
  nth (length a) (idx_from acc (a ++ s :: b)) 0 = acc + sum a + Z.of_nat (length a) + s.
Proof.
  rewrite idx_from_app. rewrite app_nth2; rewrite idx_from_length; [|lia]. rewrite Nat.sub_diag. reflexivity.
Qed.

(* the entry before position |a|, when there is one: one less than the position of the first item of child |a| *)
Lemma idx_from_nth_pred acc a l p : length a = S p ->
  nth p (idx_from acc a ++ l) 0 + 1 = acc + sum a + Z.of_nat (length a).
Proof.
  intros L. destruct (exists_last_or_nil a) as [->|(a0 & sl & ->)]; [discriminate|].
  rewrite length_snoc in L. injection L as <-. rewrite <- (app_nil_r (a0 ++ [sl])) at 1. rewrite <- !app_assoc. cbn [app].
  rewrite app_nth1 by (rewrite idx_from_length, app_length; cbn; lia).
  rewrite idx_from_nth_prefix, sum_app, length_snoc. cbn. lia.
Qed.

Lemma idx_firstn acc a b : firstn (length a) (idx_from acc a ++ b) = idx_from acc a.
Proof. rewrite <- (idx_from_length acc a). apply firstn_app_l. Qed.
Lemma idx_skipn acc a b : skipn (length a) (idx_from acc a ++ b) = b.
Proof. rewrite <- (idx_from_length acc a). apply skipn_app_l. Qed.
Lemma idx_skipn_S acc a x b : skipn (S (length a)) (idx_from acc a ++ x :: b) = b.
Proof. rewrite <- (idx_from_length acc a). apply skipn_app_S. Qed.

Lemma ix_add_at_0 d l : ix_add_at 0 d l = map (fun v => v + d) l.
Proof. induction l as [|y l IH]; cbn; [reflexivity|]. rewrite IH. reflexivity. Qed.

Theorem ix_add_at_spec a s b d acc :
  ix_add_at (length a) d (idx_from acc (a ++ s :: b)) = idx_from acc (a ++ (s + d) :: b).
Proof.
  revert acc. induction a as [|x a IH]; intros acc; cbn [app idx_from length ix_add_at].
  - f_equal; [lia|]. replace (acc + (s + d) + 1) with ((acc + s + 1) + d) by lia.
    rewrite (idx_from_shift (acc + s + 1) d b). apply ix_add_at_0.
  - f_equal. apply IH.
Qed.

Theorem ix_insert_at_spec a b sz :
  ix_insert_at (length a) sz (idx_of (a ++ b)) = idx_of (a ++ sz :: b).
Proof.
  unfold ix_insert_at, idx_of. rewrite !idx_from_app. cbn [idx_from]. rewrite idx_firstn, idx_skipn.
  f_equal. f_equal.
  - destruct (length a) as [|p] eqn:L; [destruct a; [cbn; lia|discriminate]|].
    pose proof (idx_from_nth_pred 0 a (idx_from (0 + sum a + Z.of_nat (length a)) b) p L) as P. rewrite L in P. lia.
  - rewrite <- (Z.add_assoc _ sz 1), (idx_from_shift (0 + sum a + Z.of_nat (length a)) (sz + 1) b). apply map_ext. intros v; lia.
Qed.

Theorem ix_push_spec ss sz : ix_push sz (idx_of ss) = idx_of (ss ++ [sz]).
Proof.
  unfold ix_push, idx_of. rewrite idx_from_app. cbn [idx_from].
  destruct ss as [|x r]; [cbn; f_equal; lia|].
  destruct (idx_from 0 (x :: r)) as [|y l] eqn:E; [cbn in E; discriminate|]. rewrite <- E. f_equal. f_equal.
  destruct (exists_last_or_nil (x :: r)) as [E'|(a0 & sl & E')]; [discriminate|]. rewrite E'.
  rewrite idx_from_app. cbn [idx_from]. rewrite last_last, sum_app, length_snoc. cbn. lia.
Qed.

Theorem ix_merge_spec a s1 s2 b :
  ix_merge (length a) (idx_of (a ++ s1 :: s2 :: b)) = idx_of (a ++ (s1 + 1 + s2) :: b).
Proof.
  unfold ix_merge, idx_of. rewrite !idx_from_app. cbn [idx_from]. rewrite idx_firstn, idx_skipn_S.
  f_equal. f_equal; [lia|]. f_equal. lia.
Qed.

Theorem ix_remove_at_spec a s b :
  ix_remove_at (length a) (idx_of (a ++ s :: b)) = (s, idx_of (a ++ b)).
Proof.
  unfold ix_remove_at, idx_of.
  assert (SZ : match length a with
               | O => nth 0 (idx_from 0 (a ++ s :: b)) 0
               | S p => nth (length a) (idx_from 0 (a ++ s :: b)) 0 - nth p (idx_from 0 (a ++ s :: b)) 0 - 1
               end = s).
  { destruct (length a) as [|p] eqn:L; [destruct a; [cbn; lia|discriminate]|].
    rewrite <- L, idx_from_nth_prefix, idx_from_app. pose proof (idx_from_nth_pred 0 a (idx_from (0 + sum a + Z.of_nat (length a)) (s :: b)) p L) as P. lia. }
  rewrite SZ. f_equal. rewrite !idx_from_app. cbn [idx_from]. rewrite idx_firstn, idx_skipn_S.
  f_equal. rewrite <- (Z.add_assoc _ s 1), (idx_from_shift (0 + sum a + Z.of_nat (length a)) (s + 1) b), map_map. rewrite <- (map_id (idx_from _ b)) at 2.
  apply map_ext. intros v; lia.
Qed.

Theorem ix_split_spec a s b nxt :
  ix_split (length a) nxt (idx_of (a ++ s :: b)) = idx_of (a ++ (s - 1 - nxt) :: nxt :: b).
Proof.
  unfold ix_split. rewrite <- length_snoc with (x := s), (app_cons_snoc a s b), ix_insert_at_spec, <- app_assoc. cbn [app].
  unfold idx_of. rewrite !idx_from_app. cbn [idx_from].
  rewrite <- (idx_from_length 0 a) at 1. rewrite upd_nth_mid. f_equal. f_equal; [lia|]. f_equal; [lia|]. f_equal. lia.
Qed.

Theorem ix_pop_spec a s : ix_pop (idx_of (a ++ [s])) = (s, idx_of a).
Proof.
  unfold ix_pop, idx_of. rewrite idx_from_app. cbn [idx_from]. rewrite removelast_last, length_snoc, idx_from_length.
  replace (S (length a) - 1)%nat with (length a) by lia.
  rewrite app_nth2 by (rewrite idx_from_length; lia). rewrite idx_from_length, Nat.sub_diag. cbn [nth].
  f_equal. destruct (length a) as [|p] eqn:L; [destruct a; [cbn; lia|discriminate]|].
  replace (Nat.eqb (S (S p)) 1) with false by reflexivity. replace (S (S p) - 2)%nat with p by lia.
  rewrite app_nth1 by (rewrite idx_from_length; lia).
  pose proof (idx_from_nth_pred 0 a [] p L) as P. rewrite app_nil_r, L in P. lia.
Qed.
