(* C02 — Granted timestamps stay below the durably stored time window.
   Statements with short derivations; same model, hypotheses and invariant as C01 (model/C01_Tso.v, proof/C01_*.v).
   W = the value stored under <root>/timestamp (nanoseconds); a crash point is "the label list ends here":
   every theorem below holds for every prefix, and a take-over is any later LElect / LSync* of any member
   with any clock reading. *)
From Coq Require Import ZArith List.
From PDV Require Import lib.Base gen.Gen_C01 model.C01_Tso proof.C01_Step proof.C01_Ctl proof.C01_Win proof.C01_Rec proof.C01_Main proof.C01_Skel.
Import ListNotations.
Local Open Scope Z_scope.

Definition reach (iv gap : Z) (ls : list label) : state := exec step_r (init iv gap) ls.

(* every generated (a fortiori granted) timestamp has its physical part strictly below the stored window,
   at the moment it is generated and ever after *)
Theorem C02_physical_below_stored_window :
  forall iv gap ls r, guard < iv ->
    let s := reach iv gap ls in
    In r (recs s) -> exists w, W s = Some w /\ gP r * ns_per_ms < w.
Proof. intros iv gap ls r Hc s. apply window_bound. apply inv_exec. exact Hc. Qed.

(* the physical time in memory of every member is below what that member last saved, which is at most the
   stored window: the relation between memory and storage after every single step *)
Theorem C02_memory_below_window :
  forall iv gap ls m p, guard < iv ->
    let s := reach iv gap ls in
    phys (mems s m) = Some p ->
    exists sv w, last_saved (mems s m) = Some sv /\ W s = Some w /\ p + guard < sv /\ sv <= w.
Proof.
  intros iv gap ls m p Hc s Hp. pose proof (inv_exec iv gap ls Hc) as I.
  destruct (w_d2 _ (i_win _ I) _ _ Hp) as (sv & Hsv & Hlt).
  destruct (w_d1b _ (i_win _ I) _ _ Hsv) as (w & Hw & Hle). exists sv, w. auto.
Qed.

(* the stored window never decreases - for every storage outcome of every save *)
Theorem C02_window_monotone :
  forall iv gap ls l s', guard < iv ->
    let s := reach iv gap ls in
    step_r s l = Some s' -> opt_le (W s) (W s').
Proof. intros iv gap ls l s' Hc s. apply window_monotone. apply inv_exec. exact Hc. Qed.

(* take-over: whoever serves next, with whatever clock, grants above everything granted before
   (instance of C01's ordering theorem, restated for the crash / hand-over reading) *)
Theorem C02_takeover_above_history :
  forall iv gap ls r1 r2 te1 te2, guard < iv ->
    let s := reach iv gap ls in
    In r1 (recs s) -> In r2 (recs s) -> gst r1 = Granted te1 -> gst r2 = Granted te2 ->
    (gtb r1 < gtb r2)%nat -> gm r1 <> gm r2 -> below r1 r2.
Proof. intros iv gap ls r1 r2 te1 te2 Hc s H1 H2 G1 G2 Hlt _. eapply granted_ordered; eauto. apply inv_exec. exact Hc. Qed.

(* a window save of UpdateTimestamp that fails, loses the leader comparison or is not acknowledged: the call returns
   without a pending setTSOPhysical, and then neither the memory nor lastSavedTime has moved *)
Theorem C02_failed_save_keeps_memory :
  forall s m o s', step0 s (LUpdSave m o) = Some s' -> (forall n, upd (mems s' m) <> UPendSet n) ->
    phys (mems s' m) = phys (mems s m) /\ logical (mems s' m) = logical (mems s m) /\
    last_saved (mems s' m) = last_saved (mems s m).
Proof.
  intros s m o s'. cbn. destruct (upd (mems s m)) as [| |next|]; try discriminate.
  intros H Hn. apply save_step in H as (w & a & _ & ->). cbn in *. unfold upd_f in *. rewrite Nat.eqb_refl in *.
  destruct a; cbn in *; [exfalso; eapply Hn; reflexivity|auto].
Qed.

(* Every storage outcome is inside `reach` (step_r = step): in particular a window save that was applied although
   the client saw an error.  lastSavedTime is then behind the stored window; the allocator reads its own window back
   (saveUncertain / refreshLastSavedTime, pd e99d948) before it decides about the next save, which would otherwise lower
   the window.  On this trace the window stays at 3608 s and the update needs no save. *)
Definition unacked_reset_trace : list label :=
  [LElect 0; LSyncLoad 0; LSyncSave 0 5000000000 Ok; LSyncSet 0;
   LURBegin 0 (Z.shiftl 3605000 18); LURDecide 0; LURSave 0 ErrApplied;       (* reset to +1h: window 3608 s, client sees an error *)
   LUpdRead 0 7999500000; LUpdDecide 0].                                       (* next periodic update reads the window back first *)

Example C02_unacknowledged_save_regression :
  let s := exec step (init 3000000000 86400000) unacked_reset_trace in
  (W s, last_saved (mems s 0%nat), unsure (mems s 0%nat), upd (mems s 0%nat), step s (LUpdSave 0%nat Ok)) =
  (Some 3608000000000, Some 3608000000000, false, UPendSet 7999500000, None).
Proof. vm_compute. reflexivity. Qed.

(* a save that returned an error leaves the uncertainty mark, and nothing is decided about a later save before the
   window was read back: in the deciding states the mark is off and lastSavedTime is the stored window *)
Theorem C02_decision_uses_the_stored_window :
  forall iv gap ls m, guard < iv ->
    let s := reach iv gap ls in
    owner s = Some m ->
    (exists n, upd (mems s m) = UDecided n) \/ (exists p l, ur (mems s m) = RDeciding p l) ->
    unsure (mems s m) = false /\ exists w, W s = Some w /\ last_saved (mems s m) = Some w.
Proof.
  intros iv gap ls m Hc s Ho Hd. pose proof (inv_exec iv gap ls Hc) as I. pose proof (i_win _ I) as Wn.
  destruct Hd as [(n & Hu)|(p & l & Hr)].
  - pose proof (w_su _ Wn _ _ Hu) as Hun. split; [exact Hun|].
    assert (Hsy : synced (mems s m) = true) by (apply synced_of_upd; rewrite Hu; reflexivity).
    exact (w_d1 _ Wn _ Ho Hsy Hun).
  - pose proof (w_sr _ Wn _ _ _ Hr) as Hun. split; [exact Hun|].
    assert (Hsy : synced (mems s m) = true) by (apply synced_of_ur; rewrite Hr; reflexivity).
    exact (w_d1 _ Wn _ Ho Hsy Hun).
Qed.

Print Assumptions C02_physical_below_stored_window.
Print Assumptions C02_memory_below_window.
Print Assumptions C02_window_monotone.
Print Assumptions C02_takeover_above_history.
Print Assumptions C02_failed_save_keeps_memory.
Print Assumptions C02_decision_uses_the_stored_window.
