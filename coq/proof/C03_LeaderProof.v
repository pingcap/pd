From Coq Require Import NArith Lia.
From PDV Require Import lib.Base model.C03_Leader.
Local Open Scope N_scope.

(* C03 — the invariant of model/C03_Leader.v and what a state that satisfies it says about leaders.
   i_key    the leader record is attached to a lease that is alive on etcd and was granted to the member it names;
   i_lease  a lease a member holds was granted to it, and its local expiry is not after the expiry on etcd;
   i_won    a member that believes it won holds a lease; while that lease lives on etcd the record is its own, and once
            it is gone the member's local expiry has passed;
   i_fresh  lease ids at or above next_lease have not been granted;
   i_bound  a lease on etcd expires at most its ttl from now;
   i_gs, i_ka  a grant / keep-alive request in flight started in the past.
   Together: whoever evaluates IsLeader() to true owns the record (leader_owns_key).  The invariant is inductive only
   together with SawOwn below, because DeleteLeaderKey deletes the record CheckLeader saw. *)
Record Inv (s : state) : Prop := {
  i_key   : forall v l, key s = Some (v, l) -> (exists et, leases s l = Some et) /\ owner s l = v;
  i_lease : forall m id e, lease (mems s m) = Granted id e ->
              owner s id = m /\ (id < next_lease s)%nat /\
              (forall e' ttl, leases s id = Some (e', ttl) -> e <= e');
  i_won   : forall m, won (mems s m) = true ->
              exists id e, lease (mems s m) = Granted id e /\
                ((exists et, leases s id = Some et) -> key s = Some (m, id)) /\
                (leases s id = None -> e < now s);
  i_fresh : forall id, (next_lease s <= id)%nat -> leases s id = None;
  i_bound : forall id e' ttl, leases s id = Some (e', ttl) -> e' <= now s + ttl;
  i_gs    : forall m st ttl, g_start (mems s m) = Some (st, ttl) -> st <= now s;
  i_ka    : forall m st, ka_start (mems s m) = Some st -> st <= now s
}.

Lemma inv_init : Inv init.
Proof. constructor; cbn; intros; try discriminate; auto. Qed.

Ltac inj :=
  repeat match goal with
  | H : Some _ = Some _ |- _ => inversion H; subst; clear H
  | H : (_, _) = (_, _) |- _ => inversion H; subst; clear H
  | H : None = Some _ |- _ => discriminate H
  | H : Some _ = None |- _ => discriminate H
  | H : Granted _ _ = Granted _ _ |- _ => inversion H; subst; clear H
  | H : Granted _ _ = _ |- _ => discriminate H
  | H : _ = Granted _ _ |- _ => discriminate H
  | H : true = false |- _ => discriminate H
  | H : false = true |- _ => discriminate H
  end.

(* `constructor` on Inv with the quantified variables of each clause named, in the order of the record:
   i_key: kv kl Hk;  i_lease: m' id' e0 Hl;  i_won: m' Hw;  i_fresh: id' Hid;  i_bound: id' e0 ttl0 Hle;
   i_gs: m' st0 ttl0 Hg;  i_ka: m' st0 Hka *)
Ltac clauses :=
  constructor; cbn; unfold upd;
  [ intros kv kl Hk | intros m' id' e0 Hl | intros m' Hw | intros id' Hid
  | intros id' e0 ttl0 Hle | intros m' st0 ttl0 Hg | intros m' st0 Hka ].

Definition SawOwn (s : state) : Prop :=
  forall m kv, saw (mems s m) = Some kv -> fst kv = m.

Definition InvSaw (s : state) : Prop := Inv s /\ SawOwn s.

Lemma sawown_init : SawOwn init.
Proof. intros m kv H; cbn in H; discriminate. Qed.

Lemma upd_eq {A} (f : nat -> A) i x j : upd f i x j = if Nat.eqb j i then x else f j.
Proof. reflexivity. Qed.

Lemma sawown_upd (s s' : state) m x :
  SawOwn s -> mems s' = upd (mems s) m x -> (forall kv, saw x = Some kv -> fst kv = m) -> SawOwn s'.
Proof.
  intros Hs E Hx m' kv. rewrite E, upd_eq. destruct (Nat.eqb_spec m' m) as [->|]; [apply Hx | apply Hs].
Qed.

(* A member changes its own memory only: a lease it holds is its own in etcd and does not outlive the one there; it
   believes to have won only if it did before, with the same lease, or the record is its own; what it has in flight
   started in the past; a record it remembers is its own. *)
Lemma inv_set_mem s m x :
  InvSaw s ->
  (forall id e, lease x = Granted id e ->
     owner s id = m /\ (id < next_lease s)%nat /\ forall e' ttl, leases s id = Some (e', ttl) -> e <= e') ->
  (won x = true -> exists id e, lease x = Granted id e /\
     (won (mems s m) = true /\ lease (mems s m) = Granted id e \/ key s = Some (m, id))) ->
  (forall st ttl, g_start x = Some (st, ttl) -> st <= now s) ->
  (forall st, ka_start x = Some st -> st <= now s) ->
  (forall kv, saw x = Some kv -> fst kv = m) ->
  InvSaw (set_mem s m x).
Proof.
  intros [[Ik Il Iw If Ib Ig Ia] Hs] Hl Hw Hg Hk Hx. split; [|apply (sawown_upd s _ m x); auto].
  constructor; cbn; auto; intros m'; rewrite upd_eq; destruct (Nat.eqb_spec m' m) as [->|]; eauto.
  intros W. destruct (Hw W) as (id & e & E & [[W0 E0]|K]); exists id, e; (split; [exact E|]).
  - destruct (Iw _ W0) as (id1 & e1 & E1 & P). rewrite E0 in E1. injection E1 as <- <-. exact P.
  - split; [intros _; exact K|]. intros N. destruct (Ik _ _ K) as [[et Het] _]. congruence.
Qed.

Lemma inv_revoke s l :
  InvSaw s ->
  (forall m e, lease (mems s m) = Granted l e -> won (mems s m) = true -> e < now s) ->
  InvSaw (revoke s l).
Proof.
  intros [[Ik Il Iw If Ib Ig Ia] Hs] Hdead. split; [|exact Hs]. clauses; eauto.
  - destruct (key s) as [[v0 l0]|] eqn:Ek; [|discriminate].
    destruct (Nat.eqb_spec l0 l); [discriminate|]. inj.
    destruct (Ik _ _ eq_refl) as [[et Het] Ho]. split; [|assumption].
    destruct (Nat.eqb_spec kl l); [contradiction|eauto].
  - destruct (Il _ _ _ Hl) as (Ho & Hn & Hb). repeat split; auto.
    intros e' ttl. destruct (Nat.eqb id' l); [discriminate|apply Hb].
  - destruct (Iw _ Hw) as (id & e & Hl & Hkey & Hgone). exists id, e. split; [assumption|]. split.
    + intros [et Het]. destruct (Nat.eqb_spec id l); [discriminate|].
      rewrite (Hkey (ex_intro _ et Het)). destruct (Nat.eqb_spec id l); [contradiction|reflexivity].
    + intros Hn. destruct (Nat.eqb_spec id l); [subst; eauto|auto].
  - destruct (Nat.eqb id' l); auto.
  - destruct (Nat.eqb id' l); [discriminate|eauto].
Qed.

(* lease.Close(): the member forgets its lease; a revocation that goes through removes a lease that nobody else
   holds, since a lease id has one owner *)
Lemma inv_do_close s m r : InvSaw s -> InvSaw (do_close s m r).
Proof.
  intros I. unfold do_close.
  assert (Ic : InvSaw (set_mem s m (close_mem (mems s m)))).
  { apply inv_set_mem; cbn; try discriminate; [exact I | apply I]. }
  destruct (lease_id (lease (mems s m))) as [id|] eqn:El; [|exact Ic]. destruct r; [|exact Ic].
  apply inv_revoke; [exact Ic|].
  intros m' e. cbn. rewrite upd_eq. destruct (Nat.eqb_spec m' m); [cbn; discriminate|].
  intros Hl Hw. exfalso.
  destruct (lease (mems s m)) eqn:Elm; cbn in El; inj.
  destruct I as [[_ Il _ _ _ _ _] _].
  destruct (Il _ _ _ Hl) as (Ho1 & _). destruct (Il _ _ _ Elm) as (Ho2 & _). congruence.
Qed.

Lemma inv_same s s' :
  InvSaw s -> now s' = now s -> key s' = key s -> leases s' = leases s -> owner s' = owner s ->
  next_lease s' = next_lease s -> mems s' = mems s -> InvSaw s'.
Proof.
  intros [[Ik Il Iw If Ib Ig Ia] Hs] En Ek El Eo Ex Em.
  split; [constructor | unfold SawOwn]; rewrite ?En, ?Ek, ?El, ?Eo, ?Ex, ?Em; assumption.
Qed.

Lemma inv_new_lease s m ttl :
  InvSaw s ->
  InvSaw (State (now s) (key s) (upd (leases s) (next_lease s) (Some (now s + ttl, ttl)))
              (upd (owner s) (next_lease s) m) (S (next_lease s)) (data s) (mems s) (served s)).
Proof.
  intros [[Ik Il Iw If Ib Ig Ia] Hs]. split; [|exact Hs].
  assert (Hlt : forall m' id e, lease (mems s m') = Granted id e -> id <> next_lease s).
  { intros m' id e E. destruct (Il _ _ _ E) as (_ & ? & _). lia. }
  clauses; eauto.
  - destruct (Ik _ _ Hk) as [[et Het] Ho].
    assert (kl <> next_lease s) by (intros ->; rewrite If in Het; [discriminate|lia]).
    destruct (Nat.eqb_spec kl (next_lease s)); [contradiction|eauto].
  - destruct (Il _ _ _ Hl) as (Ho & Hn & Hb). pose proof (Hlt _ _ _ Hl).
    destruct (Nat.eqb_spec id' (next_lease s)); [contradiction|]. repeat split; auto.
  - destruct (Iw _ Hw) as (id1 & e1 & Hl1 & Hkey & Hgone). exists id1, e1. pose proof (Hlt _ _ _ Hl1).
    destruct (Nat.eqb_spec id1 (next_lease s)); [contradiction|auto].
  - destruct (Nat.eqb_spec id' (next_lease s)); [lia|apply If; lia].
  - destruct (Nat.eqb_spec id' (next_lease s)); [inj; lia | eauto].
Qed.

Lemma inv_extend s id e' ttl e1 :
  InvSaw s -> leases s id = Some (e', ttl) -> e' <= e1 -> e1 <= now s + ttl ->
  InvSaw (State (now s) (key s) (upd (leases s) id (Some (e1, ttl))) (owner s) (next_lease s) (data s) (mems s) (served s)).
Proof.
  intros [[Ik Il Iw If Ib Ig Ia] Hs] Ele H1 H2. split; [|exact Hs]. clauses; eauto.
  - destruct (Ik _ _ Hk) as [[et Het] Ho]. split; [|assumption]. destruct (Nat.eqb kl id); eauto.
  - destruct (Il _ _ _ Hl) as (Ho & Hn & Hb). repeat split; auto. intros e'' ttl1.
    destruct (Nat.eqb_spec id' id) as [->|]; [intros E; inj; specialize (Hb _ _ Ele); lia | apply Hb].
  - destruct (Iw _ Hw) as (id1 & e2 & Hl1 & Hkey & Hgone). exists id1, e2. split; [assumption|].
    destruct (Nat.eqb_spec id1 id) as [->|]; [split; [intros _; apply Hkey; eauto | discriminate] | auto].
  - destruct (Nat.eqb_spec id' id) as [->|]; [rewrite If in Ele by assumption; discriminate | auto].
  - destruct (Nat.eqb_spec id' id); [inj; lia | eauto].
Qed.

Lemma inv_grant_done s m ok s' : InvSaw s -> step s (LGrantDone m ok) = Some s' -> InvSaw s'.
Proof.
  intros I H; cbn in H.
  destruct (lease (mems s m)) eqn:El; try discriminate.
  destruct (g_start (mems s m)) as [[st ttl]|] eqn:Eg; [|discriminate].
  destruct ok; inj; [|apply inv_set_mem; cbn; try discriminate; [exact I | apply I]].
  (* etcd grants a fresh lease; the member's expiry counts from the start of its request *)
  pose proof (i_gs _ (proj1 I) _ _ _ Eg) as Hst.
  apply (inv_set_mem _ m _ (inv_new_lease s m ttl I)); cbn; try discriminate; [|apply I].
  intros id e E. inj. unfold upd. rewrite Nat.eqb_refl. repeat split; [lia|]. intros e' t E. inj. lia.
Qed.

Lemma inv_put_key s m id e :
  InvSaw s -> key s = None -> lease (mems s m) = Granted id e -> (exists et, leases s id = Some et) ->
  InvSaw (State (now s) (Some (m, id)) (leases s) (owner s) (next_lease s) (data s) (mems s) (served s)).
Proof.
  intros [[Ik Il Iw If Ib Ig Ia] Hs] Hnone Hlm Halive. split; [|exact Hs]. clauses; eauto.
  - inj. split; [assumption|]. apply (Il _ _ _ Hlm).
  - destruct (Iw _ Hw) as (id1 & e1 & Hl1 & Hkey & Hgone). exists id1, e1. repeat split; auto.
    intros Hal. specialize (Hkey Hal). congruence.
Qed.

Lemma inv_campaign s m o r s' : InvSaw s -> step s (LCampaignTxn m o r) = Some s' -> InvSaw s'.
Proof.
  intros I H; cbn in H.
  destruct (lease (mems s m)) as [| |id e|] eqn:El; try discriminate.
  destruct (campaigning (mems s m)); [|discriminate].
  set (alive := match leases s id with Some _ => true | None => false end) in *.
  set (cmp := match key s with None => true | Some _ => false end) in *.
  destruct (match o with ErrNotApplied => false | _ => cmp && alive end) eqn:Eapp.
  - (* applied: no record existed and the lease is alive *)
    assert (Hc : cmp = true /\ alive = true) by (destruct o; try discriminate; apply andb_true_iff in Eapp; tauto).
    destruct Hc as [Hc Ha]. subst cmp alive.
    destruct (key s) eqn:Ek; [discriminate|]. destruct (leases s id) as [et|] eqn:Ele; [|discriminate].
    pose proof (inv_put_key s m id e I Ek El (ex_intro _ et Ele)) as I1.
    destruct o; try discriminate; inj; [|apply inv_do_close; exact I1].
    apply inv_set_mem; cbn; try discriminate; [exact I1 | intros ? ? E; inj; apply (i_lease _ (proj1 I) _ _ _ El) | eauto | apply I].
  - assert (Hs : s' = do_close (State (now s) (key s) (leases s) (owner s) (next_lease s) (data s) (mems s) (served s)) m r)
      by (destruct o; inj; reflexivity).
    rewrite Hs. apply inv_do_close. destruct s; exact I.
Qed.

Lemma inv_keep_done s m s' : InvSaw s -> step s (LKeepDone m) = Some s' -> InvSaw s'.
Proof.
  intros I H; cbn in H.
  destruct (lease (mems s m)) as [| |id e|] eqn:El; try discriminate;
    [|inversion H; subst; exact I].   (* Closed: a late response changes nothing *)
  destruct (ka_start (mems s m)) as [st|] eqn:Ek; [|discriminate].
  (* not renewed: only the request in flight is forgotten *)
  assert (Hsame : InvSaw (set_mem s m (Mem (Granted id e) (won (mems s m)) (campaigning (mems s m)) None None
                                       (saw (mems s m)) (ttl_of (mems s m)) (has_value (mems s m))))).
  { apply inv_set_mem; cbn; try discriminate; [exact I | intros ? ? E; inj; apply (i_lease _ (proj1 I) _ _ _ El) | intros W; exists id, e; auto
    | apply I]. }
  destruct (leases s id) as [[e' ttl]|] eqn:Ele; [destruct (now s <=? e') eqn:Elive|]; inj; try exact Hsame.
  (* renewed: etcd counts from now, the member from the start of its request, which is earlier *)
  apply N.leb_le in Elive. destruct (i_lease _ (proj1 I) _ _ _ El) as (Ho & Hn & Hb). specialize (Hb _ _ Ele).
  pose proof (i_bound _ (proj1 I) _ _ _ Ele) as Hbd. pose proof (i_ka _ (proj1 I) _ _ Ek) as Hst.
  apply (inv_set_mem _ m _ (inv_extend s id e' ttl (now s + ttl) I Ele Hbd (N.le_refl _))); cbn; try discriminate;
    [| |apply I].
  - intros id0 e0 E. inj. unfold upd. rewrite Nat.eqb_refl. repeat split; auto. intros e'' t E. inj. lia.
  - intros W. destruct (i_won _ (proj1 I) _ W) as (id1 & e1 & Hl1 & Hkey & _). rewrite El in Hl1. inj.
    exists id1, (N.max e1 (st + ttl)). split; [reflexivity|]. right. apply Hkey. eauto.
Qed.

Lemma nat_opt_eqb_true a b : nat_opt_eqb a b = true -> a = Some b.
Proof. destruct a; cbn; [|discriminate]. intros H; apply Nat.eqb_eq in H; congruence. Qed.

Lemma pair_opt_eqb_true a b : pair_opt_eqb a b = true -> a = Some b.
Proof.
  destruct a as [[x y]|]; cbn; [|discriminate]. destruct b as [b1 b2]; cbn.
  intros H. apply andb_true_iff in H as [H1 H2]. apply Nat.eqb_eq in H1, H2. congruence.
Qed.

(* DeleteLeaderKey guarded by the revision CheckLeader read: only the deleter's own record can go *)
Lemma inv_delete s m o r s' : InvSaw s -> step s (LDeleteKey m o r) = Some s' -> InvSaw s'.
Proof.
  intros I H; cbn in H.
  destruct (saw (mems s m)) as [okv|] eqn:Esaw; [|discriminate].
  destruct (negb (won (mems s m))) eqn:Hnw; [|discriminate]. apply negb_true_iff in Hnw.
  pose proof (proj2 I _ _ Esaw) as Hown.
  set (x := Mem (lease (mems s m)) (won (mems s m)) (campaigning (mems s m)) (g_start (mems s m))
               (ka_start (mems s m)) None (ttl_of (mems s m)) (has_value (mems s m))) in *.
  assert (I0 : InvSaw (set_mem s m x)).
  { apply inv_set_mem; cbn; try discriminate; auto; try apply I. rewrite Hnw. discriminate. }
  assert (Idel : pair_opt_eqb (key s) okv = true ->
                 InvSaw (State (now s) None (leases s) (owner s) (next_lease s) (data s) (upd (mems s) m x) (served s))).
  { intros Hc. apply pair_opt_eqb_true in Hc.
    destruct I0 as [[Ik Il Iw If Ib Ig Ia] Hs0]. split; [|exact Hs0]. clauses; eauto;
      try (exact (Ig _ _ _ Hg)); try (exact (Ia _ _ Hka)).
    - discriminate.
    - (* a member that believes it won over a live lease would own the deleted record; that record is m's own
         (SawOwn), and m has not won *)
      destruct (Iw _ Hw) as (id1 & e1 & Hl1 & Hkey & Hgone). exists id1, e1. repeat split; auto.
      intros Hal. specialize (Hkey Hal). cbn in Hkey. rewrite Hkey in Hc. inversion Hc as [Hc1].
      rewrite <- Hc1 in Hown. cbn in Hown. subst m'.
      cbn in Hw. unfold upd in Hw. rewrite Nat.eqb_refl in Hw. subst x. cbn in Hw. congruence. }
  destruct (pair_opt_eqb (key s) okv) eqn:Ec.
  - specialize (Idel eq_refl).
    destruct o.
    + destruct (lease (mems s m)) eqn:El; inj; try exact Idel; apply inv_do_close; auto.
    + inj. exact I0.
    + inj. exact Idel.
  - assert (s' = set_mem s m x) as ->.
    { destruct o; [destruct (lease (mems s m))|..]; inj; reflexivity. }
    exact I0.
Qed.

Theorem inv_step s l s' : InvSaw s -> step s l = Some s' -> InvSaw s'.
Proof.
  intros I H. destruct l; [| |exact (inv_grant_done _ _ _ _ I H)|exact (inv_campaign _ _ _ _ _ I H)|
                           |exact (inv_keep_done _ _ _ I H)| | | |exact (inv_delete _ _ _ _ _ I H)|..]; cbn in H.
  - destruct I as [[Ik Il Iw If Ib Ig Ia] Hs]. inj. split; [|exact Hs]. clauses; eauto.
    + destruct (Iw _ Hw) as (id & e & Hl & Hkey & Hgone). exists id, e; repeat split; auto.
      intros Hn; specialize (Hgone Hn); lia.
    + specialize (Ib _ _ _ Hle); lia.
    + specialize (Ig _ _ _ Hg); lia.
    + specialize (Ia _ _ Hka); lia.
  - assert (s' = set_mem s m (Mem Ungranted false false (Some (now s, ttl)) None (saw (mems s m)) (ttl_of (mems s m)) true)) as ->
      by (destruct (lease (mems s m)); try discriminate; destruct (won (mems s m)); inj; auto).
    apply inv_set_mem; cbn; try discriminate; [exact I | intros st t E; inj; lia | apply I].
  - destruct (lease (mems s m)) as [| |id e|] eqn:El; try discriminate.
    destruct (won (mems s m)) eqn:Ew; [|discriminate]. inj.
    apply inv_set_mem; cbn; try discriminate;
      [exact I | intros ? ? E; inj; apply (i_lease _ (proj1 I) _ _ _ El) | intros _; exists id, e; auto
      | intros st E; inj; lia | apply I].
  - (* etcd drops a lease only after its expiry, which is not before the holder's *)
    destruct (leases s l) as [[e' ttl]|] eqn:Ele; [|discriminate].
    destruct (e' <? now s) eqn:Elt; [|discriminate]. inj. apply N.ltb_lt in Elt.
    apply inv_revoke; [assumption|]. intros m e Hl _.
    destruct (i_lease _ (proj1 I) _ _ _ Hl) as (_ & _ & Hb). specialize (Hb _ _ Ele). lia.
  - assert (s' = do_close s m revoked) as -> by (destruct (lease (mems s m)); inj; reflexivity).
    apply inv_do_close, I.
  - destruct (won (mems s m)) eqn:Ew; [discriminate|]. inj.
    apply inv_set_mem; cbn; try discriminate; auto; try apply I.
    destruct (nat_opt_eqb (key_value s) m) eqn:E; [|discriminate]. apply nat_opt_eqb_true in E.
    unfold key_value in E. intros [v l] K. rewrite K in E. inj. reflexivity.
  - inj. apply (inv_same s); auto.
  - inj. apply (inv_same s); auto.
  - inj. apply inv_set_mem; cbn; try discriminate. exact I.
  - destruct (is_leader s m); inj. apply (inv_same s); auto.
Qed.

Theorem invsaw_exec ls : InvSaw (exec step init ls).
Proof. apply invariant_exec; [exact inv_step | split; [exact inv_init | exact sawown_init]]. Qed.

Theorem inv_exec ls : Inv (exec step init ls).
Proof. exact (proj1 (invsaw_exec ls)). Qed.

(* a member that serves as leader owns the stored record and its etcd lease is alive *)
Lemma leader_owns_key s m :
  Inv s -> is_leader s m = true ->
  exists id e et, lease (mems s m) = Granted id e /\ key s = Some (m, id) /\ leases s id = Some et.
Proof.
  intros I H. unfold is_leader in H. apply andb_true_iff in H as [Hc Hw].
  destruct (i_won _ I _ Hw) as (id & e & Hl & Hkey & Hgone).
  rewrite Hl in Hc. cbn in Hc. apply N.leb_le in Hc.
  destruct (leases s id) as [et|] eqn:Ele.
  - exists id, e, et. repeat split; auto. apply Hkey; eauto.
  - specialize (Hgone eq_refl). lia.
Qed.

Lemma won_do_close s m r : won (mems (do_close s m r) m) = false.
Proof. unfold do_close. destruct (lease_id _); [destruct r|]; cbn; rewrite upd_eq, Nat.eqb_refl; reflexivity. Qed.

(* closing a lease removes at most the record attached to it *)
Lemma key_do_close s m r : key (do_close s m r) = key s \/ key (do_close s m r) = None.
Proof.
  unfold do_close. destruct (lease_id _) as [id|]; [destruct r|]; cbn; auto.
  destruct (key s) as [[v l]|]; auto. destruct (Nat.eqb l id); auto.
Qed.

(* the campaign txn puts a record only when none existed *)
Lemma campaign_needs_no_record s m o r s' :
  step s (LCampaignTxn m o r) = Some s' ->
  (won (mems s' m) = true -> key s = None) /\
  (forall kv, key s = Some kv -> key s' = Some kv \/ key s' = None).
Proof.
  intros H; cbn in H.
  destruct (lease (mems s m)) as [| |id e|] eqn:El; try discriminate.
  destruct (campaigning (mems s m)); [|discriminate].
  destruct (key s) as [kv0|] eqn:Ek.
  - (* a record exists: cmp false, nothing applied, not acknowledged *)
    cbn in H. assert (Hs : s' = do_close (State (now s) (Some kv0) (leases s) (owner s) (next_lease s) (data s) (mems s) (served s)) m r)
      by (destruct o; inj; reflexivity).
    subst s'. split; [rewrite won_do_close; discriminate|].
    intros kv Hkv; inj. destruct (key_do_close (State (now s) (Some kv) (leases s) (owner s) (next_lease s) (data s) (mems s) (served s)) m r) as [E|E];
      rewrite E; auto.
  - split; [reflexivity|discriminate].
Qed.

(* LServe, the only label that serves a request, is enabled for a leader only *)
Lemma served_only_by_leader s m s' :
  step s (LServe m) = Some s' -> is_leader s m = true.
Proof. cbn. destruct (is_leader s m); [reflexivity|discriminate]. Qed.

(* a leader-guarded write by a member whose value is not the stored record changes nothing in etcd *)
Lemma non_owner_write_rejected s m k v o s' :
  key_value s <> Some m -> step s (LWrite m k v o) = Some s' ->
  key s' = key s /\ data s' = data s /\ leases s' = leases s.
Proof.
  intros Hne H; cbn in H.
  assert (Hc : nat_opt_eqb (key_value s) m = false).
  { destruct (nat_opt_eqb (key_value s) m) eqn:E; [apply nat_opt_eqb_true in E; contradiction|reflexivity]. }
  rewrite Hc, andb_false_r in H. destruct o; inj; cbn; auto.
Qed.

(* an acknowledged put by the owner of the record is in etcd *)
Lemma owner_write_applied s m k v s' :
  has_value (mems s m) = true -> key_value s = Some m -> step s (LWrite m k (Some v) Ok) = Some s' -> data s' k = Some (m, v).
Proof.
  intros Hv He H; cbn in H. rewrite He, Hv in H; cbn in H. rewrite Nat.eqb_refl in H. inj; cbn.
  unfold upd; rewrite Nat.eqb_refl; reflexivity.
Qed.
