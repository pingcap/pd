(* C08 — soundness of the checker plan_check / plan_ok (model/C08_Builder.v):
   if the checker accepts a plan, then the execution of that plan by the controller + stores
   (exec_plan below, built from exec_step) satisfies every clause of the property, stated here
   with In / exists / NoDup / <= instead of booleans. *)
From Coq Require Import String.
From PDV Require Import lib.Base gen.Gen_C08 model.C08_Steps model.C08_Builder proof.C08_ListFacts.
Local Open Scope Z_scope.

Definition transition := (region * step * region)%type.

(* Steps whose IsFinish already holds are passed over (Operator.Check); every other step must pass
   CheckSafety, produce a command, be applied by the store, and be finished afterwards. *)
Fixpoint exec_plan (r : region) (ss : list step) : option (list transition * region) :=
  match ss with
  | [] => Some ([], r)
  | s :: rest =>
      match exec_step r s with
      | RSkip => exec_plan r rest
      | RDone _ r' =>
          if is_finish r' s then
            match exec_plan r' rest with
            | Some (t, rf) => Some ((r, s, r') :: t, rf)
            | None => None
            end
          else None
      | _ => None
      end
  end.

(* the peer that is leader before the step is still there afterwards and is not a learner:
   it was neither removed nor demoted (a joint transition may mark it Demoting, the Leave step may not) *)
Definition leader_not_removed_or_demoted (r r' : region) : Prop :=
  leader r = 0 \/ exists p, In p (peers r') /\ pstore p = leader r /\ prole p <> Learner.

(* leadership only moves to a peer that, at that moment, exists and is a voter or an incoming voter *)
Definition leadership_goes_to_voter (r r' : region) : Prop :=
  leader r' = leader r \/
  exists p, In p (peers r) /\ pstore p = leader r' /\ (prole p = Voter \/ prole p = Incoming).

Definition one_peer_per_store (r : region) : Prop := NoDup (map pstore (peers r)).

Definition enough_voters (g : goal) (r : region) : Prop :=
  g_min_voters g <= voters_old (peers r) /\ g_min_voters g <= voters_new (peers r).

Definition step_accepted (r : region) (s : step) (r' : region) : Prop :=
  is_finish r s = false /\ check_safety r s = None /\
  (exists c, cmd_of_step r s = Some c /\ apply_cmd r c = Some r') /\
  is_finish r' s = true.

Definition final_state_ok (g : goal) (r : region) : Prop :=
  (forall x, In x (placement (peers r)) -> exists y, In y (g_target g) /\ fst x = fst y /\ snd x = snd y) /\
  (forall y, In y (g_target g) -> exists x, In x (placement (peers r)) /\ fst y = fst x /\ snd y = snd x) /\
  (g_leader g <> 0 -> leader r = g_leader g) /\
  (exists p, In p (peers r) /\ pstore p = leader r /\ (prole p = Voter \/ prole p = Incoming)).

Definition transition_ok (g : goal) (t : transition) : Prop :=
  let '(r, s, r') := t in
  step_accepted r s r' /\
  leader_not_removed_or_demoted r r' /\
  leadership_goes_to_voter r r' /\
  one_peer_per_store r' /\
  enough_voters g r'.

Lemma role_eqb_eq a b : role_eqb a b = true <-> a = b.
Proof. destruct a, b; cbn; split; intros H; try reflexivity; try discriminate. Qed.

Lemma nodup_stores_NoDup ps : nodup_stores ps = true -> NoDup (map pstore ps).
Proof. apply nodup_stores_ND. Qed.

Lemma get_store_peer_In r st p : get_store_peer r st = Some p -> In p (peers r) /\ pstore p = st.
Proof. apply lk_Some. Qed.

Lemma leader_kept_sound r r' : leader_kept r r' = true -> leader_not_removed_or_demoted r r'.
Proof.
  unfold leader_kept, leader_not_removed_or_demoted. intros H.
  apply orb_true_iff in H as [H|H]; [left; apply Z.eqb_eq; exact H|].
  destruct (get_store_peer r' (leader r)) as [p|] eqn:E; [|discriminate].
  right. exists p. apply get_store_peer_In in E as [E1 E2]. repeat split; auto.
  intros C. unfold is_learner in H. rewrite C in H. discriminate.
Qed.

Lemma leader_to_valid_sound r r' : leader_to_valid r r' = true -> leadership_goes_to_voter r r'.
Proof.
  unfold leader_to_valid, leadership_goes_to_voter. intros H.
  apply orb_true_iff in H as [H|H]; [left; apply Z.eqb_eq; exact H|].
  destruct (get_store_peer r (leader r')) as [p|] eqn:E; [|discriminate].
  right. exists p. apply get_store_peer_In in E as [E1 E2]. repeat split; auto.
  destruct (prole p); try discriminate; auto.
Qed.

Lemma trans_violation_none g r r' :
  trans_violation g r r' = None ->
  leader_not_removed_or_demoted r r' /\ leadership_goes_to_voter r r' /\ one_peer_per_store r' /\ enough_voters g r'.
Proof.
  unfold trans_violation. intros H.
  destruct (leader_kept r r') eqn:E1; cbn [negb] in H; [|discriminate].
  destruct (leader_to_valid r r') eqn:E2; cbn [negb] in H; [|discriminate].
  destruct (nodup_stores (peers r')) eqn:E3; cbn [negb] in H; [|discriminate].
  destruct ((voters_old (peers r') <? g_min_voters g) || (voters_new (peers r') <? g_min_voters g)) eqn:E4; [discriminate|].
  apply orb_false_iff in E4 as [E4 E5]. apply Z.ltb_ge in E4. apply Z.ltb_ge in E5.
  repeat split; auto using leader_kept_sound, leader_to_valid_sound.
  apply nodup_stores_NoDup; exact E3.
Qed.

Lemma pl_eqb_eq a b : pl_eqb a b = true -> fst a = fst b /\ snd a = snd b.
Proof.
  unfold pl_eqb. intros H. apply andb_true_iff in H as [H1 H2].
  apply Z.eqb_eq in H1. apply role_eqb_eq in H2. auto.
Qed.

Lemma final_violation_none g r : final_violation g r = None -> final_state_ok g r.
Proof.
  unfold final_violation, final_state_ok. intros H.
  destruct (same_placement (placement (peers r)) (g_target g)) eqn:E1; cbn [negb] in H; [|discriminate].
  destruct (negb (g_leader g =? 0) && negb (leader r =? g_leader g)) eqn:E2; [discriminate|].
  destruct (get_store_peer r (leader r)) as [p|] eqn:E3; cbn [negb] in H.
  2:{ discriminate. }
  destruct (new_voter p) eqn:E4; cbn [negb] in H; [|discriminate].
  unfold same_placement in E1. apply andb_true_iff in E1 as [Ea Eb].
  rewrite forallb_forall in Ea, Eb.
  split; [|split; [|split]].
  - intros x Hx. specialize (Ea x Hx). apply existsb_exists in Ea as (y & Hy & Hxy).
    exists y. apply pl_eqb_eq in Hxy. tauto.
  - intros y Hy. specialize (Eb y Hy). apply existsb_exists in Eb as (x & Hx & Hyx).
    exists x. apply pl_eqb_eq in Hyx. tauto.
  - intros Hne. apply andb_false_iff in E2 as [E2|E2].
    + apply negb_false_iff, Z.eqb_eq in E2. contradiction.
    + apply negb_false_iff, Z.eqb_eq in E2. exact E2.
  - exists p. apply get_store_peer_In in E3 as [Ha Hb]. unfold new_voter in E4.
    destruct (prole p); try discriminate; auto.
Qed.

Lemma exec_step_done r s c r' :
  exec_step r s = RDone c r' ->
  is_finish r s = false /\ check_safety r s = None /\ cmd_of_step r s = Some c /\ apply_cmd r c = Some r'.
Proof.
  unfold exec_step. destruct (is_finish r s); [discriminate|].
  destruct (check_safety r s); [discriminate|].
  destruct (cmd_of_step r s) as [c0|]; [|discriminate].
  destruct (apply_cmd r c0) as [r0|] eqn:E; [|discriminate].
  intros H; inversion H; subst. auto.
Qed.

Lemma exec_step_skip r s : exec_step r s = RSkip -> is_finish r s = true.
Proof.
  unfold exec_step. destruct (is_finish r s); [reflexivity|].
  destruct (check_safety r s); [discriminate|].
  destruct (cmd_of_step r s) as [c0|]; [|discriminate].
  destruct (apply_cmd r c0); discriminate.
Qed.

Lemma plan_check_sound g : forall ss r,
  plan_check g r ss = None ->
  exists trs rf, exec_plan r ss = Some (trs, rf) /\ Forall (transition_ok g) trs /\ final_state_ok g rf.
Proof.
  induction ss as [|s rest IH]; intros r H; cbn [plan_check exec_plan] in *.
  - exists [], r. split; [reflexivity|]. split; [constructor|]. apply final_violation_none; exact H.
  - destruct (exec_step r s) as [|e| |c|c r'] eqn:E; try discriminate.
    + apply IH; exact H.
    + destruct (trans_violation g r r') eqn:T; [discriminate|].
      destruct (is_finish r' s) eqn:F; cbn [negb] in H; [|discriminate].
      destruct (IH r' H) as (trs & rf & Hx & Hall & Hfin).
      exists ((r, s, r') :: trs), rf. rewrite Hx. split; [reflexivity|]. split; [|exact Hfin].
      constructor; [|exact Hall].
      apply exec_step_done in E as (E1 & E2 & E3 & E4).
      apply trans_violation_none in T as (T1 & T2 & T3 & T4).
      unfold transition_ok, step_accepted.
      split; [split; [exact E1|split; [exact E2|split; [exists c; split; assumption|exact F]]]|].
      split; [exact T1|]. split; [exact T2|]. split; [exact T3|exact T4].
Qed.

Lemma plan_ok_check g r ss : plan_ok g r ss = true -> plan_check g r ss = None.
Proof. unfold plan_ok. destruct (plan_check g r ss); [discriminate|reflexivity]. Qed.

Lemma plan_ok_sound_pf g r ss :
  plan_ok g r ss = true ->
  exists trs rf, exec_plan r ss = Some (trs, rf) /\ Forall (transition_ok g) trs /\ final_state_ok g rf.
Proof.
  intros H. apply plan_check_sound, plan_ok_check, H.
Qed.

(* every step of the plan is either executed as one of the transitions or was already finished at its turn *)
Lemma exec_plan_steps : forall ss r trs rf,
  exec_plan r ss = Some (trs, rf) ->
  exists flags : list bool,
    length flags = length ss /\
    map (fun t => snd (fst t)) trs = map snd (filter (fun x => fst x) (combine flags ss)).
Proof.
  induction ss as [|s rest IH]; intros r trs rf H; cbn [exec_plan] in H.
  - inversion H; subst. exists []. split; reflexivity.
  - destruct (exec_step r s) as [|e| |c|c r'] eqn:E; try discriminate.
    + destruct (IH _ _ _ H) as (fl & L & M). exists (false :: fl). cbn. split; [congruence|exact M].
    + destruct (is_finish r' s); [|discriminate].
      destruct (exec_plan r' rest) as [[t rf']|] eqn:X; [|discriminate].
      inversion H; subst. destruct (IH _ _ _ X) as (fl & L & M). exists (true :: fl). cbn. split; [congruence|].
      f_equal. exact M.
Qed.

Lemma nodup_stores_true_iff ps : nodup_stores ps = true <-> NoDup (map pstore ps).
Proof. apply nodup_stores_ND. Qed.
