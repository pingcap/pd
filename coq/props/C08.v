(* C08 — Generated operator steps are safe and reach the requested placement.
   Statements with short derivations; the proofs are in proof/C08_*.v (checker: PlanProof; steps: StepSpec; builder:
   JointMain, NjMain, LeaderStores, AllocIds; bounded domain and witnesses: BuilderProof; obligations: Skel).

   Shape of the result (DESIGN.md 5/C08):
   * plan_ok is a verified checker: C08_plan_ok_sound holds for ALL regions, goals and step lists.
     Every plan the real operator.Builder produces in a run of bin/check is pushed through it inside Coq
     (monitor of model/C08_Builder.v), which decides the property for that plan.
   * The builder model (checked step for step against the real builder on every case) is shown to
     produce only accepted plans: IN GENERAL for both paths (C08_builder_plan_ok: any number of stores,
     any call sequence, any cluster); the statements on the domain of <= 3 stores (bounded: the bound is in
     the statement) are instances, every input of that domain meeting the general hypotheses.  For the two inputs of the
     defects S16 and demote-before-add (repaired in /repo) regression lemmas state the plan the builder
     produces, that it is accepted, and that the plans of a builder without the repairs are rejected. *)
From Coq Require Import String.
From PDV Require Import lib.Base gen.Gen_C08 model.C08_Steps model.C08_Builder
     proof.C08_ListFacts proof.C08_PlanProof proof.C08_BuilderProof proof.C08_JointMain proof.C08_NjMain proof.C08_LeaderStores proof.C08_AllocIds proof.C08_Skel proof.C08_StepSpec.
Local Open Scope Z_scope.

(* ---- the checker is sound, for every region state, goal and plan ---- *)
Theorem C08_plan_ok_sound :
  forall (g : goal) (r : region) (ss : list step),
    plan_ok g r ss = true ->
    exists trs rf,
      exec_plan r ss = Some (trs, rf) /\          (* every step: passed over because already finished, or executed *)
      Forall (transition_ok g) trs /\             (* each executed step: precondition holds at its turn, the store accepts
                                                     the command, the step is finished afterwards; the leader of that moment
                                                     is neither removed nor demoted; leadership only goes to a voter /
                                                     incoming voter present at that moment; one peer per store; voters of
                                                     the old and of the new configuration >= min(origin, target) *)
      final_state_ok g rf.                        (* exactly the requested peers and roles, requested leader, leader is a voter (incoming voter if the
                                                     requested placement itself is a joint state) *)
Proof. exact plan_ok_sound_pf. Qed.

(* the executed transitions are exactly the steps of the plan that were not already finished, in order *)
Theorem C08_exec_plan_covers_steps :
  forall ss r trs rf, exec_plan r ss = Some (trs, rf) ->
    exists flags : list bool, length flags = length ss /\
      map (fun t => snd (fst t)) trs = map snd (filter (fun x => fst x) (combine flags ss)).
Proof. exact exec_plan_steps. Qed.

(* ---- step.go itself: CheckSafety and IsFinish as transcribed imply what the property asks of them, for every step kind
        (the driver's step monitor holds the IMPLEMENTATION's answers against the same two predicates) ---- *)
(* a step passes CheckSafety only if: leadership goes to a present non-learner; a peer is added only to a free store (or is
   already there); promote/demote/joint entries exist with their ids; the leader is never removed, demoted, or demoted by
   leaving a joint state; a joint step is either wholly pending on a region outside any joint state or wholly done with the
   region's joint peers being exactly its entries *)
Theorem C08_check_safety_sound :
  forall r s, nodup_stores (peers r) = true -> step_ids_nonzero s = true -> check_safety r s = None -> spec_safe r s = true.
Proof. intros r s H. apply check_safety_sound. apply nodup_stores_ND. exact H. Qed.

(* a step counts as finished only if its effect is present in the region *)
Theorem C08_is_finish_sound :
  forall r s, nodup_stores (peers r) = true -> step_ids_nonzero s = true -> is_finish r s = true -> spec_done r s = true.
Proof. intros r s H. apply is_finish_sound. apply nodup_stores_ND. exact H. Qed.

(* ---- pending peers (a peer that has not caught up with its snapshot; reported by heartbeats): only IsFinish of the four
        add steps reads them (is_finish_p; checked against the real IsFinish on regions with pending peers by the driver).
        They can only DELAY a step: finishing with pending peers implies finishing without; a step held back by a pending
        peer is an add step whose peer is already there, its precondition holds, nothing is sent again and ConfVerChanged
        already counts it - the operator waits, no clause of C08 other than "finished right after the store applied the
        command" is affected, and that one holds as soon as the peer leaves the pending list. ---- *)
Theorem C08_pending_peers_only_delay :
  (forall r s, is_finish_p [] r s = is_finish r s)
  /\ (forall pend r s, is_finish_p pend r s = true -> is_finish r s = true)
  /\ (forall pend r s, nodup_stores (peers r) = true -> is_finish r s = true -> is_finish_p pend r s = false ->
        (exists st id, (s = AddPeer st id \/ s = AddLearner st id \/ s = AddLightPeer st id \/ s = AddLightLearner st id) /\ In id pend)
        /\ check_safety r s = None /\ cmd_of_step r s = None /\ conf_ver_changed r s = 1).
Proof.
  split; [exact is_finish_p_nil|]. split; [exact is_finish_p_sound|].
  intros pend r s H. apply pending_only_waits. apply nodup_stores_ND. exact H.
Qed.

(* ---- builder, exhaustive for up to 3 stores: all origin role vectors and leaders, all target role vectors
        and requested leaders (or none), all leader-admissibility vectors of the stores, joint consensus
        {on, supported but disabled, unsupported}, force-leader on/off ---- *)
Theorem C08_builder_plan_ok_bounded :
  forall n, (1 <= n <= 3)%nat ->
  forall ov ol tv tl lok m force,
    In ov (vectors role_opts n) -> In ol (voters_of (origin_of ov)) ->
    In tv (vectors role_opts n) -> In tl (0 :: voters_of (target_of tv)) ->
    In lok (vectors [true; false] n) -> In m modes ->
  forall b ss kl kr,
    prepared (mk_input n ov ol tv tl lok m force) = Some b -> build (mk_input n ov ol tv tl lok m force) = Built ss kl kr ->
    plan_ok (goal_of b) (i_region (mk_input n ov ol tv tl lok m force)) ss = true.
Proof.
  intros n Hn ov ol tv tl lok m force Hov Hol Htv _ _ _ b ss kl kr Hp Hb.
  destruct (mk_input_wf n ov ol tv tl lok m force) as (H1 & H2 & H3 & _ & _ & H4); [lia|assumption..|].
  apply (builder_plan_ok_general_pf _ b ss kl kr H1 H2 H3 Hp); [intros _; apply (H4 b Hp)|exact Hb].
Qed.

(* ---- the builder's own rule for leader targets (allowLeader's store checks), exhaustive for the same inputs: outside the
        forced-leader variant every TransferLeader step of a plan goes to a store that accepts leaders - also when that
        store led the region before the plan moved the leader away (planReplaceLeaders judges the second transfer
        with the leader after the first one, allowLeaderAfter; repaired in /repo by 3519349) ---- *)
Theorem C08_builder_leader_only_to_accepting_stores_bounded :
  forall n, (1 <= n <= 3)%nat ->
  forall ov ol tv tl lok m force,
    In ov (vectors role_opts n) -> In ol (voters_of (origin_of ov)) ->
    In tv (vectors role_opts n) -> In tl (0 :: voters_of (target_of tv)) ->
    In lok (vectors [true; false] n) -> In m modes ->
  forall b ss kl kr,
    prepared (mk_input n ov ol tv tl lok m force) = Some b -> build (mk_input n ov ol tv tl lok m force) = Built ss kl kr ->
    leader_stores_ok (b_cluster b) ol (b_tleader b) (b_force b) ss = true.
Proof.
  intros n Hn ov ol tv tl lok m force Hov Hol Htv _ _ _ b ss kl kr Hp Hb.
  destruct (mk_input_wf n ov ol tv tl lok m force) as (H1 & H2 & H3 & _); [lia|assumption..|].
  exact (builder_leader_stores_pf _ b ss kl kr H1 H2 H3 Hp Hb).
Qed.

(* the same IN GENERAL: any region (any number of peers and stores), any sequence of builder calls, any cluster, both build
   paths.  Joint path: the one leader move of the script goes to the requested or the picked target leader, both of which
   passed allowLeader while the origin leader led.  Non-joint path: invariant of the loop - the leader moves of a round are
   the ones its plan kind allows (planReplaceLeaders' second move judged after the first, allowLeaderAfter) - and the final
   move as on the joint path *)
Theorem C08_builder_leader_only_to_accepting_stores :
  forall i b ss kl kr,
    nodup_stores (peers (i_region i)) = true ->
    is_in_joint (i_region i) = false ->
    (exists lp, get_store_peer (i_region i) (leader (i_region i)) = Some lp /\ prole lp = Voter) ->
    prepared i = Some b -> build i = Built ss kl kr ->
    leader_stores_ok (b_cluster b) (leader (i_region i)) (b_tleader b) (b_force b) ss = true.
Proof. exact builder_leader_stores_pf. Qed.

Theorem C08_leader_bounce_rejected :
  leader_stores_ok (Cluster [Store 1 true false []; Store 2 true true []; Store 3 true true []] false false 0) 1 0 false
    [TransferLeader 1 2; AddLearner 3 203; PromoteLearner 3 203; TransferLeader 2 1; RemovePeer 2 102; TransferLeader 1 3] = false.
Proof. exact leader_bounce_rejected. Qed.

(* ---- the inputs of the defects S16 and demote-before-add (repaired in /repo by af3c9a8 and 65c6ab4) ---- *)
(* S16: without joint-consensus support a voter->learner change is split into remove+add on the same store; the add
   waits until the store is free and gets a new peer id *)
Theorem C08_s16_repaired :
  build s16_input = Built [RemovePeer 2 12; AddLearner 2 202; RemovePeer 3 13] false true
  /\ exists b, prepared s16_input = Some b /\
       plan_ok (goal_of b) (i_region s16_input) [RemovePeer 2 12; AddLearner 2 202; RemovePeer 3 13] = true.
Proof. split; [exact s16_plan|exact s16_ok]. Qed.

(* joint consensus supported but disabled: the replacing voter is added before the follower is demoted *)
Theorem C08_demote_after_add_repaired :
  build dip_input = Built [AddLearner 1 201; PromoteLearner 1 201; DemoteFollower 3 103] false true
  /\ exists b, prepared dip_input = Some b /\
       plan_ok (goal_of b) (i_region dip_input) [AddLearner 1 201; PromoteLearner 1 201; DemoteFollower 3 103] = true.
Proof. split; [exact dip_plan|exact dip_ok]. Qed.

(* the plans of a builder without these repairs (add on the occupied store first; demote before add) are rejected by the
   checker, so a regression is a violation, not a silent change *)
Theorem C08_unrepaired_plans_rejected :
  (exists b, prepared s16_input = Some b /\
     plan_check (goal_of b) (i_region s16_input) [AddLearner 2 12; RemovePeer 3 13; RemovePeer 2 12] = Some "check-safety-fails:AddLearner"%string)
  /\ (exists b, prepared dip_input = Some b /\
     plan_check (goal_of b) (i_region dip_input) [DemoteFollower 3 103; AddLearner 1 201; PromoteLearner 1 201] = Some "voters-below-min:DemoteFollower"%string).
Proof. exact old_plans_rejected. Qed.

(* ---- CreateLeaveJointStateOperator, every reachable joint state of up to 3 stores ---- *)
Theorem C08_leave_joint_ok_bounded :
  forall n, (1 <= n <= 3)%nat ->
  forall ov ol lok,
    In ov (vectors joint_role_opts n) -> reachable_joint (origin_of ov) = true ->
    In ol (voters_of (origin_of ov)) -> In lok (vectors [true; false] n) ->
    let c := Cluster (stores_of 1 lok) true true 0 in
    let r := Region (origin_of ov) ol 5 0 in
    exists ss kl kr, leave_joint_op c r = Built ss kl kr /\ plan_ok (leave_goal r) r ss = true.
Proof. exact leave_joint_ok_bounded_pf. Qed.

(* ---- the joint path, in general: ANY region (any number of peers, any peer order and ids), any sequence of builder
        calls, any cluster (store states, labels), any allocator answers.  If the builder model takes the joint path and
        produces a plan, the checker accepts it — and by C08_plan_ok_sound its execution satisfies every clause.
        Hypotheses: the origin has one peer per store, is not in a joint state, and its leader is a voter. ---- *)
Theorem C08_builder_joint_plan_ok :
  forall i b ss kl kr,
    nodup_stores (peers (i_region i)) = true ->
    is_in_joint (i_region i) = false ->
    (exists lp, get_store_peer (i_region i) (leader (i_region i)) = Some lp /\ prole lp = Voter) ->
    prepared i = Some b -> b_use_joint b = true -> build i = Built ss kl kr ->
    plan_ok (goal_of b) (i_region i) ss = true.
Proof. exact builder_joint_plan_ok_general_pf. Qed.

(* ---- the non-joint path, in general: any region, any sequence of builder calls, any cluster, any allocator answers.
        Extra hypothesis: the peer ids of the origin and of the peers the plan adds are pairwise distinct (what PD's id
        allocator guarantees; DemoteFollower.CheckSafety recognises the leader by its peer id).
        Proof: the loop of buildStepsWithoutJointConsensus keeps a simulation between the builder's state and the
        region reached by the steps emitted so far, and a per-store invariant tying toAdd / toRemove / toPromote /
        toDemote to the target; peerPlan's result is one of the candidates that reached comparePlan, whatever the
        preference functions say; a lone demotion or voter removal happens only when no voter is waiting to be added
        (else planReplace would not have been empty), so the voter count never drops below min(origin, target). ---- *)
Theorem C08_builder_nonjoint_plan_ok :
  forall i b ss kl kr,
    nodup_stores (peers (i_region i)) = true ->
    is_in_joint (i_region i) = false ->
    (exists lp, get_store_peer (i_region i) (leader (i_region i)) = Some lp /\ prole lp = Voter) ->
    prepared i = Some b -> b_use_joint b = false ->
    NoDup (map pid (peers (i_region i)) ++ map pid (b_add b)) ->
    build i = Built ss kl kr ->
    plan_ok (goal_of b) (i_region i) ss = true.
Proof. exact builder_nonjoint_plan_ok_general_pf. Qed.

(* ---- builder_plan_ok at full strength: both paths, every input ---- *)
Theorem C08_builder_plan_ok :
  forall i b ss kl kr,
    nodup_stores (peers (i_region i)) = true ->
    is_in_joint (i_region i) = false ->
    (exists lp, get_store_peer (i_region i) (leader (i_region i)) = Some lp /\ prole lp = Voter) ->
    prepared i = Some b ->
    NoDup (map pid (peers (i_region i)) ++ map pid (b_add b)) ->
    build i = Built ss kl kr ->
    plan_ok (goal_of b) (i_region i) ss = true.
Proof. intros i b ss kl kr H1 H2 H3 H4 H5. apply builder_plan_ok_general_pf; auto. Qed.

(* ---- the "distinct peer ids" hypothesis, tied to PD's id allocator.  Obligation peer_ids_ok (proof/C08_Skel.v, regenerated
        from every non-test file under server/): no call site outside the builder gives a NEW peer an id - it arrives with
        Id 0 (op_unnamed) and prepareBuild takes b.cluster.AllocID().  Then every peer the plan adds carries the allocator's
        answer for its store, and builder_plan_ok needs only: the allocator's answers are fresh and pairwise distinct. ---- *)
Theorem C08_added_ids_are_allocated :
  forall i b, nodup_stores (peers (i_region i)) = true ->
    Forall (op_unnamed (pm_of_list (peers (i_region i)))) (i_ops i) -> prepared i = Some b ->
    forall a, In a (b_add b) -> pid a = alloc_of (i_alloc i) (pstore a).
Proof. intros i b H. apply added_ids_are_allocated. apply nodup_stores_ND. exact H. Qed.

Theorem C08_builder_plan_ok_with_allocator :
  forall i b ss kl kr,
    nodup_stores (peers (i_region i)) = true ->
    is_in_joint (i_region i) = false ->
    (exists lp, get_store_peer (i_region i) (leader (i_region i)) = Some lp /\ prole lp = Voter) ->
    NoDup (map pid (peers (i_region i))) ->                                          (* the region's peers have distinct ids *)
    Forall (op_unnamed (pm_of_list (peers (i_region i)))) (i_ops i) ->               (* new peers arrive without id *)
    prepared i = Some b ->
    (forall st, ~ In (alloc_of (i_alloc i) st) (map pid (peers (i_region i)))) ->    (* AllocID never returns an id in use *)
    (forall s1 s2, In s1 (map pstore (b_add b)) -> In s2 (map pstore (b_add b)) -> s1 <> s2 ->
                   alloc_of (i_alloc i) s1 <> alloc_of (i_alloc i) s2) ->            (* ... nor the same id twice *)
    build i = Built ss kl kr ->
    plan_ok (goal_of b) (i_region i) ss = true.
Proof.
  intros i b ss kl kr H1 H2 H3 H4 H5 H6 H7 H8 H9. eapply C08_builder_plan_ok; eauto.
  apply alloc_gives_distinct_ids; auto. apply nodup_stores_ND. exact H1.
Qed.

(* by C08_plan_ok_sound: every plan the builder model produces executes step by step with every clause of the property *)
Corollary C08_builder_plans_execute_safely :
  forall i b ss kl kr,
    nodup_stores (peers (i_region i)) = true ->
    is_in_joint (i_region i) = false ->
    (exists lp, get_store_peer (i_region i) (leader (i_region i)) = Some lp /\ prole lp = Voter) ->
    prepared i = Some b ->
    NoDup (map pid (peers (i_region i)) ++ map pid (b_add b)) ->
    build i = Built ss kl kr ->
    exists trs rf, exec_plan (i_region i) ss = Some (trs, rf) /\ Forall (transition_ok (goal_of b)) trs /\ final_state_ok (goal_of b) rf.
Proof. intros. apply plan_ok_sound_pf. eapply C08_builder_plan_ok; eauto. Qed.

(* non-vacuity: a joint plan with leader hand-over inside the joint state is accepted; domain sizes *)
Example C08_nonvacuous :
  let i := BInput (Cluster [up_store 1; up_store 2; up_store 3; up_store 4] true true 0)
                  (Region [Peer 1 11 Voter; Peer 2 12 Voter; Peer 3 13 Learner] 1 5 0) [] false
                  [ORemovePeer 1; OAddPeer (Peer 4 0 Voter); OSetLeader 4] [(4, 44)] in
  build i = Built [AddLearner 4 44; ChangePeerV2Enter [(4, 44)] [(1, 11)]; TransferLeader 1 4;
                   ChangePeerV2Leave [(4, 44)] [(1, 11)]; RemovePeer 1 11] true true
  /\ (exists b, prepared i = Some b /\ b_use_joint b = true /\
                plan_ok (goal_of b) (i_region i) [AddLearner 4 44; ChangePeerV2Enter [(4, 44)] [(1, 11)]; TransferLeader 1 4;
                                                  ChangePeerV2Leave [(4, 44)] [(1, 11)]; RemovePeer 1 11] = true)
  /\ length (vectors role_opts 3) = 27%nat.
Proof. split; [vm_compute; reflexivity|]. split; [eexists; split; [|split]; vm_compute; reflexivity|vm_compute; reflexivity]. Qed.

(* ---- the executor layer: on every heartbeat the step whose turn it is is judged on the region as reported NOW (leader
        included - leadership moves without any change of the epoch); the model of Dispatch never sends the command of a
        step whose precondition fails and never keeps such an operator running.  The real OperatorController is compared
        with exec_model on builder plans (commands applied or lost, leader moved between heartbeats) and exec_monitor is
        evaluated on its own observations ---- *)
Definition with_outs (xs : list xobs) (outs : list (list cmd * bool)) : list xobs :=
  map (fun xo => XObs (x_hb (fst xo)) (x_region (fst xo)) (fst (snd xo)) (snd (snd xo))) (combine xs outs).

Theorem C08_executor_never_sends_unsafe_step :
  forall xs rem alive, exec_monitor rem (with_outs xs (exec_model rem alive xs)) = None.
Proof.
  induction xs as [|x xr IH]; intros rem alive; [reflexivity|].
  cbn [exec_model]. destruct alive; cbn [negb].
  - destruct (skip_finished (x_region x) rem) as [|s t] eqn:E.
    + destruct (x_hb x); unfold with_outs; cbn [combine map exec_monitor fst snd x_region]; rewrite E; reflexivity.
    + destruct (x_hb x && negb (safe (x_region x) s)) eqn:C.
      * unfold with_outs; cbn [combine map exec_monitor fst snd x_region x_hb x_sent x_running]. rewrite E.
        cbn [length Nat.eqb negb]. rewrite !andb_false_r. reflexivity.
      * unfold with_outs; cbn [combine map exec_monitor fst snd x_region x_hb x_sent x_running]. rewrite E.
        assert (B : x_hb x && nodup_stores (peers (x_region x)) && step_ids_nonzero s && negb (spec_safe (x_region x) s) = false).
        { destruct (x_hb x); [|reflexivity]. cbn [andb] in *. apply negb_false_iff in C.
          destruct (nodup_stores (peers (x_region x))) eqn:N; [|reflexivity]. destruct (step_ids_nonzero s) eqn:Z0; [|reflexivity].
          cbn [andb]. apply negb_false_iff. apply C08_check_safety_sound; auto.
          unfold safe in C. destruct (check_safety (x_region x) s); [discriminate|reflexivity]. }
        rewrite B. cbn [andb]. apply IH.
  - unfold with_outs; cbn [combine map exec_monitor fst snd x_region x_hb x_sent x_running].
    destruct (skip_finished (x_region x) rem); [reflexivity|]. cbn [length Nat.eqb negb]. rewrite !andb_false_r. reflexivity.
Qed.

Print Assumptions C08_executor_never_sends_unsafe_step.
Print Assumptions C08_builder_leader_only_to_accepting_stores_bounded.
Print Assumptions C08_leader_bounce_rejected.
Print Assumptions C08_builder_leader_only_to_accepting_stores.
Print Assumptions C08_plan_ok_sound.
Print Assumptions C08_exec_plan_covers_steps.
Print Assumptions C08_check_safety_sound.
Print Assumptions C08_is_finish_sound.
Print Assumptions C08_pending_peers_only_delay.
Print Assumptions C08_builder_plan_ok_bounded.
Print Assumptions C08_s16_repaired.
Print Assumptions C08_demote_after_add_repaired.
Print Assumptions C08_unrepaired_plans_rejected.
Print Assumptions C08_leave_joint_ok_bounded.
Print Assumptions C08_builder_joint_plan_ok.
Print Assumptions C08_builder_nonjoint_plan_ok.
Print Assumptions C08_builder_plan_ok.
Print Assumptions C08_builder_plans_execute_safely.
Print Assumptions C08_added_ids_are_allocated.
Print Assumptions C08_builder_plan_ok_with_allocator.
