(* Shared definitions: execution of labelled transition systems, the generic
   invariant theorem every interleaving/history property is an instance of, and the
   comparison helpers used by the correspondence case files. No axioms. *)
From Coq Require Export List ZArith Lia Bool.
Export ListNotations.

Section Exec.
  Context {S L : Type} (step : S -> L -> option S).

  (* Disabled labels are skipped: a label list is a schedule, not a promise. *)
  Fixpoint exec (s : S) (ls : list L) : S :=
    match ls with
    | [] => s
    | l :: r => match step s l with Some s' => exec s' r | None => exec s r end
    end.

  Theorem invariant_exec (I : S -> Prop) :
    (forall s l s', I s -> step s l = Some s' -> I s') ->
    forall ls s, I s -> I (exec s ls).
  Proof.
    intros Hstep ls; induction ls as [|l r IH]; intros s Hs; cbn [exec]; [exact Hs|].
    destruct (step s l) as [s'|] eqn:E; [apply IH; eapply Hstep; eauto | apply IH; exact Hs].
  Qed.

  Lemma exec_app s l1 l2 : exec s (l1 ++ l2) = exec (exec s l1) l2.
  Proof.
    revert s; induction l1 as [|l r IH]; intros s; cbn [exec app]; [reflexivity|].
    destruct (step s l); apply IH.
  Qed.

  Inductive reachable (s0 : S) : S -> Prop :=
  | reach_init : reachable s0 s0
  | reach_step s l s' : reachable s0 s -> step s l = Some s' -> reachable s0 s'.

  Theorem invariant_reachable (I : S -> Prop) s0 :
    I s0 -> (forall s l s', I s -> step s l = Some s' -> I s') ->
    forall s, reachable s0 s -> I s.
  Proof. intros H0 Hs s R; induction R; eauto. Qed.

  Lemma exec_reachable s0 ls : reachable s0 (exec s0 ls).
  Proof.
    assert (G : forall ls s, reachable s0 s -> reachable s0 (exec s ls)).
    { clear ls. intros ls; induction ls as [|l r IH]; intros s R; cbn [exec]; [exact R|].
      destruct (step s l) eqn:E; [apply IH; econstructor; eauto | apply IH; exact R]. }
    apply G; constructor.
  Qed.
End Exec.

(* Sequential machines: run with observations. *)
Section Run.
  Context {S O B : Type} (step : S -> O -> S * B).
  Fixpoint run (s : S) (ops : list O) : list B :=
    match ops with
    | [] => []
    | o :: r => let '(s', b) := step s o in b :: run s' r
    end.
  Fixpoint run_state (s : S) (ops : list O) : S :=
    match ops with [] => s | o :: r => run_state (fst (step s o)) r end.

  Theorem run_state_inv (I : S -> Prop) :
    (forall s o, I s -> I (fst (step s o))) ->
    forall ops s, I s -> I (run_state s ops).
  Proof. intros Hstep ops; induction ops as [|o r IH]; intros s Hs; cbn [run_state]; auto. Qed.

  (* the same along histories whose operations all satisfy a side condition (fault-free, well-formed) *)
  Theorem run_state_inv_on (ok : O -> Prop) (I : S -> Prop) :
    (forall s o, ok o -> I s -> I (fst (step s o))) ->
    forall ops s, Forall ok ops -> I s -> I (run_state s ops).
  Proof.
    intros Hstep ops; induction ops as [|o r IH]; intros s Hok Hs; [exact Hs|].
    inversion Hok; subst. cbn [run_state]. auto.
  Qed.
End Run.

Ltac inv H := inversion H; subst; clear H.

(* Correspondence: positions where model and implementation observations differ. *)
Section Mismatch.
  Context {B : Type} (beq : B -> B -> bool).
  Fixpoint diff_at (n : nat) (exp got : list B) : list (nat * option B * option B) :=
    match exp, got with
    | [], [] => []
    | e :: er, g :: gr => if beq e g then diff_at (S n) er gr else [(n, Some e, Some g)]
    | e :: _, [] => [(n, Some e, None)]
    | [], g :: _ => [(n, None, Some g)]
    end.
  Lemma diff_at_nil n exp got :
    (forall a b, beq a b = true -> a = b) -> diff_at n exp got = [] -> exp = got.
  Proof.
    intros Hb; revert n got; induction exp as [|e er IH]; intros n [|g gr]; cbn; try discriminate; auto.
    destruct (beq e g) eqn:E; [|discriminate]. intros H; f_equal; [apply Hb; exact E | eapply IH; exact H].
  Qed.
End Mismatch.

Fixpoint number_from {A} (n : nat) (l : list A) : list (nat * A) :=
  match l with [] => [] | a :: r => (n, a) :: number_from (S n) r end.

Definition opt_eqb {A} (eqb : A -> A -> bool) (a b : option A) : bool :=
  match a, b with Some x, Some y => eqb x y | None, None => true | _, _ => false end.

Fixpoint list_eqb {A} (eqb : A -> A -> bool) (a b : list A) : bool :=
  match a, b with
  | [], [] => true
  | x :: xs, y :: ys => eqb x y && list_eqb eqb xs ys
  | _, _ => false
  end.

Lemma list_eqb_eq {A} (eqb : A -> A -> bool) :
  (forall a b, eqb a b = true -> a = b) -> forall a b, list_eqb eqb a b = true -> a = b.
Proof.
  intros H a; induction a as [|x xs IH]; intros [|y ys]; cbn; try discriminate; auto.
  intros E; apply andb_true_iff in E as [E1 E2]; f_equal; auto.
Qed.

(* boolean NoDup on Z lists, used by monitors *)
Fixpoint memZ (x : Z) (l : list Z) : bool :=
  match l with [] => false | y :: r => (x =? y)%Z || memZ x r end.
Fixpoint nodupZ (l : list Z) : bool :=
  match l with [] => true | x :: r => negb (memZ x r) && nodupZ r end.
Lemma memZ_In x l : memZ x l = true <-> In x l.
Proof.
  induction l as [|y r IH]; cbn; [split; [discriminate|tauto]|].
  rewrite orb_true_iff, IH, Z.eqb_eq; split; intros [H|H]; auto.
Qed.
Lemma nodupZ_NoDup l : nodupZ l = true <-> NoDup l.
Proof.
  induction l as [|x r IH]; cbn; [split; [constructor|reflexivity]|].
  rewrite andb_true_iff, negb_true_iff, IH; split.
  - intros [H1 H2]; constructor; [rewrite <- memZ_In; congruence|exact H2].
  - intros H; inversion H as [|? ? H1 H2]; subst; split; [|exact H2].
    destruct (memZ x r) eqn:E; [apply memZ_In in E; contradiction|reflexivity].
Qed.
