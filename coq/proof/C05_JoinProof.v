(* C05 — proofs about the suffix / suffix-width layer with datacenters joining, allocator leaders and the PD
   leadership moving (model/C05_Join.v). *)
From Coq Require Import ZArith List Bool Lia.
From PDV Require Import lib.Base gen.Gen_C05 model.C05_TsoGlobal model.C05_Join proof.C05_Proof.
Import ListNotations.
Local Open Scope Z_scope.
Local Arguments Z.shiftl : simpl never.
Local Arguments Z.log2_up : simpl never.
Local Arguments sfx_max : simpl never.
Local Arguments sfx_lookup : simpl never.
Local Arguments cal_suffix_bits : simpl never.
Local Arguments max_known : simpl never.
Local Arguments hosted : simpl never.
Local Arguments write_ts : simpl never.
Local Arguments tick : simpl never.

(* equal values force the suffix of the wider one to look like the other suffix in the low bits of the narrower width *)
Lemma differentiate_eq_residue r1 r2 b1 b2 s1 s2 :
  0 <= b1 <= b2 -> 0 <= s1 < 2 ^ b1 ->
  differentiate r1 b1 s1 = differentiate r2 b2 s2 -> s2 mod 2 ^ b1 = s1.
Proof.
  intros Hb Hs1 E. unfold differentiate in E. rewrite !shiftl_mul in E by lia.
  assert (Hp : 2 ^ b2 = 2 ^ (b2 - b1) * 2 ^ b1) by (rewrite <- Z.pow_add_r by lia; f_equal; lia).
  assert (H1 : (r1 * 2 ^ b1 + s1) mod 2 ^ b1 = s1).
  { rewrite Z.add_comm, Z_mod_plus_full. apply Z.mod_small. lia. }
  assert (H2 : (r2 * 2 ^ b2 + s2) mod 2 ^ b1 = s2 mod 2 ^ b1).
  { rewrite Hp, Z.mul_assoc, Z.add_comm, Z_mod_plus_full. reflexivity. }
  rewrite E in H1. rewrite H2 in H1. exact H1.
Qed.

Lemma differentiate_distinct_fit r1 r2 b1 b2 s1 s2 :
  0 <= b1 -> 0 <= b2 -> 0 <= s1 < 2 ^ Z.min b1 b2 -> 0 <= s2 < 2 ^ Z.min b1 b2 -> s1 <> s2 ->
  differentiate r1 b1 s1 <> differentiate r2 b2 s2.
Proof.
  intros H1 H2 Hs1 Hs2 Hne E.
  destruct (Z.le_ge_cases b1 b2) as [Hle|Hge].
  - rewrite Z.min_l in Hs1, Hs2 by lia.
    pose proof (differentiate_eq_residue _ _ _ _ _ _ (conj H1 Hle) Hs1 E) as R.
    rewrite Z.mod_small in R by lia. lia.
  - rewrite Z.min_r in Hs1, Hs2 by lia. symmetry in E.
    pose proof (differentiate_eq_residue _ _ _ _ _ _ (conj H2 Hge) Hs2 E) as R.
    rewrite Z.mod_small in R by lia. lia.
Qed.

(* and the converse: a suffix that does not fit the narrower width collides with the suffix it looks like there *)
Lemma differentiate_collision b1 b2 s1 s2 r2 :
  0 <= b1 <= b2 -> 0 <= s1 < 2 ^ b1 -> 0 <= s2 -> s2 mod 2 ^ b1 = s1 ->
  differentiate (r2 * 2 ^ (b2 - b1) + s2 / 2 ^ b1) b1 s1 = differentiate r2 b2 s2.
Proof.
  intros Hb Hs1 Hs2 R. unfold differentiate. rewrite !shiftl_mul by lia.
  assert (Hp : 2 ^ b2 = 2 ^ (b2 - b1) * 2 ^ b1) by (rewrite <- Z.pow_add_r by lia; f_equal; lia).
  pose proof (Z.div_mod s2 (2 ^ b1) ltac:(lia)) as D. rewrite R in D. rewrite Hp. lia.
Qed.

Lemma cal_suffix_bits_nonneg m : 0 <= cal_suffix_bits m.
Proof. unfold cal_suffix_bits. apply Z.log2_up_nonneg. Qed.

Lemma cal_suffix_bits_mono a b : a <= b -> cal_suffix_bits a <= cal_suffix_bits b.
Proof. intros H. unfold cal_suffix_bits. apply Z.log2_up_le_mono. lia. Qed.

Definition hosts (s : jstate) (dc : nat) : Prop := exists m, jhost s dc = Some m.

(* j_lmem: every led dc is at or above the last Global timestamp handed out; j_req: a request in flight synchronises
   every dc that has a leader (what the exclusion of a starting allocator by syncMu buys); j_known: a member that leads
   a dc knows that dc's suffix *)
Record JInv (s : jstate) : Prop := {
  j_store  : sfx_ok (jstore s);
  j_view   : forall m, 0 <= jview s m <= sfx_max (jstore s);
  j_known  : forall dc m, jhost s dc = Some m -> exists v, sfx_lookup (jstore s) dc = Some v /\ v <= jview s m;
  j_gmem   : tle (jlastg s) (jg s);
  j_lmem   : forall dc, hosts s dc -> tle (jlastg s) (jl s dc);
  j_globals: forall g, In g (jout s) -> jwho g = None ->
               tle (jP g, jraw g) (jlastg s) /\ jsfx g = 0 /\ 0 <= jw g <= cal_suffix_bits (sfx_max (jstore s));
  j_locals : forall r dc, In r (jout s) -> jwho r = Some dc ->
               0 <= jsfx r < 2 ^ jw r /\ sfx_lookup (jstore s) dc = Some (jsfx r) /\ 0 <= jw r;
  j_req    : forall c set, jreq s = Some (c, set) -> 0 < c /\ forall dc, hosts s dc -> In dc set
}.

Lemma upd_f_same {A} (f : nat -> A) i x : upd_f f i x i = x.
Proof. unfold upd_f. rewrite Nat.eqb_refl. reflexivity. Qed.
Lemma upd_f_other {A} (f : nat -> A) i x j : j <> i -> upd_f f i x j = f j.
Proof. intros H. unfold upd_f. destruct (Nat.eqb j i) eqn:E; [apply Nat.eqb_eq in E; contradiction|reflexivity]. Qed.

Lemma fold_max_ge_init (f : nat -> ts) l a : tle a (fold_left (fun a dc => ts_max a (f dc)) l a).
Proof.
  revert a; induction l as [|d t IH]; intros a; cbn [fold_left]; [apply tle_refl|].
  eapply tle_trans; [apply ts_max_ge_l | apply IH].
Qed.
Lemma fold_max_ge_in (f : nat -> ts) l a d : In d l -> tle (f d) (fold_left (fun a dc => ts_max a (f dc)) l a).
Proof.
  revert a; induction l as [|x t IH]; intros a H; cbn [fold_left]; [destruct H|].
  destruct H as [->|H]; [eapply tle_trans; [apply ts_max_ge_r | apply fold_max_ge_init] | apply IH; exact H].
Qed.

Lemma max_known_ge_g s : tle (jg s) (max_known s).
Proof. unfold max_known. apply fold_max_ge_init. Qed.
Lemma max_known_ge_l s dc : In dc (hosted s) -> tle (jl s dc) (max_known s).
Proof. unfold max_known. intros H. apply (fold_max_ge_in (jl s)). exact H. Qed.

Lemma sfx_lookup_some_in st dc v : sfx_lookup st dc = Some v -> In dc (map fst st).
Proof. intros H. apply sfx_lookup_in in H. apply in_map_iff. exists (dc, v). split; [reflexivity|exact H]. Qed.

Lemma hosted_in s dc m v : jhost s dc = Some m -> sfx_lookup (jstore s) dc = Some v -> In dc (hosted s).
Proof.
  intros H L. unfold hosted. apply filter_In. split; [eapply sfx_lookup_some_in; eauto | rewrite H; reflexivity].
Qed.

Lemma existsb_eqb_in d l : existsb (Nat.eqb d) l = true <-> In d l.
Proof.
  rewrite existsb_exists. split.
  - intros (x & Hx & E). apply Nat.eqb_eq in E. subst. exact Hx.
  - intros H. exists d. split; [exact H | apply Nat.eqb_refl].
Qed.

Lemma sfx_assign_max st dc : sfx_ok st -> sfx_max st <= sfx_max (fst (sfx_assign st dc)) /\ snd (sfx_assign st dc) <= sfx_max (fst (sfx_assign st dc)) /\ 1 <= snd (sfx_assign st dc).
Proof.
  intros Hok. unfold sfx_assign. destruct (sfx_lookup st dc) as [v|] eqn:E; cbn [fst snd].
  - apply sfx_lookup_in in E. destruct Hok as (_ & _ & H3). specialize (H3 _ E). cbn in H3. lia.
  - pose proof (sfx_max_nonneg st) as Hnn. rewrite sfx_max_fresh. lia.
Qed.

Lemma sfx_assign_lookup st dc : sfx_lookup (fst (sfx_assign st dc)) dc = Some (snd (sfx_assign st dc)).
Proof. apply sfx_assign_returns. Qed.

Lemma jinv_init leader g0 : JInv (jinit leader g0).
Proof.
  constructor; cbn.
  - split; [constructor|split; [constructor|intros q []]].
  - intros _. unfold sfx_max. cbn. lia.
  - intros dc m H. discriminate.
  - apply tle_refl.
  - intros dc [m H]. discriminate.
  - intros g [].
  - intros r dc [].
  - intros c set H; discriminate.
Qed.

Lemma max_over_ge_g s set : tle (jg s) (max_over s set).
Proof. unfold max_over. apply fold_max_ge_init. Qed.

(* the end of a Global request: above its own memory; every dc it synchronises is raised to the answer *)
Lemma global_end_inv s c set :
  JInv s -> 0 < c -> (forall dc, hosts s dc -> In dc set) -> JInv (global_end s c set).
Proof.
  intros I Gc Hset. unfold global_end.
  set (x := (fst (max_over s set), snd (max_over s set) + c)).
  assert (Hx : tle (max_over s set) x) by (subst x; ord).
  constructor; cbn; try (apply I).
  - apply tle_refl.
  - intros d [m0 Hd]. cbn [jhost] in Hd.
    assert (Hin : In d set) by (apply Hset; exists m0; exact Hd).
    apply existsb_eqb_in in Hin. rewrite Hin. apply write_ge_v.
  - intros g [Hg|Hg] Hw.
    + subst g. cbn. split; [apply tle_refl|]. split; [reflexivity|].
      split; [apply cal_suffix_bits_nonneg | apply cal_suffix_bits_mono; apply (j_view _ I)].
    + destruct (j_globals _ I g Hg Hw) as (G1 & G2 & G3). split; [|tauto].
      eapply tle_trans; [exact G1|]. eapply tle_trans; [exact (j_gmem _ I)|]. eapply tle_trans; [apply max_over_ge_g | exact Hx].
  - intros r d [Hr|Hr] Hw; [subst r; discriminate | apply (j_locals _ I r d Hr Hw)].
  - intros c0 set0 H; discriminate.
Qed.

Lemma stored_suffix_bounds s dc v : JInv s -> sfx_lookup (jstore s) dc = Some v -> 1 <= v <= sfx_max (jstore s).
Proof. intros I L. apply sfx_lookup_in in L. destruct (j_store _ I) as (_ & _ & H3). exact (H3 _ L). Qed.

Lemma hosts_hosted s : JInv s -> forall d, hosts s d -> In d (hosted s).
Proof. intros I d [m Hd]. destruct (j_known _ I d m Hd) as (w & Lw & _). eapply hosted_in; eauto. Qed.

(* a member's view raised to a suffix in use: the bounds on the views and what the hosts know survive *)
Lemma view_raised s m v :
  JInv s -> v <= sfx_max (jstore s) ->
  (forall m0, 0 <= upd_f (jview s) m (Z.max (jview s m) v) m0 <= sfx_max (jstore s)) /\
  (forall dc m0, jhost s dc = Some m0 ->
     exists u, sfx_lookup (jstore s) dc = Some u /\ u <= upd_f (jview s) m (Z.max (jview s m) v) m0).
Proof.
  intros I Hv. split.
  - intros m0. pose proof (j_view _ I m0). pose proof (j_view _ I m). unfold upd_f. destruct (Nat.eqb m0 m); lia.
  - intros dc m0 Hh. destruct (j_known _ I dc m0 Hh) as (u & L & Hu). exists u. split; [exact L|].
    unfold upd_f. destruct (Nat.eqb_spec m0 m) as [->|]; lia.
Qed.

Lemma lmem_raised s dc x : JInv s -> tle (jl s dc) x -> forall d, hosts s d -> tle (jlastg s) (upd_f (jl s) dc x d).
Proof.
  intros I Hx d Hd. unfold upd_f. destruct (Nat.eqb_spec d dc) as [->|]; [|apply (j_lmem _ I), Hd].
  eapply tle_trans; [apply (j_lmem _ I), Hd|exact Hx].
Qed.

Lemma jinv_step s l s' : JInv s -> jstep s l = Some s' -> JInv s'.
Proof.
  intros I H. destruct l; cbn [jstep jstep_gen] in H.
  - destruct (sfx_assign (jstore s) dc) as [st v] eqn:A. inv H.
    pose proof (sfx_assign_ok _ dc (j_store _ I)) as Hok. rewrite A in Hok. cbn in Hok.
    pose proof (sfx_assign_max _ dc (j_store _ I)) as (M1 & M2 & M3). rewrite A in M1, M2, M3. cbn in M1, M2, M3.
    constructor; cbn.
    + exact Hok.
    + intros m. pose proof (j_view _ I m) as V. pose proof (j_view _ I (jpdl s)) as Vp.
      unfold upd_f. destruct (Nat.eqb m (jpdl s)); lia.
    + intros d m Hh. destruct (j_known _ I d m Hh) as (w & L & Hw).
      exists w. split.
      * pose proof (sfx_assign_stable _ dc d w L) as S. rewrite A in S. exact S.
      * unfold upd_f. destruct (Nat.eqb m (jpdl s)) eqn:E; [apply Nat.eqb_eq in E; subst; lia | exact Hw].
    + exact (j_gmem _ I).
    + exact (j_lmem _ I).
    + intros g Hg Hw. destruct (j_globals _ I g Hg Hw) as (G1 & G2 & G3). repeat split; try tauto.
      pose proof (cal_suffix_bits_mono _ _ M1). lia.
    + intros r d Hr Hw. destruct (j_locals _ I r d Hr Hw) as (L1 & L2 & L3). repeat split; try tauto.
      pose proof (sfx_assign_stable _ dc d _ L2) as S. rewrite A in S. exact S.
    + exact (j_req _ I).
  - inv H. destruct (view_raised s m _ I (Z.le_refl _)) as [V K].
    constructor; cbn; [apply I|exact V|exact K|apply I..].
  - destruct (sfx_lookup (jstore s) dc) as [v|] eqn:L; [|discriminate].
    destruct (jhost s dc) eqn:Hh; [discriminate|].
    destruct (jreq s) eqn:Rq; [discriminate|]. inv H.
    pose proof (stored_suffix_bounds _ _ _ I L) as Hv.
    destruct (view_raised s m v I (proj2 Hv)) as [V K].
    constructor; cbn.
    + apply I.
    + exact V.
    + intros d m0 Hd. unfold upd_f in Hd. destruct (Nat.eqb_spec d dc) as [->|_]; [|exact (K d m0 Hd)].
      inversion Hd; subst m0. exists v. split; [exact L|]. rewrite upd_f_same. lia.
    + exact (j_gmem _ I).
    + intros d [m0 Hd]. cbn [jhost jl jlastg] in Hd |- *. unfold upd_f in Hd |- *. destruct (Nat.eqb d dc) eqn:E.
      * eapply tle_trans; [exact (j_gmem _ I)|]. eapply tle_trans; [apply max_known_ge_g | apply write_ge_v].
      * apply (j_lmem _ I). exists m0. exact Hd.
    + exact (j_globals _ I).
    + exact (j_locals _ I).
    + intros c set Hq. discriminate Hq.
  - inv H. constructor; cbn; try (apply I).
    + intros d m Hd. unfold upd_f in Hd. destruct (Nat.eqb d dc); [discriminate|]. apply (j_known _ I d m Hd).
    + intros d [m Hd]. cbn [jhost jl jlastg] in Hd |- *. unfold upd_f in Hd. destruct (Nat.eqb d dc); [discriminate|]. apply (j_lmem _ I). exists m. exact Hd.
    + intros c set Hq. split; [exact (proj1 (j_req _ I c set Hq))|].
      intros d [m Hd]. cbn [jhost] in Hd. unfold upd_f in Hd. destruct (Nat.eqb d dc); [discriminate|].
      apply (proj2 (j_req _ I c set Hq)). exists m. exact Hd.
  - inv H. destruct (view_raised s m _ I (Z.le_refl _)) as [V K].
    constructor; cbn; [apply I|exact V|exact K|apply I..].
  - destruct (jhost s dc) as [m|] eqn:Hh; [|discriminate].
    destruct (sfx_lookup (jstore s) dc) as [v|] eqn:L; [|discriminate].
    destruct (0 <? c) eqn:Hc; [|discriminate]. apply Z.ltb_lt in Hc. inv H.
    constructor; cbn; try (apply I).
    + apply (lmem_raised s dc _ I). ord.
    + intros g [Hg|Hg] Hw; [subst g; discriminate | apply (j_globals _ I g Hg Hw)].
    + intros r d [Hr|Hr] Hw.
      * subst r. cbn in Hw. inversion Hw; subst d. cbn.
        destruct (j_known _ I dc m Hh) as (w & Lw & Hview). rewrite L in Lw. inversion Lw; subst w.
        pose proof (stored_suffix_bounds _ _ _ I L) as Hv.
        split; [|split; [exact L | apply cal_suffix_bits_nonneg]].
        split; [lia|]. unfold width_of. apply bits_cover. lia.
      * apply (j_locals _ I r d Hr Hw).
  - inv H. constructor; cbn; try (apply I).
    apply (lmem_raised s dc _ I), tick_ge.
  - inv H. constructor; cbn; try (apply I).
    eapply tle_trans; [exact (j_gmem _ I) | apply tick_ge].
  - destruct (jreq s) eqn:Rq; [discriminate|].
    destruct (all_hosted s && (0 <? c)) eqn:G; [|discriminate]. apply andb_true_iff in G as [Gh Gc]. apply Z.ltb_lt in Gc.
    inv H. apply global_end_inv; [exact I | exact Gc | exact (hosts_hosted s I)].
  - destruct (jreq s) eqn:Rq; [discriminate|].
    destruct (all_hosted s && (0 <? c)) eqn:G; [|discriminate]. apply andb_true_iff in G as [Gh Gc]. apply Z.ltb_lt in Gc.
    inv H.
    constructor; cbn; try (apply I).
    intros c0 set Hq. inv Hq. split; [exact Gc|exact (hosts_hosted s I)].
  - destruct (jreq s) as [[c set]|] eqn:Rq; [|discriminate]. inv H.
    destruct (j_req _ I c set Rq) as [Gc Hset]. apply global_end_inv; assumption.
Qed.

Theorem jinv_exec leader g0 ls : JInv (exec jstep (jinit leader g0) ls).
Proof. apply (invariant_exec jstep JInv); [exact jinv_step | apply jinv_init]. Qed.

(* a Local allocator that starts (a dc that joins, or an allocator leader that moves) begins at or above the last
   Global timestamp handed out: GetMaxLocalTSO covers every led dc and the Global allocator's memory *)
Lemma start_above_last_global s dc m p s' :
  JInv s -> jstep s (JStart dc m p) = Some s' -> tle (jlastg s') (jl s' dc) /\ jhost s' dc = Some m.
Proof.
  intros I H. pose proof (jinv_step _ _ _ I H) as I'.
  assert (Hh : jhost s' dc = Some m).
  { cbn [jstep jstep_gen] in H. destruct (sfx_lookup (jstore s) dc); [|discriminate]. destruct (jhost s dc); [discriminate|].
    destruct (jreq s); [discriminate|]. inversion H; subst s'. cbn. apply upd_f_same. }
  split; [apply (j_lmem _ I'); exists m; exact Hh | exact Hh].
Qed.

Lemma local_above_last_global s dc c s' r :
  JInv s -> jstep s (JLocal dc c) = Some s' -> hd_error (jout s') = Some r ->
  tlt (jlastg s) (jP r, jraw r - jcnt r + 1) /\ jwho r = Some dc.
Proof.
  intros I H Hr. cbn [jstep jstep_gen] in H.
  destruct (jhost s dc) as [m|] eqn:Hh; [|discriminate].
  destruct (sfx_lookup (jstore s) dc) as [v|]; [|discriminate].
  destruct (0 <? c) eqn:Hc; [|discriminate]. apply Z.ltb_lt in Hc. inversion H; subst s'. cbn in Hr. inversion Hr; subst r. cbn.
  pose proof (j_lmem _ I dc (ex_intro _ m Hh)) as T. split; [ord|reflexivity].
Qed.

Lemma width_covers_own s r : JInv s -> In r (jout s) -> 0 <= jsfx r < 2 ^ jw r.
Proof.
  intros I Hr. destruct (jwho r) as [dc|] eqn:W.
  - apply (j_locals _ I r dc Hr W).
  - destruct (j_globals _ I r Hr W) as (_ & Z0 & Hw). rewrite Z0.
    pose proof (Z.pow_pos_nonneg 2 (jw r) ltac:(lia) ltac:(lia)). lia.
Qed.

Lemma fits_view s v m : 0 <= v -> v <= jview s m -> v < 2 ^ width_of s m.
Proof. intros H0 H. unfold width_of. apply bits_cover. lia. Qed.

(* two members that both know both suffixes differentiate them apart, whatever their widths *)
Lemma known_suffixes_distinct s m1 m2 v1 v2 r1 r2 :
  0 <= v1 -> 0 <= v2 -> v1 <> v2 ->
  v1 <= jview s m1 -> v1 <= jview s m2 -> v2 <= jview s m1 -> v2 <= jview s m2 ->
  differentiate r1 (width_of s m1) v1 <> differentiate r2 (width_of s m2) v2.
Proof.
  intros P1 P2 Hne A1 A2 B1 B2.
  apply differentiate_distinct_fit; try (unfold width_of; apply cal_suffix_bits_nonneg); [| |exact Hne];
    (split; [assumption|]); destruct (Z.min_spec (width_of s m1) (width_of s m2)) as [[_ ->]|[_ ->]]; apply fits_view; assumption.
Qed.

Lemma nolag_distinct_locals s dc1 dc2 m1 m2 v1 v2 r1 r2 :
  JInv s -> no_lag s -> dc1 <> dc2 ->
  jhost s dc1 = Some m1 -> jhost s dc2 = Some m2 ->
  sfx_lookup (jstore s) dc1 = Some v1 -> sfx_lookup (jstore s) dc2 = Some v2 ->
  differentiate r1 (width_of s m1) v1 <> differentiate r2 (width_of s m2) v2.
Proof.
  intros I [NL _] Hne H1 H2 L1 L2.
  pose proof (stored_suffix_bounds _ _ _ I L1) as B1. pose proof (stored_suffix_bounds _ _ _ I L2) as B2.
  pose proof (NL _ _ H1) as V1. pose proof (NL _ _ H2) as V2.
  apply known_suffixes_distinct; try lia.
  intros E. subst v2. apply Hne. eapply sfx_ok_injective; [exact (j_store _ I) | exact L1 | exact L2].
Qed.

Lemma nolag_distinct_global_local s dc m v r1 r2 :
  JInv s -> no_lag s -> jhost s dc = Some m -> sfx_lookup (jstore s) dc = Some v ->
  differentiate r1 (width_of s (jpdl s)) 0 <> differentiate r2 (width_of s m) v.
Proof.
  intros I [NL NG] H L.
  pose proof (stored_suffix_bounds _ _ _ I L) as B. pose proof (NL _ _ H) as V.
  pose proof (j_view _ I (jpdl s)). pose proof (j_view _ I m).
  apply known_suffixes_distinct; lia.
Qed.

Lemma nolag_width_covers_all s dc m dc' v' :
  JInv s -> no_lag s -> jhost s dc = Some m -> sfx_lookup (jstore s) dc' = Some v' -> v' < 2 ^ width_of s m.
Proof.
  intros I [NL _] H L. pose proof (stored_suffix_bounds _ _ _ I L) as B. pose proof (NL _ _ H).
  apply fits_view; lia.
Qed.

(* a Local answer requested after a Global answer was returned is greater in the returned (physical, logical) order,
   provided the member that serves it has not fallen behind with its suffix width *)
(* 0 <= jraw g: jinit takes any g0, and with a negative raw part a wider shift reverses the order *)
Lemma local_after_global_returned s g dc m c s' r :
  JInv s -> In g (jout s) -> jwho g = None -> 0 <= jraw g ->
  jhost s dc = Some m -> sfx_max (jstore s) <= jview s m ->
  jstep s (JLocal dc c) = Some s' -> hd_error (jout s') = Some r ->
  forall i, 0 <= i < jcnt r ->
  jP g < jP r \/ (jP g = jP r /\ jlogical g < differentiate (jraw r - i) (jw r) (jsfx r)).
Proof.
  intros I Hg Wg Hnn Hh Hview H Hr i Hi.
  destruct (j_globals _ I g Hg Wg) as (G1 & G2 & G3).
  pose proof (j_lmem _ I dc (ex_intro _ m Hh)) as T.
  cbn [jstep jstep_gen] in H. rewrite Hh in H.
  destruct (sfx_lookup (jstore s) dc) as [v|] eqn:L; [|discriminate].
  destruct (0 <? c) eqn:Hc; [|discriminate]. apply Z.ltb_lt in Hc. inversion H; subst s'. cbn in Hr. inversion Hr; subst r. cbn in Hi |- *.
  pose proof (stored_suffix_bounds _ _ _ I L) as B.
  assert (Hw : jw g <= width_of s m).
  { unfold width_of. pose proof (cal_suffix_bits_mono _ _ Hview). lia. }
  unfold tle in G1, T. cbn [fst snd] in G1, T.
  destruct (Z.lt_ge_cases (jP g) (fst (jl s dc))) as [Hlt|Hge]; [left; exact Hlt|right].
  assert (HP : jP g = fst (jl s dc)) by lia. split; [exact HP|].
  assert (Hraw : jraw g + 1 <= snd (jl s dc) + c - i) by lia.
  unfold jlogical, differentiate. rewrite G2. rewrite !shiftl_mul by (unfold width_of; try apply cal_suffix_bits_nonneg; lia).
  assert (P1 : 0 < 2 ^ jw g) by (apply Z.pow_pos_nonneg; lia).
  assert (P2 : 2 ^ jw g <= 2 ^ width_of s m) by (apply Z.pow_le_mono_r; lia).
  nia.
Qed.

(* what goes wrong while a member lags: the history of the driver's cluster phase *)

Notation lag_state := (jreach 1 (1000, 0) cluster_history).

Definition shares_value (a b : jrec) : bool :=
  existsb (fun x => existsb (fun y => (fst x =? fst y) && (snd x =? snd y)) (jvalues b)) (jvalues a).

Definition who_eqb (a b : option nat) : bool :=
  match a, b with Some x, Some y => Nat.eqb x y | None, None => true | _, _ => false end.

(* two different allocators handed out the same timestamp: dc-1 (suffix 1, its member still at width 2) and
   dc-5 (suffix 5, width 3) *)
Lemma lag_equal_timestamps :
  exists a b, In a (jout lag_state) /\ In b (jout lag_state) /\ who_eqb (jwho a) (jwho b) = false /\ shares_value a b = true.
Proof.
  exists (nth 0 (jout lag_state) (JRec None 0 0 0 0 0 0)), (nth 1 (jout lag_state) (JRec None 0 0 0 0 0 0)).
  vm_compute. repeat split; auto.
Qed.

(* the width reported by the member serving dc-1 does not cover suffix 5, which is in use *)
Lemma lag_width_too_small :
  exists r v, In r (jout lag_state) /\ In v (map snd (jstore lag_state)) /\ 2 ^ jw r <= v.
Proof.
  exists (nth 1 (jout lag_state) (JRec None 0 0 0 0 0 0)), 5. vm_compute. repeat split; auto; discriminate.
Qed.

(* a Local timestamp of dc-1 requested after a Global timestamp was returned is smaller than it *)
Lemma lag_local_below_earlier_global :
  exists g r, nth_error (jout lag_state) 3 = Some g /\ nth_error (jout lag_state) 2 = Some r /\
    jwho g = None /\ jwho r = Some 1%nat /\ jP g = jP r /\ jlogical r < jlogical g.
Proof. eexists. eexists. vm_compute. repeat split; reflexivity. Qed.

Lemma lag_state_lags : ~ no_lag lag_state.
Proof. intros [NL _]. specialize (NL 1%nat 1%nat eq_refl). vm_compute in NL. apply NL. reflexivity. Qed.

(* GetMaxLocalTSO without syncMu (jstep_gen false; pd before 9d1b437).  dc-2 joins while a Global request
   for 3 timestamps is in flight; the request was begun before dc-2 existed and does not write to it; the Local
   timestamp dc-2 hands out after the Global answer was returned is below it
   (props/C05.v, C05_join_without_exclusion_breaks_local_after_global). *)
Definition unexcluded_history : list jlabel :=
  [JCheckLeader 1; JStart 1 0 1000; JGlobal 1; JGBegin 3; JCheckLeader 2; JStart 2 0 1000; JGEnd; JLocal 2 1].
