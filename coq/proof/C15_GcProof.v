(* C15 — the cluster GC safe point under interleaved UpdateGCSafePoint requests: one invariant `K g`, parameterised by the
   stored value g, for every regime (mutex b, compare-and-swap c, schedule guard G); all a regime has to supply is `fresh`: a
   save acts on the value its request loaded.  Then LoadMinServiceGCSafePoint from an arbitrary well-formed store. *)
From Coq Require Import String.
From PDV Require Import lib.Base lib.Skel lib.C15_Guard gen.Gen_C15 model.C15_Gc.
Local Open Scope Z_scope.

(* the stored value is readable before and after, and did not go down *)
Definition gc_le (a b : gcv) : Prop := exists x y, gc_read a = Some x /\ gc_read b = Some y /\ x <= y.

Definition to_gc (k : skey) : bool := match k with KGc => true | _ => false end.
(* no other UpdateGCSafePoint request is between its load and its save when this one loads
   (what the mutex enforces; only needed to talk about the model without the mutex) *)
Definition excl_label (s : state) (l : label) : bool :=
  match l with LLoad _ _ => Nat.eqb (npend s) 0 | _ => true end.
Definition no_guard (_ : state) (_ : label) : bool := true.

Lemma st_save_gc k e st : to_gc k = false -> gc (st_save k e st) = gc st.
Proof. destruct k; cbn; intros; try discriminate; reflexivity. Qed.
Lemma st_remove_gc k st : to_gc k = false -> gc (st_remove k st) = gc st.
Proof. destruct k; cbn; intros; try discriminate; reflexivity. Qed.

(* what one iteration of the LoadMin loop makes of the entry it looks at *)
Definition repair (e : entry) : entry :=
  if is_gcw (e_text e) && negb (e_exp e =? maxI64) then Entry (e_text e) maxI64 (e_sp e) else e.
Definition eff (now : Z) (e : entry) : option entry :=
  if e_exp (repair e) <? now then None else Some (repair e).

Lemma scan_cons now k e r st has mn :
  scan now ((k, e) :: r) st has mn =
    let st1 := if is_gcw (e_text e) && negb (e_exp e =? maxI64) then st_save (KSvc 0) (repair e) st else st in
    if e_exp (repair e) <? now then scan now r (st_remove (KSvc k) st1) (has || is_gcw (e_text e)) mn
    else scan now r st1 (has || is_gcw (e_text e)) (if e_sp (repair e) <? min_sp mn then Some (repair e) else mn).
Proof. reflexivity. Qed.

Lemma scan_gc now es : forall st has mn, gc (fst (fst (scan now es st has mn))) = gc st.
Proof.
  induction es as [|[k e] r IH]; intros st has mn; [reflexivity|]. rewrite scan_cons. cbv zeta.
  destruct (e_exp (repair e) <? now); rewrite IH; destruct (is_gcw (e_text e) && negb (e_exp e =? maxI64)); reflexivity.
Qed.

Lemma load_min_gc now st : gc (fst (load_min now st)) = gc st.
Proof.
  unfold load_min. destruct (svcs st) as [|x r] eqn:E; [reflexivity|].
  pose proof (scan_gc now (x :: r) st false None) as H.
  destruct (scan now (x :: r) st false None) as [[st1 has] mn]. cbn [fst] in H.
  destruct mn as [m|]; [destruct has|]; cbn; exact H.
Qed.

(* an id that passes checkServiceID is stored under its own key, never on the cluster key *)
Lemma id_ok_not_gc i : id_ok i = true -> to_gc (key_of i) = false.
Proof. destruct i as [| |z k]; cbn; try reflexivity. destruct k; cbn; intros; try discriminate; reflexivity. Qed.

Lemma rest_dels_gc d : forall st, gc (rest_dels d st) = gc st.
Proof. induction d as [|k r IH]; intros st; cbn [rest_dels]; [reflexivity|]. rewrite IH. destruct (k =? 0); reflexivity. Qed.

Lemma save_service_spec i e st st' :
  save_service i e st = Some st' ->
  st' = st_save (key_of i) e st /\ (e_text e = TGcw -> e_exp e = maxI64) /\ is_clean i = true.
Proof.
  unfold save_service, id_ok. destruct (e_text e) eqn:Et; try discriminate; destruct (is_clean i); cbn; try discriminate.
  - destruct (Z.eqb_spec (e_exp e) maxI64); intros H; inversion H; subst. auto.
  - intros H; inversion H; subst. repeat split; auto. discriminate.
Qed.

Lemma remove_service_spec i st st' :
  remove_service i st = Some st' -> st' = st_remove (key_of i) st /\ is_clean i = true /\ text_of i <> TGcw.
Proof.
  unfold remove_service, id_ok. destruct (text_of i) eqn:Et; try discriminate; destruct (is_clean i); try discriminate;
    intros H; inversion H; subst; repeat split; auto; discriminate.
Qed.

Lemma remove_service_gc i st st' : remove_service i st = Some st' -> gc st' = gc st.
Proof. intros H. apply remove_service_spec in H as (-> & Hok & _). apply st_remove_gc, id_ok_not_gc. exact Hok. Qed.

(* the removal a request with TTL <= 0 begins with *)
Lemma pre_remove_gc i ttl st st0 : (if ttl <=? 0 then remove_service i st else Some st) = Some st0 -> gc st0 = gc st.
Proof. destruct (ttl <=? 0); intros H; [eapply remove_service_gc; eauto | inv H; reflexivity]. Qed.

(* What the three models of UpdateServiceGCSafePoint share.  After the first LoadMin has answered (st1, mn) the plain call, the call with REST deletes slipping in and the call
   under storage faults go on in the same way: guard, the request's own save (refused / deletes d1 slip in before it /
   outcome o), reload of the minimum if the request's service was the minimum. *)
Definition exp_of (now ttl : Z) : Z := if maxI64 - now <=? ttl then maxI64 else now + ttl.

Definition svc_tail (st1 : store) (mn : entry) (i : sid) (ttl sp now : Z) (d1 : list Z) (o : outcome) : store * option resp :=
  if (0 <? ttl) && (e_sp mn <=? sp) then
    let E := Entry (text_of i) (exp_of now ttl) sp in
    match save_service i E st1 with
    | None => (st1, None)
    | Some _ =>
        let st1' := rest_dels d1 st1 in
        match o with
        | ErrNotApplied => (st1', None)
        | ErrApplied => (st_save (key_of i) E st1', None)
        | Ok => let st2 := st_save (key_of i) E st1' in
                if text_eqb (text_of i) (e_text mn)
                then let '(st3, mn') := load_min now st2 in (st3, Some (resp_of mn' now))
                else (st2, Some (resp_of mn now))
        end
    end
  else (st1, Some (resp_of mn now)).

Lemma svc_update_il_eq st i ttl sp now d o : svc_update_il st i ttl sp now d o =
  match (if ttl <=? 0 then remove_service i st else Some st) with
  | None => (st, None)
  | Some st0 => let '(st1, mn) := load_min now st0 in svc_tail st1 mn i ttl sp now d o
  end.
Proof. reflexivity. Qed.

Lemma svc_update_x_eq st i ttl sp now x d o : svc_update_x st i ttl sp now x d o =
  match (if ttl <=? 0 then remove_service i st else Some st) with
  | None => (st, None)
  | Some st0 => match load_min_x x now st0 with
                | (st1, None) => (st1, None)
                | (st1, Some mn) => svc_tail st1 mn i ttl sp now d o
                end
  end.
Proof. reflexivity. Qed.

Lemma svc_update_il_plain st i ttl sp now : svc_update_il st i ttl sp now [] Ok = svc_update st i ttl sp now.
Proof.
  unfold svc_update_il, svc_update.
  destruct (if ttl <=? 0 then remove_service i st else Some st) as [st0|]; [|reflexivity].
  destruct (load_min now st0) as [st1 mn].
  destruct ((0 <? ttl) && (e_sp mn <=? sp)); [|reflexivity].
  destruct (save_service i _ st1) as [st2|] eqn:Es; [|reflexivity].
  apply save_service_spec in Es as (-> & _). reflexivity.
Qed.

Lemma svc_tail_gc st1 mn i ttl sp now d o : gc (fst (svc_tail st1 mn i ttl sp now d o)) = gc st1.
Proof.
  unfold svc_tail. destruct ((0 <? ttl) && (e_sp mn <=? sp)); [|reflexivity].
  destruct (save_service i _ st1) as [st2|] eqn:Es; [|reflexivity].
  apply save_service_spec in Es as (_ & _ & Hok).
  assert (Hsave : forall x, gc (st_save (key_of i) x (rest_dels d st1)) = gc st1).
  { intros x. rewrite st_save_gc by (apply id_ok_not_gc; exact Hok). apply rest_dels_gc. }
  destruct o; cbn [fst]; [|apply rest_dels_gc|apply Hsave].
  destruct (text_eqb (text_of i) (e_text mn)); [|apply Hsave].
  match goal with |- context [load_min now ?x] => pose proof (load_min_gc now x) as H3; destruct (load_min now x) as [st3 mn'] end.
  cbn [fst] in *. rewrite H3. apply Hsave.
Qed.

Lemma svc_update_il_gc st i ttl sp now d o : gc (fst (svc_update_il st i ttl sp now d o)) = gc st.
Proof.
  rewrite svc_update_il_eq. destruct (if ttl <=? 0 then remove_service i st else Some st) as [st0|] eqn:E0; [|reflexivity].
  pose proof (load_min_gc now st0) as H1. destruct (load_min now st0) as [st1 mn]. cbn [fst] in H1.
  rewrite svc_tail_gc, H1. exact (pre_remove_gc i ttl st st0 E0).
Qed.

Lemma svc_update_gc st i ttl sp now : gc (fst (svc_update st i ttl sp now)) = gc st.
Proof. rewrite <- svc_update_il_plain. apply svc_update_il_gc. Qed.

(* g is the stored value: it bounds what has been acknowledged and what the pending requests have loaded; a pending request
   has loaded at least what had been acknowledged before it began; every response is at least what its request had seen *)
Record K (g : Z) (s : state) : Prop := {
  k_stored : gc_read (gc (sto s)) = Some g;
  k_acks : forall a, In a (acks s) -> a <= g;
  k_thr : forall t p, thr s t = Some p -> t_old p <= g /\ forall a, In a (t_before p) -> a <= t_old p;
  k_resp : forall r bf a, In (r, bf) (resps s) -> In a bf -> a <= r
}.

(* all a step ever does: the stored value grows to g'; a request enters having loaded g and seen the acknowledgements so
   far; values up to g' are acknowledged; a response is at least what its request had seen *)
Lemma K_update g g' s s' :
  K g s -> g <= g' -> gc_read (gc (sto s')) = Some g' ->
  (forall a, In a (acks s') -> In a (acks s) \/ a <= g') ->
  (forall t p, thr s' t = Some p -> thr s t = Some p \/ (t_old p = g /\ t_before p = acks s)) ->
  (forall r bf, In (r, bf) (resps s') -> In (r, bf) (resps s) \/ forall a, In a bf -> a <= r) ->
  K g' s'.
Proof.
  intros [Hg Ha Ht Hr] Hle Hg' Ha' Ht' Hr'. constructor; [exact Hg'| | |].
  - intros a Hin. destruct (Ha' a Hin) as [H|H]; [specialize (Ha a H); lia|exact H].
  - intros t p Hp. destruct (Ht' t p Hp) as [H|[H1 H2]].
    + destruct (Ht t p H) as [H1 H2]. split; [lia|exact H2].
    + split; [lia|]. rewrite H1, H2. exact Ha.
  - intros r bf a Hin. destruct (Hr' r bf Hin) as [H|H]; [exact (Hr r bf a H)|apply H].
Qed.

(* the same while the stored value stays *)
Lemma K_keep g s s' :
  K g s -> gc_read (gc (sto s')) = Some g ->
  (forall a, In a (acks s') -> In a (acks s) \/ a <= g) ->
  (forall t p, thr s' t = Some p -> thr s t = Some p \/ (t_old p = g /\ t_before p = acks s)) ->
  (forall r bf, In (r, bf) (resps s') -> In (r, bf) (resps s) \/ forall a, In a bf -> a <= r) ->
  exists g', g <= g' /\ K g' s'.
Proof. intros Hk Hg Ha Ht Hr. exists g. split; [lia|]. exact (K_update g g s s' Hk (Z.le_refl g) Hg Ha Ht Hr). Qed.

Lemma K_same g s s' : K g s -> gc (sto s') = gc (sto s) -> acks s' = acks s -> thr s' = thr s -> resps s' = resps s -> K g s'.
Proof.
  intros Hk E1 E2 E3 E4. apply (K_update g g s s' Hk (Z.le_refl g)); rewrite ?E1, ?E2, ?E3, ?E4; auto. apply Hk.
Qed.

Lemma cas_ok_read g old : cas_ok g old = true -> gc_read g = Some old.
Proof.
  destruct g as [|z|]; cbn; intros H; try discriminate.
  - apply Z.eqb_eq in H. congruence.
  - apply andb_true_iff in H as [_ H]. apply Z.eqb_eq in H. congruence.
Qed.

(* the one thing a regime has to provide: a save acts on the value its request loaded - because the save compares (the flag c of step_gen),
   or because nothing was stored in between *)
Definition fresh (s : state) : Prop := forall t p, thr s t = Some p -> gc_read (gc (sto s)) = Some (t_old p).

Lemma K_step b c g s l s' :
  K g s -> (c = true \/ fresh s) -> step_gen b c s l = Some s' -> exists g', g <= g' /\ K g' s'.
Proof.
  intros Hk Hfresh H. pose proof Hk as [Hg Ha Ht Hr].
  destruct l as [t v|t o| |i ttl sp now|i|i exp sp]; cbn [step_gen] in H.
  - destruct (thr s t) eqn:Et; [discriminate|].
    destruct (b && negb (Nat.eqb (npend s) 0)); [discriminate|].
    rewrite Hg in H. injection H as <-. apply (K_keep g s _ Hk); cbn; auto.
    intros t' p'. destruct (Nat.eqb t' t); intros Hp; [injection Hp as <-; right; auto|left; exact Hp].
  - destruct (thr s t) as [p|] eqn:Et; [|discriminate]. destruct (Ht _ _ Et) as [Hold Hbf].
    assert (Hthr : forall t' p', (if Nat.eqb t' t then None else thr s t') = Some p' ->
              thr s t' = Some p' \/ (t_old p' = g /\ t_before p' = acks s)).
    { intros t' p'. destruct (Nat.eqb t' t); intros Hp; [discriminate|left; exact Hp]. }
    destruct (t_old p <? t_new p) eqn:Ecmp.
    + apply Z.ltb_lt in Ecmp.
      destruct (c && negb (cas_ok (gc (sto s)) (t_old p))) eqn:Ecas.
      * (* the stored value moved: refused, nothing changes *)
        injection H as <-. apply (K_keep g s _ Hk); cbn; auto.
      * (* what is stored is what the request saw *)
        assert (Eg : t_old p = g).
        { assert (Hread : gc_read (gc (sto s)) = Some (t_old p)).
          { destruct Hfresh as [->|Hf]; [|exact (Hf _ _ Et)]. cbn in Ecas. apply negb_false_iff in Ecas. apply cas_ok_read; exact Ecas. }
          congruence. }
        destruct o; injection H as <-.
        -- exists (t_new p). split; [lia|]. apply (K_update g (t_new p) s _ Hk); cbn; auto.
           ++ lia.
           ++ intros a [<-|Hin]; [right; lia|left; exact Hin].
           ++ intros r bf [E|Hin]; [injection E as <- <-; right; intros a Hia; specialize (Hbf a Hia); lia|left; exact Hin].
        -- apply (K_keep g s _ Hk); cbn; auto.
        -- exists (t_new p). split; [lia|]. apply (K_update g (t_new p) s _ Hk); cbn; auto. lia.
    + apply Z.ltb_ge in Ecmp. injection H as <-. apply (K_keep g s _ Hk); cbn; auto.
      * intros a [<-|Hin]; [right; destruct (t_new p <? t_old p); lia|left; exact Hin].
      * intros r bf [E|Hin]; [|left; exact Hin]. injection E as <- <-. right. intros a Hia. specialize (Hbf a Hia).
        destruct (Z.ltb_spec (t_new p) (t_old p)); lia.
  - rewrite Hg in H. injection H as <-. apply (K_keep g s _ Hk); cbn; auto.
    + intros a [<-|Hin]; [right; lia|left; exact Hin].
    + intros r bf [E|Hin]; [injection E as <- <-; right; exact Ha|left; exact Hin].
  - injection H as <-. exists g. split; [lia|]. apply (K_same g s _ Hk); try reflexivity. cbn. apply svc_update_gc.
  - exists g. split; [lia|]. destruct (remove_service i (sto s)) as [st|] eqn:Er; injection H as <-; [|exact Hk].
    apply (K_same g s _ Hk); try reflexivity. cbn. eapply remove_service_gc; eauto.
  - exists g. split; [lia|]. destruct (key_of i) as [|n|] eqn:Ek; injection H as <-; try exact Hk.
    apply (K_same g s _ Hk); reflexivity.
Qed.

(* without the comparison: no other request is between its load and its save *)
Definition excl (s : state) : Prop :=
  fresh s /\ ((npend s = 0%nat /\ forall t, thr s t = None) \/ (npend s = 1%nat /\ exists t, forall t', t' <> t -> thr s t' = None)).

Lemma excl_step b s l s' :
  excl s -> (b = true \/ excl_label s l = true) -> step_gen b false s l = Some s' -> excl s'.
Proof.
  intros [Hf H1] He H.
  assert (Hsto : forall st, gc st = gc (sto s) -> excl (set_sto s st)).
  { intros st E. split; [|exact H1]. intros t p Hp. cbn in *. rewrite E. exact (Hf t p Hp). }
  destruct l as [t v|t o| |i ttl sp now|i|i exp sp]; cbn [step_gen] in H.
  - destruct (thr s t) eqn:Et; [discriminate|].
    assert (Hn : npend s = 0%nat).
    { destruct He as [->|He]; [|cbn in He; apply Nat.eqb_eq in He; exact He].
      cbn [andb] in H. destruct (Nat.eqb (npend s) 0) eqn:En; [apply Nat.eqb_eq in En; exact En | discriminate]. }
    rewrite Hn in H. cbn [Nat.eqb negb] in H. rewrite andb_false_r in H.
    assert (Hnone : forall t', thr s t' = None) by (destruct H1 as [[_ H1]|[H1 _]]; [exact H1|rewrite Hn in H1; discriminate]).
    destruct (gc_read (gc (sto s))) as [g|] eqn:Hg; inv H; [|split; [exact Hf|exact H1]].
    split; unfold fresh; cbn.
    + intros t' p'. destruct (Nat.eqb t' t); intros Hp; [injection Hp as <-; exact Hg|rewrite Hnone in Hp; discriminate].
    + right. split; [reflexivity|]. exists t. intros t' Hne. destruct (Nat.eqb_spec t' t); [contradiction|apply Hnone].
  - destruct (thr s t) as [p|] eqn:Et; [|discriminate].
    assert (Hn : npend s = 1%nat /\ forall t', t' <> t -> thr s t' = None).
    { destruct H1 as [[_ H1]|[H1 [t0 H2]]]; [rewrite H1 in Et; discriminate|].
      split; [exact H1|]. intros t' Hne. destruct (Nat.eq_dec t t0) as [->|Hd]; [apply H2; exact Hne|].
      rewrite (H2 _ Hd) in Et. discriminate. }
    destruct Hn as [Hn Hothers].
    assert (Hnone : forall t', (if Nat.eqb t' t then None else thr s t') = None).
    { intros t'. destruct (Nat.eqb_spec t' t); [reflexivity|apply Hothers; assumption]. }
    assert (Hall : forall st acks' resps', excl (State st (fun j => if Nat.eqb j t then None else thr s j) (pred (npend s)) acks' resps')).
    { intros st a r. split; unfold fresh; cbn; [intros t' p' Hp; rewrite Hnone in Hp; discriminate|]. left. rewrite Hn. auto. }
    destruct (t_old p <? t_new p); [cbn [andb] in H; destruct o|]; injection H as <-; apply Hall.
  - destruct (gc_read (gc (sto s))); injection H as <-; split; assumption.
  - injection H as <-. apply Hsto. apply svc_update_gc.
  - destruct (remove_service i (sto s)) as [st|] eqn:Er; injection H as <-; [|split; assumption].
    apply Hsto. eapply remove_service_gc; eauto.
  - destruct (key_of i) as [|n|] eqn:Ek; injection H as <-; split; assumption.
Qed.

(* what every reachable state of a regime satisfies: K for the stored value, and, where the save does not compare, exclusion *)
Definition Safe (c : bool) (s : state) : Prop := exists g, K g s /\ (c = true \/ excl s).

Lemma Safe_init c : Safe c init.
Proof.
  exists 0. split; [constructor; cbn; [reflexivity|intros ? []|intros; discriminate|intros; contradiction]|]. right. split; [intros t p H; discriminate|]. left. split; [reflexivity|]. intros; reflexivity.
Qed.

Lemma Safe_step b c s l s' :
  Safe c s -> (c = true \/ b = true \/ excl_label s l = true) -> step_gen b c s l = Some s' ->
  Safe c s' /\ gc_le (gc (sto s)) (gc (sto s')).
Proof.
  intros (g & Hk & He) Hr H.
  assert (Hf : c = true \/ fresh s) by (destruct He as [->|[Hf _]]; auto).
  destruct (K_step b c g s l s' Hk Hf H) as (g' & Hle & Hk').
  split; [|exists g, g'; split; [apply Hk|split; [apply Hk'|exact Hle]]].
  exists g'. split; [exact Hk'|]. destruct He as [->|He]; [left; reflexivity|]. destruct Hr as [->|Hr]; [left; reflexivity|].
  destruct c; [left; reflexivity|]. right. exact (excl_step b s l s' He Hr H).
Qed.

Lemma guarded_no_guard b c ls : forall s, guarded (step_gen b c) no_guard s ls = true.
Proof.
  induction ls as [|l r IH]; intros s; cbn [guarded]; [reflexivity|].
  destruct (step_gen b c s l); [cbn; apply IH | apply IH].
Qed.

Section Regime.
  Variables b c : bool.
  Variable G : state -> label -> bool.
  Hypothesis HG : c = true \/ forall s l, G s l = true -> (b = true \/ excl_label s l = true).

  Lemma regime_at s l : G s l = true -> c = true \/ b = true \/ excl_label s l = true.
  Proof using HG. intros Hg. destruct HG as [->|H]; [left; reflexivity|right; exact (H s l Hg)]. Qed.

  Lemma Safe_exec ls : guarded (step_gen b c) G init ls = true -> Safe c (exec (step_gen b c) init ls).
  Proof using HG.
    apply (invariant_guarded (step_gen b c) G (Safe c)); [|apply Safe_init].
    intros s l s' Hs Hg H. exact (proj1 (Safe_step b c s l s' Hs (regime_at s l Hg) H)).
  Qed.

  Lemma Safe_monotone ls l s' :
    guarded (step_gen b c) G init (ls ++ [l]) = true ->
    step_gen b c (exec (step_gen b c) init ls) l = Some s' ->
    gc_le (gc (sto (exec (step_gen b c) init ls))) (gc (sto s')).
  Proof using HG.
    intros Hg Hs. destruct (guarded_last _ _ _ _ _ _ Hg Hs) as [Hg1 Hg2].
    exact (proj2 (Safe_step b c _ l s' (Safe_exec ls Hg1) (regime_at _ l Hg2) Hs)).
  Qed.

  Lemma Safe_responses ls r bf a :
    guarded (step_gen b c) G init ls = true -> In (r, bf) (resps (exec (step_gen b c) init ls)) -> In a bf -> a <= r.
  Proof using HG. intros Hg. destruct (Safe_exec ls Hg) as (g & Hk & _). apply (k_resp g _ Hk). Qed.

  Lemma Safe_acks ls a :
    guarded (step_gen b c) G init ls = true -> In a (acks (exec (step_gen b c) init ls)) ->
    exists g, gc_read (gc (sto (exec (step_gen b c) init ls))) = Some g /\ a <= g.
  Proof using HG. intros Hg Hin. destruct (Safe_exec ls Hg) as (g & Hk & _). exists g. split; [apply Hk|apply (k_acks g _ Hk a Hin)]. Qed.
End Regime.

Section GuardedExec.
  Variable b : bool.
  Variable G : state -> label -> bool.
  Hypothesis HG : forall s l, G s l = true -> (b = true \/ excl_label s l = true).

  Lemma responses_guarded ls r bf a :
    guarded (step_gen b false) G init ls = true ->
    In (r, bf) (resps (exec (step_gen b false) init ls)) -> In a bf -> a <= r.
  Proof. exact (Safe_responses b false G (or_intror HG) ls r bf a). Qed.

  Lemma acks_le_stored_guarded ls a :
    guarded (step_gen b false) G init ls = true -> In a (acks (exec (step_gen b false) init ls)) ->
    exists g, gc_read (gc (sto (exec (step_gen b false) init ls))) = Some g /\ a <= g.
  Proof. exact (Safe_acks b false G (or_intror HG) ls a). Qed.
End GuardedExec.

(* the code as it is: the save is a compare-and-swap on the loaded value (and leader-guarded), and requests of one member are
   serialised by gcSafePointLock.  The theorems about `step` rest on gc_cas_now alone (step_is_cas): they hold for either
   value of gc_locked; the mutex only decides which loads are enabled (Example C15_old_interleaving_now_serialised). *)
Lemma gc_cas_now : gc_cas = true.
Proof. reflexivity. Qed.
Lemma gc_locked_now : gc_locked = true.
Proof. reflexivity. Qed.

Lemma cas_monotone b ls l s' :
  step_gen b true (exec (step_gen b true) init ls) l = Some s' ->
  gc_le (gc (sto (exec (step_gen b true) init ls))) (gc (sto s')).
Proof.
  apply (Safe_monotone b true no_guard (or_introl eq_refl)). rewrite guarded_app, guarded_no_guard. apply guarded_no_guard.
Qed.

Lemma cas_responses b ls r bf a : In (r, bf) (resps (exec (step_gen b true) init ls)) -> In a bf -> a <= r.
Proof. apply (Safe_responses b true no_guard (or_introl eq_refl)). apply guarded_no_guard. Qed.

Lemma cas_acks b ls a : In a (acks (exec (step_gen b true) init ls)) ->
  exists g, gc_read (gc (sto (exec (step_gen b true) init ls))) = Some g /\ a <= g.
Proof. apply (Safe_acks b true no_guard (or_introl eq_refl)). apply guarded_no_guard. Qed.

Lemma step_is_cas : step = step_gen gc_locked true.
Proof. unfold step. rewrite gc_cas_now. reflexivity. Qed.

(* S6: A loads 5, B loads 5, B saves 20, A saves 10. *)
Definition w_overlap : list label := [LLoad 0 5; LSave 0 Ok; LLoad 0 10; LLoad 1 20; LSave 1 Ok].

(* step_gen false false is the code before both fixes: the last step takes the store from 20 back to 10 *)
Lemma overlap_decreases_without_mutex :
  exists s', step_gen false false (exec (step_gen false false) init w_overlap) (LSave 0 Ok) = Some s'
             /\ gc (sto (exec (step_gen false false) init w_overlap)) = GVal 20 /\ gc (sto s') = GVal 10.
Proof. eexists. split; [vm_compute; reflexivity|]. split; vm_compute; reflexivity. Qed.

Lemma get_put k k' e l : sv_get k' (sv_put k e l) = if k' =? k then Some e else sv_get k' l.
Proof.
  induction l as [|[k0 e0] r IH]; cbn [sv_put sv_get]; [reflexivity|].
  destruct (Z.ltb_spec k k0); [reflexivity|]. destruct (Z.eqb_spec k k0) as [->|Hk]; cbn [sv_get].
  - destruct (k' =? k0); reflexivity.
  - rewrite IH. destruct (Z.eqb_spec k' k0) as [->|]; [|reflexivity]. destruct (Z.eqb_spec k0 k); [congruence|reflexivity].
Qed.

Lemma get_del k k' l : sv_get k' (sv_del k l) = if k' =? k then None else sv_get k' l.
Proof.
  induction l as [|[k0 e0] r IH]; cbn [sv_del sv_get]; [destruct (k' =? k); reflexivity|].
  destruct (Z.eqb_spec k k0) as [->|Hk]; [rewrite IH; destruct (k' =? k0); reflexivity|]. cbn [sv_get]. rewrite IH.
  destruct (Z.eqb_spec k' k0) as [->|]; [|reflexivity]. destruct (Z.eqb_spec k0 k); [congruence|reflexivity].
Qed.

Fixpoint keys_sorted (l : list (Z * entry)) : Prop :=
  match l with [] => True | (k, _) :: r => (forall k' e', In (k', e') r -> k < k') /\ keys_sorted r end.

Lemma put_in k e l k' e' : In (k', e') (sv_put k e l) -> k' = k \/ In (k', e') l.
Proof.
  induction l as [|[k0 e0] r IH]; cbn.
  - intros [H|[]]; inversion H; auto.
  - destruct (k <? k0); [cbn; intros [H|H]; [inversion H; auto | auto]|].
    destruct (k =? k0); cbn; intros [H|H]; try (inversion H; auto; fail); auto.
    destruct (IH H); auto.
Qed.

Lemma del_in k l x : In x (sv_del k l) -> In x l.
Proof.
  induction l as [|[k0 e0] r IH]; cbn; [auto|].
  destruct (k =? k0); cbn; [auto|]. intros [H|H]; auto.
Qed.

Lemma put_sorted k e l : keys_sorted l -> keys_sorted (sv_put k e l).
Proof.
  induction l as [|[k0 e0] r IH]; cbn; [intros _; split; [intros ? ? []|exact I]|].
  intros [H1 H2].
  destruct (k <? k0) eqn:E1.
  - apply Z.ltb_lt in E1. cbn. split; [|split; assumption].
    intros k' e' [H|H]; [inversion H; subst; exact E1 | specialize (H1 _ _ H); lia].
  - destruct (Z.eqb_spec k k0) as [->|Hk]; cbn; [split; assumption|].
    apply Z.ltb_ge in E1. split; [|apply IH; exact H2].
    intros k' e' H. destruct (put_in _ _ _ _ _ H) as [->|H']; [lia | eauto].
Qed.

Lemma del_sorted k l : keys_sorted l -> keys_sorted (sv_del k l).
Proof.
  induction l as [|[k0 e0] r IH]; cbn; [auto|]. intros [H1 H2].
  destruct (k =? k0); [apply IH; exact H2|]. cbn. split; [|apply IH; exact H2].
  intros k' e' H. apply del_in in H. eauto.
Qed.

Lemma get_in l k e : sv_get k l = Some e -> In (k, e) l.
Proof.
  induction l as [|[k0 e0] r IH]; cbn; [discriminate|].
  destruct (Z.eqb_spec k k0) as [->|Hk]; intros H; [inversion H; auto | auto].
Qed.

Lemma sorted_head_absent k r : (forall k' e', In (k', e') r -> k < k') -> sv_get k r = None.
Proof.
  intros H. destruct (sv_get k r) eqn:E; [|reflexivity]. apply get_in in E. specialize (H _ _ E). lia.
Qed.

Lemma sorted_in_get l : keys_sorted l -> forall k e, In (k, e) l -> sv_get k l = Some e.
Proof.
  induction l as [|[k0 e0] r IH]; cbn; [intros _ ? ? []|]. intros [H1 H2] k e [H|H].
  - inversion H; subst. rewrite Z.eqb_refl. reflexivity.
  - destruct (Z.eqb_spec k k0) as [->|Hk]; [specialize (H1 _ _ H); lia | apply IH; assumption].
Qed.


Lemma repair_text e : e_text (repair e) = e_text e.
Proof. unfold repair. destruct (is_gcw (e_text e) && negb (e_exp e =? maxI64)); reflexivity. Qed.
Lemma repair_sp e : e_sp (repair e) = e_sp e.
Proof. unfold repair. destruct (is_gcw (e_text e) && negb (e_exp e =? maxI64)); reflexivity. Qed.
Lemma repair_not_gcw e : is_gcw (e_text e) = false -> repair e = e.
Proof. unfold repair. intros ->. reflexivity. Qed.
Lemma repair_gcw_exp e : is_gcw (e_text e) = true -> e_exp (repair e) = maxI64.
Proof.
  unfold repair. intros ->. cbn. destruct (Z.eqb_spec (e_exp e) maxI64); cbn; [assumption|reflexivity].
Qed.

Lemma is_gcw_true t : is_gcw t = true <-> t = TGcw.
Proof. destruct t; cbn; split; intros; try discriminate; reflexivity. Qed.

(* after the scan every scanned key holds `eff now` of its entry (gone if expired, repaired if gc_worker's), other keys are
   untouched *)
Lemma scan_store now : forall es st has mn st' has' mn',
  keys_sorted es ->
  (forall k e, In (k, e) es -> e_text e = TGcw -> k = 0) ->
  (forall k e, In (k, e) es -> sv_get k (svcs st) = Some e) ->
  scan now es st has mn = (st', has', mn') ->
  forall k, sv_get k (svcs st') = match sv_get k es with Some e => eff now e | None => sv_get k (svcs st) end.
Proof.
  induction es as [|[k0 e0] r IH]; intros st has mn st' has' mn' Hs Hg Hin H k.
  - cbn in H. inversion H; subst. reflexivity.
  - rewrite scan_cons in H. cbn zeta in H. destruct Hs as [Hs1 Hs2].
    assert (Hk0 : is_gcw (e_text e0) && negb (e_exp e0 =? maxI64) = true -> k0 = 0).
    { intros Hf. apply andb_true_iff in Hf as [Hf _]. apply is_gcw_true in Hf. eapply Hg; [left; reflexivity|exact Hf]. }
    set (st1 := if is_gcw (e_text e0) && negb (e_exp e0 =? maxI64) then st_save (KSvc 0) (repair e0) st else st) in *.
    assert (Hst1 : forall k', k' <> k0 -> sv_get k' (svcs st1) = sv_get k' (svcs st)).
    { intros k' Hne. unfold st1. destruct (is_gcw (e_text e0) && negb (e_exp e0 =? maxI64)) eqn:Ef; [|reflexivity].
      cbn. rewrite get_put, <- (Hk0 eq_refl). destruct (Z.eqb_spec k' k0); [contradiction|reflexivity]. }
    assert (Hst1k : sv_get k0 (svcs st1) = Some (repair e0)).
    { unfold st1, repair. destruct (is_gcw (e_text e0) && negb (e_exp e0 =? maxI64)) eqn:Ef.
      - cbn. rewrite (Hk0 eq_refl), get_put. reflexivity.
      - apply Hin. left; reflexivity. }
    assert (Hr : forall k' e', In (k', e') r -> k' <> k0) by (intros k' e' Hi; specialize (Hs1 _ _ Hi); lia).
    cbn [sv_get].
    destruct (e_exp (repair e0) <? now) eqn:Eexp.
    + assert (Hin2 : forall k' e', In (k', e') r -> sv_get k' (svcs (st_remove (KSvc k0) st1)) = Some e').
      { intros k' e' Hi. cbn. rewrite get_del. destruct (Z.eqb_spec k' k0) as [E|_]; [destruct (Hr _ _ Hi E)|].
        rewrite Hst1; [|eapply Hr; eauto]. apply Hin. right; exact Hi. }
      rewrite (IH _ _ _ _ _ _ Hs2 (fun k e Hi => Hg k e (or_intror Hi)) Hin2 H k).
      destruct (Z.eqb_spec k k0) as [->|Hk].
      * rewrite (sorted_head_absent _ _ Hs1). unfold eff. rewrite Eexp. cbn. rewrite get_del, Z.eqb_refl. reflexivity.
      * destruct (sv_get k r); [reflexivity|]. cbn. rewrite get_del. destruct (Z.eqb_spec k k0); [contradiction|apply Hst1; exact Hk].
    + assert (Hin2 : forall k' e', In (k', e') r -> sv_get k' (svcs st1) = Some e').
      { intros k' e' Hi. rewrite Hst1; [|eapply Hr; eauto]. apply Hin. right; exact Hi. }
      rewrite (IH _ _ _ _ _ _ Hs2 (fun k e Hi => Hg k e (or_intror Hi)) Hin2 H k).
      destruct (Z.eqb_spec k k0) as [->|Hk].
      * rewrite (sorted_head_absent _ _ Hs1). unfold eff. rewrite Eexp. exact Hst1k.
      * destruct (sv_get k r); [reflexivity|]. apply Hst1; exact Hk.
Qed.

Lemma scan_sorted now : forall es st has mn,
  keys_sorted (svcs st) -> keys_sorted (svcs (fst (fst (scan now es st has mn)))).
Proof.
  induction es as [|[k0 e0] r IH]; intros st has mn Hs; [exact Hs|].
  rewrite scan_cons. cbn zeta.
  set (st1 := if is_gcw (e_text e0) && negb (e_exp e0 =? maxI64) then st_save (KSvc 0) (repair e0) st else st).
  assert (H1 : keys_sorted (svcs st1)).
  { unfold st1. destruct (is_gcw (e_text e0) && negb (e_exp e0 =? maxI64)); [cbn; apply put_sorted|]; exact Hs. }
  destruct (e_exp (repair e0) <? now); apply IH; [cbn; apply del_sorted|]; exact H1.
Qed.

(* has' = has || some entry is gc_worker's; mn' = the entry of least safe point among those that survive, if below mn *)
Lemma scan_acc now : forall es st has mn st' has' mn',
  scan now es st has mn = (st', has', mn') ->
  has' = has || existsb (fun x => is_gcw (e_text (snd x))) es
  /\ min_sp mn' <= min_sp mn
  /\ (forall k e e1, In (k, e) es -> eff now e = Some e1 -> min_sp mn' <= e_sp e1)
  /\ (mn' = mn \/ exists k e e1, In (k, e) es /\ eff now e = Some e1 /\ mn' = Some e1).
Proof.
  induction es as [|[k0 e0] r IH]; intros st has mn st' has' mn' H.
  - cbn in H. inversion H; subst. rewrite orb_false_r. repeat split; [lia | intros ? ? ? [] | left; reflexivity].
  - rewrite scan_cons in H. cbn zeta in H. cbn [existsb snd].
    destruct (e_exp (repair e0) <? now) eqn:Eexp.
    + destruct (IH _ _ _ _ _ _ H) as (Hh & Hm & Hall & Hw). rewrite orb_assoc. split; [exact Hh|]. split; [exact Hm|]. split.
      * intros k e e1 [Hi|Hi] He; [inversion Hi; subst; unfold eff in He; rewrite Eexp in He; discriminate | eapply Hall; eauto].
      * destruct Hw as [Hw|(k & e & e1 & Hi & He & Hw)]; [left; exact Hw|right; exists k, e, e1; split; [right; exact Hi|split; assumption]].
    + destruct (IH _ _ _ _ _ _ H) as (Hh & Hm & Hall & Hw). rewrite orb_assoc. split; [exact Hh|].
      assert (Hstep : min_sp (if e_sp (repair e0) <? min_sp mn then Some (repair e0) else mn) <= min_sp mn
                      /\ min_sp (if e_sp (repair e0) <? min_sp mn then Some (repair e0) else mn) <= e_sp (repair e0)).
      { destruct (e_sp (repair e0) <? min_sp mn) eqn:E; [apply Z.ltb_lt in E; cbn; lia | apply Z.ltb_ge in E; lia]. }
      split; [lia|]. split.
      * intros k e e1 [Hi|Hi] He; [inversion Hi; subst; unfold eff in He; rewrite Eexp in He; inversion He; subst; lia | eapply Hall; eauto].
      * destruct Hw as [Hw|(k & e & e1 & Hi & He & Hw)]; [|right; exists k, e, e1; split; [right; exact Hi|split; assumption]].
        destruct (e_sp (repair e0) <? min_sp mn); [|left; exact Hw].
        right. exists k0, e0, (repair e0). unfold eff. rewrite Eexp. split; [left; reflexivity|split; [reflexivity|exact Hw]].
Qed.

Definition wf_svcs (l : list (Z * entry)) : Prop :=
  keys_sorted l /\ forall k e, sv_get k l = Some e -> (e_text e = TGcw -> k = 0) /\ 0 <= e_sp e.

(* gc_worker's own entry exists and never expires *)
Definition gcw_ok (l : list (Z * entry)) : Prop :=
  exists g, sv_get 0 l = Some g /\ e_text g = TGcw /\ e_exp g = maxI64.

Definition prune1 (now : Z) (o : option entry) : option entry :=
  match o with Some e => if e_exp e <? now then None else Some e | None => None end.

Record lm_post (now : Z) (st st' : store) (m : entry) : Prop := {
  lm_wf   : wf_svcs (svcs st');
  lm_live : forall k e, sv_get k (svcs st') = Some e -> now <= e_exp e;
  lm_min  : forall k e, sv_get k (svcs st') = Some e -> e_sp m <= e_sp e;
  lm_min_pre : forall k e e1, sv_get k (svcs st) = Some e -> eff now e = Some e1 -> e_sp m <= e_sp e1;
  lm_gcw  : gcw_ok (svcs st');
  lm_keep : forall k, k <> 0 -> sv_get k (svcs st') = prune1 now (sv_get k (svcs st))
}.

Lemma eff_live now e e1 : eff now e = Some e1 -> now <= e_exp e1 /\ e1 = repair e.
Proof.
  unfold eff. destruct (e_exp (repair e) <? now) eqn:E; [discriminate|]. intros H; inversion H; subst.
  apply Z.ltb_ge in E. auto.
Qed.

Lemma init_gcw_post now st v :
  wf_svcs (svcs st) -> now <= maxI64 -> 0 <= v ->
  (forall k e, sv_get k (svcs st) = Some e -> now <= e_exp e) ->
  (forall k e, sv_get k (svcs st) = Some e -> v <= e_sp e) ->
  let st' := fst (init_gcw v st) in
  gc st' = gc st /\ wf_svcs (svcs st') /\
  (forall k e, sv_get k (svcs st') = Some e -> now <= e_exp e) /\
  (forall k e, sv_get k (svcs st') = Some e -> v <= e_sp e) /\
  gcw_ok (svcs st') /\ (forall k, k <> 0 -> sv_get k (svcs st') = sv_get k (svcs st)).
Proof.
  intros [Hs Hw] Hnow Hv Hlive Hmin. cbn.
  assert (Hget : forall k e, sv_get k (sv_put 0 (Entry TGcw maxI64 v) (svcs st)) = Some e ->
                   (k = 0 /\ e = Entry TGcw maxI64 v) \/ (k <> 0 /\ sv_get k (svcs st) = Some e)).
  { intros k e. rewrite get_put. destruct (Z.eqb_spec k 0) as [->|Hk]; [intros H; inversion H|]; auto. }
  split; [reflexivity|]. split; [split; [apply put_sorted; exact Hs|]|].
  - intros k e H. destruct (Hget _ _ H) as [[-> ->]|[Hk H']]; [cbn; split; [reflexivity|exact Hv] | apply Hw; exact H'].
  - split; [|split; [|split]].
    + intros k e H. destruct (Hget _ _ H) as [[-> ->]|[Hk H']]; [exact Hnow | eapply Hlive; eauto].
    + intros k e H. destruct (Hget _ _ H) as [[-> ->]|[Hk H']]; [cbn; lia | eapply Hmin; eauto].
    + exists (Entry TGcw maxI64 v). rewrite get_put. auto.
    + intros k Hk. rewrite get_put. destruct (Z.eqb_spec k 0); [contradiction|reflexivity].
Qed.

Lemma load_min_post now st st' m :
  wf_svcs (svcs st) -> now <= maxI64 -> load_min now st = (st', m) -> lm_post now st st' m.
Proof.
  intros [Hs Hw] Hnow H. unfold load_min in H.
  destruct (svcs st) as [|x r] eqn:Ees.
  - (* no entries at all *)
    assert (Hwf : wf_svcs (svcs st)) by (rewrite Ees; split; [exact I | intros ? ? Hd; discriminate Hd]).
    destruct (init_gcw_post now st 0 Hwf Hnow (Z.le_refl 0)) as (H1 & H2 & H3 & H4 & H5 & H6);
      try (rewrite Ees; intros ? ? Hd; discriminate Hd).
    inversion H; subst. constructor; auto.
    + intros k e e1 Hd. rewrite Ees in Hd. discriminate Hd.
    + intros k Hk. rewrite H6 by exact Hk. rewrite Ees. reflexivity.
  - rewrite <- Ees in *.
    destruct (scan now (svcs st) st false None) as [[st1 has] mn] eqn:Escan.
    assert (Hget : forall k, sv_get k (svcs st1) = match sv_get k (svcs st) with Some e => eff now e | None => None end).
    { intros k.
      assert (Ha : forall k0 e, In (k0, e) (svcs st) -> e_text e = TGcw -> k0 = 0).
      { intros k0 e Hi Ht. apply (sorted_in_get _ Hs) in Hi. apply (Hw _ _ Hi). exact Ht. }
      assert (Hb : forall k0 e, In (k0, e) (svcs st) -> sv_get k0 (svcs st) = Some e).
      { intros k0 e Hi. apply sorted_in_get; assumption. }
      rewrite (scan_store now _ _ _ _ _ _ _ Hs Ha Hb Escan k).
      destruct (sv_get k (svcs st)); reflexivity. }
    assert (Hfrom : forall k e1, sv_get k (svcs st1) = Some e1 -> exists e, sv_get k (svcs st) = Some e /\ eff now e = Some e1).
    { intros k e1 Hg. rewrite Hget in Hg. destruct (sv_get k (svcs st)) as [e|]; [exists e; auto|discriminate]. }
    destruct (scan_acc now _ _ _ _ _ _ _ Escan) as (Hhas & _ & Hall & Hwit).
    pose proof (scan_sorted now (svcs st) st false None Hs) as Hsort. rewrite Escan in Hsort. cbn [fst] in Hsort.
    assert (Hwf1 : wf_svcs (svcs st1)).
    { split; [exact Hsort|]. intros k e1 Hg. destruct (Hfrom _ _ Hg) as (e & He & Heff).
      apply eff_live in Heff as [_ ->]. rewrite repair_text, repair_sp. apply Hw; exact He. }
    assert (Hlive1 : forall k e1, sv_get k (svcs st1) = Some e1 -> now <= e_exp e1).
    { intros k e1 Hg. destruct (Hfrom _ _ Hg) as (e & He & Heff). apply eff_live in Heff as [Hl _]. exact Hl. }
    assert (Hmin1 : forall k e1, sv_get k (svcs st1) = Some e1 -> min_sp mn <= e_sp e1).
    { intros k e1 Hg. destruct (Hfrom _ _ Hg) as (e & He & Heff). eapply Hall; [apply get_in; exact He|exact Heff]. }
    assert (Hpre : forall k e e1, sv_get k (svcs st) = Some e -> eff now e = Some e1 -> min_sp mn <= e_sp e1).
    { intros k e e1 He Heff. eapply Hall; [apply get_in; exact He|exact Heff]. }
    assert (Hkeep1 : forall k, k <> 0 -> sv_get k (svcs st1) = prune1 now (sv_get k (svcs st))).
    { intros k Hk. rewrite Hget. destruct (sv_get k (svcs st)) as [e|] eqn:He; [|reflexivity]. cbn.
      assert (Hng : is_gcw (e_text e) = false).
      { destruct (is_gcw (e_text e)) eqn:Eg; [|reflexivity]. apply is_gcw_true in Eg. destruct (Hw _ _ He) as [H0 _]. specialize (H0 Eg). contradiction. }
      unfold eff. rewrite (repair_not_gcw _ Hng). reflexivity. }
    assert (Hmpos : forall m0, mn = Some m0 -> 0 <= e_sp m0).
    { intros m0 ->. destruct Hwit as [Hd|(k & e & e1 & Hi & Heff & Hd)]; [discriminate|]. inversion Hd; subst.
      apply eff_live in Heff as [_ ->]. rewrite repair_sp. apply (sorted_in_get _ Hs) in Hi. apply (Hw _ _ Hi). }
    destruct mn as [m0|].
    + destruct has.
      * (* gc_worker present: the minimum of the live entries *)
        inversion H; subst. constructor; auto.
        cbn [orb] in Hhas. symmetry in Hhas. apply existsb_exists in Hhas as ([k e] & Hi & Hg). cbn in Hg.
        pose proof Hg as Hg'. apply is_gcw_true in Hg'. apply (sorted_in_get _ Hs) in Hi.
        destruct (Hw _ _ Hi) as [H0 _]. specialize (H0 Hg'). subst k.
        exists (repair e). rewrite Hget, Hi. unfold eff. rewrite (repair_gcw_exp _ Hg).
        destruct (Z.ltb_spec maxI64 now); [lia|]. rewrite repair_text. auto.
      * (* some entries but no gc_worker: create it at the minimum *)
        destruct (init_gcw_post now st1 (e_sp m0) Hwf1 Hnow (Hmpos _ eq_refl) Hlive1 Hmin1) as (H1 & H2 & H3 & H4 & H5 & H6).
        inversion H; subst. cbn [fst init_gcw] in *.
        constructor; [exact H2 | exact H3 | exact H4 | exact Hpre | exact H5 |].
        intros k Hk. rewrite H6 by exact Hk. apply Hkeep1; exact Hk.
    + (* every live safe point is MaxUint64 (or nothing is live): gc_worker := 0 *)
      assert (Hmin0 : forall k e1, sv_get k (svcs st1) = Some e1 -> 0 <= e_sp e1) by (intros k e1 Hg; apply (proj2 Hwf1 _ _ Hg)).
      destruct (init_gcw_post now st1 0 Hwf1 Hnow (Z.le_refl 0) Hlive1 Hmin0) as (H1 & H2 & H3 & H4 & H5 & H6).
      inversion H; subst. cbn [fst init_gcw] in *.
      constructor; [exact H2 | exact H3 | exact H4 | | exact H5 |].
      * intros k e e1 He Heff. cbn. apply eff_live in Heff as [_ ->]. rewrite repair_sp. apply (Hw _ _ He).
      * intros k Hk. rewrite H6 by exact Hk. apply Hkeep1; exact Hk.
Qed.

Lemma svc_update_cases st i ttl sp now st' r :
  svc_update st i ttl sp now = (st', Some r) ->
  exists st0 st1 mn,
    (if ttl <=? 0 then remove_service i st else Some st) = Some st0 /\ load_min now st0 = (st1, mn) /\
    ( ((0 <? ttl) && (e_sp mn <=? sp) = false /\ st' = st1 /\ r = resp_of mn now)
      \/ ((0 <? ttl) && (e_sp mn <=? sp) = true /\
          exists st2, save_service i (Entry (text_of i) (exp_of now ttl) sp) st1 = Some st2 /\
            ( (text_eqb (text_of i) (e_text mn) = false /\ st' = st2 /\ r = resp_of mn now)
              \/ (text_eqb (text_of i) (e_text mn) = true /\ exists mn', load_min now st2 = (st', mn') /\ r = resp_of mn' now)))).
Proof.
  unfold svc_update, exp_of. intros H.
  destruct (if ttl <=? 0 then remove_service i st else Some st) as [st0|]; [|inversion H].
  destruct (load_min now st0) as [st1 mn] eqn:E1. exists st0, st1, mn. split; [reflexivity|]. split; [exact E1|].
  destruct ((0 <? ttl) && (e_sp mn <=? sp)) eqn:Eg.
  - right. split; [reflexivity|].
    destruct (save_service _ _ st1) as [st2|] eqn:Es; [|inversion H]. exists st2. split; [reflexivity|].
    destruct (text_eqb (text_of i) (e_text mn)) eqn:Et.
    + right. split; [reflexivity|]. destruct (load_min now st2) as [st3 mn'] eqn:E2. inversion H; subst. exists mn'. split; reflexivity.
    + left. inversion H; subst. auto.
  - left. inversion H; subst. auto.
Qed.

Lemma wf_remove k st : wf_svcs (svcs st) -> wf_svcs (svcs (st_remove k st)).
Proof.
  intros [Hs Hw]. destruct k as [|n|]; cbn; [split; assumption| |split; assumption].
  split; [apply del_sorted; exact Hs|]. intros k e H. rewrite get_del in H.
  destruct (k =? n); [discriminate|apply Hw; exact H].
Qed.

Lemma wf_save k e st :
  wf_svcs (svcs st) -> 0 <= e_sp e -> (forall n, k = KSvc n -> e_text e = TGcw -> n = 0) ->
  wf_svcs (svcs (st_save k e st)).
Proof.
  intros [Hs Hw] Hsp Hk. destruct k as [|n|]; cbn; [split; assumption| |split; assumption].
  split; [apply put_sorted; exact Hs|]. intros k e' H. rewrite get_put in H.
  destruct (Z.eqb_spec k n) as [->|]; [|apply Hw; exact H]. inversion H; subst. split; [apply Hk; reflexivity|exact Hsp].
Qed.

Lemma key_text_ok i n : key_of i = KSvc n -> text_of i = TGcw -> n = 0.
Proof. destruct i; cbn; intros H1 H2; try discriminate. inversion H1; reflexivity. Qed.

Lemma pre_remove_wf st i ttl st0 :
  wf_svcs (svcs st) -> (if ttl <=? 0 then remove_service i st else Some st) = Some st0 -> wf_svcs (svcs st0).
Proof.
  intros Hwf H. destruct (ttl <=? 0); [|inversion H; subst; exact Hwf].
  apply remove_service_spec in H as (-> & _). apply wf_remove; exact Hwf.
Qed.

Lemma exp_of_live now ttl : 0 < ttl -> now <= maxI64 -> now <= exp_of now ttl.
Proof. intros H1 H2. unfold exp_of. destruct (maxI64 - now <=? ttl); lia. Qed.

Lemma get_save k e st x :
  sv_get x (svcs (st_save k e st)) = match k with KSvc n => if x =? n then Some e else sv_get x (svcs st) | _ => sv_get x (svcs st) end.
Proof. destruct k as [|n|]; cbn; [reflexivity|apply get_put|reflexivity]. Qed.
Lemma get_remove k st x :
  sv_get x (svcs (st_remove k st)) = match k with KSvc n => if x =? n then None else sv_get x (svcs st) | _ => sv_get x (svcs st) end.
Proof. destruct k as [|n|]; cbn; [reflexivity|apply get_del|reflexivity]. Qed.

(* the ids that pass checkServiceID: gc_worker's own id is the only one that lands on gc_worker's key *)
Lemma clean_key i : is_clean i = true ->
  match key_of i with KSvc n => n = 0 <-> text_of i = TGcw | KOther => i = IEmpty | KGc => False end.
Proof.
  destruct i as [| |z [|n|]]; cbn; try discriminate; try tauto. intros H.
  apply andb_true_iff in H as [Hz Hnz]. apply Z.eqb_eq in Hz. apply negb_true_iff, Z.eqb_neq in Hnz. subst n.
  split; [contradiction|discriminate].
Qed.

Lemma gcw_st_remove k st : k <> KSvc 0 -> gcw_ok (svcs st) -> gcw_ok (svcs (st_remove k st)).
Proof.
  intros Hk Hg. destruct k as [|n|]; cbn; try exact Hg. destruct Hg as (g & Hg0 & Hg1). exists g.
  rewrite get_del. destruct (Z.eqb_spec 0 n); [congruence|auto].
Qed.

Lemma gcw_remove i st st0 : remove_service i st = Some st0 -> gcw_ok (svcs st) -> gcw_ok (svcs st0).
Proof.
  intros H. apply remove_service_spec in H as (-> & Hc & Hnt). apply gcw_st_remove. intros Hk.
  pose proof (clean_key i Hc) as Hi. rewrite Hk in Hi. apply Hnt, Hi. reflexivity.
Qed.

Lemma gcw_save i e st : is_clean i = true -> e_text e = text_of i -> (e_text e = TGcw -> e_exp e = maxI64) ->
  gcw_ok (svcs st) -> gcw_ok (svcs (st_save (key_of i) e st)).
Proof.
  intros Hc Ht Hinf (g & Hg0 & Hg1). unfold gcw_ok. rewrite get_save. pose proof (clean_key i Hc) as Hi.
  destruct (key_of i) as [|n|]; try (exists g; auto; fail).
  destruct (Z.eqb_spec 0 n) as [<-|Hn]; [|exists g; auto].
  assert (e_text e = TGcw) by (rewrite Ht; apply Hi; reflexivity). exists e. auto.
Qed.

Section SvcPost.
  Variables (st : store) (i : sid) (ttl sp now : Z) (st' : store) (r : resp).
  Hypothesis Hwf : wf_svcs (svcs st).
  Hypothesis Hsp : 0 <= sp.
  Hypothesis Hnow : now <= maxI64.
  Hypothesis Hrun : svc_update st i ttl sp now = (st', Some r).

  Lemma below_min_not_recorded n :
    key_of i = KSvc n -> 0 < ttl -> sp < r_sp r ->
    st' = fst (load_min now st) /\ r = resp_of (snd (load_min now st)) now.
  Proof.
    intros Hkey Httl Hlt.
    destruct (svc_update_cases _ _ _ _ _ _ _ Hrun) as (st0 & st1 & mn & H0 & H1 & Hc).
    assert (st0 = st) as -> by (destruct (Z.leb_spec ttl 0); [lia | inversion H0; reflexivity]).
    pose proof (load_min_post _ _ _ _ Hwf Hnow H1) as P1. rewrite H1. cbn [fst snd].
    destruct Hc as [(Eg & -> & ->)|(Eg & st2 & Es & Hc)]; [auto|]. exfalso.
    apply andb_true_iff in Eg as [_ Ele]. apply Z.leb_le in Ele.
    apply save_service_spec in Es as (-> & Hinf & Hok).
    destruct Hc as [(Et & -> & ->)|(Et & mn' & H2 & ->)]; [cbn in Hlt; lia|].
    assert (Hwf2 : wf_svcs (svcs (st_save (key_of i) (Entry (text_of i) (exp_of now ttl) sp) st1))).
    { apply wf_save; [apply (lm_wf _ _ _ _ P1) | exact Hsp | intros n0 Hk Ht; eapply key_text_ok; eauto]. }
    pose proof (load_min_post _ _ _ _ Hwf2 Hnow H2) as P2. cbn in Hlt.
    (* the request's own entry is live in the snapshot of the second LoadMin *)
    set (E := Entry (text_of i) (exp_of now ttl) sp) in *.
    assert (HE : sv_get n (svcs (st_save (key_of i) E st1)) = Some E) by (rewrite get_save, Hkey, Z.eqb_refl; reflexivity).
    assert (Hrep : repair E = E).
    { unfold repair. destruct (is_gcw (e_text E)) eqn:Eg; [|reflexivity].
      apply is_gcw_true in Eg. rewrite (Hinf Eg), Z.eqb_refl. reflexivity. }
    assert (Heff : eff now E = Some E).
    { unfold eff. rewrite Hrep. pose proof (exp_of_live now ttl Httl Hnow). destruct (Z.ltb_spec (e_exp E) now); [cbn in *; lia|reflexivity]. }
    pose proof (lm_min_pre _ _ _ _ P2 _ _ _ HE Heff) as Hle. cbn in Hle. lia.
  Qed.

  (* services other than gc_worker only: gc_worker's entry LoadMin may re-create *)
  Lemma acknowledged_is_recorded n :
    key_of i = KSvc n -> n <> 0 -> 0 < ttl -> r_sp r <= sp ->
    sv_get n (svcs st') = Some (Entry (text_of i) (exp_of now ttl) sp).
  Proof.
    intros Hkey Hn Httl Hle.
    destruct (svc_update_cases _ _ _ _ _ _ _ Hrun) as (st0 & st1 & mn & H0 & H1 & Hc).
    pose proof (load_min_post _ _ _ _ (pre_remove_wf _ _ _ _ Hwf H0) Hnow H1) as P1.
    destruct Hc as [(Eg & -> & ->)|(Eg & st2 & Es & Hc)].
    - exfalso. cbn in Hle. apply andb_false_iff in Eg as [Eg|Eg]; [apply Z.ltb_ge in Eg | apply Z.leb_gt in Eg]; lia.
    - apply save_service_spec in Es as (-> & Hinf & Hok).
      set (E := Entry (text_of i) (exp_of now ttl) sp) in *.
      assert (HE : sv_get n (svcs (st_save (key_of i) E st1)) = Some E) by (rewrite get_save, Hkey, Z.eqb_refl; reflexivity).
      destruct Hc as [(Et & -> & ->)|(Et & mn' & H2 & ->)]; [exact HE|].
      assert (Hwf2 : wf_svcs (svcs (st_save (key_of i) E st1))).
      { apply wf_save; [apply (lm_wf _ _ _ _ P1) | exact Hsp | intros n0 Hk Ht; eapply key_text_ok; eauto]. }
      pose proof (load_min_post _ _ _ _ Hwf2 Hnow H2) as P2.
      rewrite (lm_keep _ _ _ _ P2 _ Hn), HE. cbn [prune1].
      pose proof (exp_of_live now ttl Httl Hnow) as Hl. unfold E; cbn [e_exp].
      destruct (Z.ltb_spec (exp_of now ttl) now); [lia|reflexivity].
  Qed.

  Lemma nonpositive_ttl_removed n : key_of i = KSvc n -> n <> 0 -> ttl <= 0 -> sv_get n (svcs st') = None.
  Proof.
    intros Hkey Hn Httl.
    destruct (svc_update_cases _ _ _ _ _ _ _ Hrun) as (st0 & st1 & mn & H0 & H1 & Hc).
    pose proof (load_min_post _ _ _ _ (pre_remove_wf _ _ _ _ Hwf H0) Hnow H1) as P1.
    destruct (Z.leb_spec ttl 0); [|lia].
    destruct Hc as [(Eg & -> & ->)|(Eg & _)]; [|destruct (Z.ltb_spec 0 ttl); [lia|discriminate Eg]].
    rewrite (lm_keep _ _ _ _ P1 _ Hn).
    apply remove_service_spec in H0 as (-> & _). rewrite Hkey, get_remove, Z.eqb_refl. reflexivity.
  Qed.
End SvcPost.

(* the values a label carries are 64-bit quantities *)
Definition label_ok (l : label) : Prop :=
  match l with LSvc _ _ sp now => 0 <= sp /\ now <= maxI64 | LSeed _ _ sp => 0 <= sp | _ => True end.
(* no raw writes into storage behind the handlers' back *)
Definition no_seed (l : label) : Prop := match l with LSeed _ _ _ => False | _ => True end.
