(* C06 — the states reachable from the empty cluster. *)
From PDV Require Import lib.Base model.C07_Region proof.C07_RegionProof model.C06_Heartbeat
  proof.C06_HeartbeatProof proof.C06_Storage.
Local Open Scope Z_scope.

Definition reach (wb : bool) (ls : list hlabel) : hstate := exec hl_step (h_init wb) ls.

Lemma reach_inv wb ls : Inv (h_cache (reach wb ls)).
Proof. apply HInv_exec. Qed.

Lemma reach_HInv wb ls : HInv (reach wb ls).
Proof. apply HInv_exec. Qed.

Theorem c_storage_seq_load wb ops : Forall seq_op ops ->
  forall id x, load_region (h_store (seq_ops wb ops)) id = Some x -> get_region (h_cache (seq_ops wb ops)) id <> None.
Proof.
  intros F id x L. destruct (storage_subset_ops_pf wb ops F) as (_ & _ & (_ & S)). apply S. eapply load_held; eauto.
Qed.
