(* C15 — UpdateServiceGCSafePoint with REST deletes slipping into its locked section and with a failing /
   half-failing save (model: svc_update_il): on top of what holds under every fault (proof/C15_GcLoadMinX.v) nothing expired
   is left.  The plain call is the instance into which nothing slips; what the labels of a history do to the store. *)
From Coq Require Import String.
From PDV Require Import lib.Base lib.Skel lib.C15_Guard gen.Gen_C15 model.C15_Gc proof.C15_GcProof proof.C15_GcLoadMinX.
Local Open Scope Z_scope.

Definition all_live (now : Z) (st : store) : Prop := forall k e, sv_get k (svcs st) = Some e -> now <= e_exp e.

Lemma svc_tail_live st1 mn i ttl sp now d o :
  wf_svcs (svcs st1) -> 0 <= sp -> now <= maxI64 -> all_live now st1 -> all_live now (fst (svc_tail st1 mn i ttl sp now d o)).
Proof.
  intros Hwf Hsp Hnow L1. unfold svc_tail.
  destruct ((0 <? ttl) && (e_sp mn <=? sp)) eqn:Eg; [|exact L1].
  apply andb_true_iff in Eg as [Et _]. apply Z.ltb_lt in Et.
  destruct (save_service i _ st1) as [stx|] eqn:Es; [|exact L1]. clear Es.
  assert (L1' : all_live now (rest_dels d st1)) by (intros k e H; apply rest_dels_sub in H; exact (L1 k e H)).
  assert (L2 : all_live now (st_save (key_of i) (Entry (text_of i) (exp_of now ttl) sp) (rest_dels d st1))).
  { intros k e H. rewrite get_save in H. destruct (key_of i) as [|n|]; try exact (L1' k e H).
    destruct (Z.eqb_spec k n); [inv H; apply exp_of_live; assumption|exact (L1' k e H)]. }
  destruct o; cbn [fst]; [|exact L1'|exact L2].
  destruct (text_eqb (text_of i) (e_text mn)); [|exact L2].
  match goal with |- context [load_min now ?y] => destruct (load_min now y) as [st3 mn'] eqn:E3 end. cbn [fst].
  assert (Hwf2 : wf_svcs (svcs (st_save (key_of i) (Entry (text_of i) (exp_of now ttl) sp) (rest_dels d st1)))).
  { apply wf_save; [apply rest_dels_wf; exact Hwf|exact Hsp|intros n Hk Ht; eapply key_text_ok; eauto]. }
  exact (lm_live _ _ _ _ (load_min_post _ _ _ _ Hwf2 Hnow E3)).
Qed.

Lemma il_post st i ttl sp now d o :
  wf_svcs (svcs st) -> 0 <= sp -> now <= maxI64 ->
  let res := svc_update_il st i ttl sp now d o in
  wf_svcs (svcs (fst res)) /\ (gcw_ok (svcs st) -> gcw_ok (svcs (fst res))) /\
  forall r, snd res = Some r -> gcw_ok (svcs (fst res)) /\ lower_bound now (r_sp r) (fst res) /\ all_live now (fst res).
Proof.
  intros Hwf Hsp Hnow. cbv zeta. rewrite svc_update_il_eq.
  destruct (if ttl <=? 0 then remove_service i st else Some st) as [st0|] eqn:E0;
    [|cbn [fst snd]; split; [exact Hwf|split; [auto|intros r Hr; discriminate]]].
  destruct (load_min now st0) as [st1 mn] eqn:E1.
  pose proof (load_min_post _ _ _ _ (pre_remove_wf _ _ _ _ Hwf E0) Hnow E1) as P.
  destruct (svc_tail_sound st1 mn i ttl sp now d o (sound_load_min _ _ _ _ (pre_remove_wf _ _ _ _ Hwf E0) Hnow E1) Hsp Hnow) as (A & B & C).
  split; [exact A|]. split; [intros _; exact B|]. intros r Hr. split; [exact B|]. split; [exact (C r Hr)|].
  apply svc_tail_live; [apply (lm_wf _ _ _ _ P)|exact Hsp|exact Hnow|exact (lm_live _ _ _ _ P)].
Qed.

Lemma svc_update_post st i ttl sp now st' r :
  wf_svcs (svcs st) -> 0 <= sp -> now <= maxI64 -> svc_update st i ttl sp now = (st', Some r) ->
  wf_svcs (svcs st') /\ gcw_ok (svcs st') /\ lower_bound now (r_sp r) st' /\ all_live now st'.
Proof.
  intros Hwf Hsp Hnow H. rewrite <- svc_update_il_plain in H.
  destruct (il_post st i ttl sp now [] Ok Hwf Hsp Hnow) as (A & _ & C). rewrite H in A, C. cbn [fst snd] in A, C.
  split; [exact A|exact (C r eq_refl)].
Qed.

Lemma step_svcs b c s l s' : step_gen b c s l = Some s' ->
  match l with
  | LSvc i ttl sp now => sto s' = fst (svc_update (sto s) i ttl sp now)
  | LApiDel i => sto s' = match remove_service i (sto s) with Some st => st | None => sto s end
  | LSeed i exp sp => sto s' = match key_of i with KSvc _ => st_save (key_of i) (Entry (text_of i) exp sp) (sto s) | _ => sto s end
  | _ => sto s' = sto s \/ exists g, sto s' = Store g (svcs (sto s))
  end.
Proof.
  intros H. destruct l as [t v|t o| |i ttl sp now|i|i exp sp]; cbn [step_gen] in H.
  - destruct (thr s t); [discriminate|]. destruct (b && negb (Nat.eqb (npend s) 0)); [discriminate|].
    destruct (gc_read (gc (sto s))); inv H; auto.
  - destruct (thr s t) as [p|]; [|discriminate].
    destruct (t_old p <? t_new p); [destruct (c && negb (cas_ok (gc (sto s)) (t_old p))); [|destruct o]|]; inv H; cbn; eauto.
  - destruct (gc_read (gc (sto s))); inv H; auto.
  - inv H. reflexivity.
  - destruct (remove_service i (sto s)); inv H; reflexivity.
  - destruct (key_of i); inv H; reflexivity.
Qed.

Lemma store_step b c s l s' :
  wf_svcs (svcs (sto s)) -> label_ok l -> step_gen b c s l = Some s' ->
  wf_svcs (svcs (sto s')) /\ (no_seed l -> gcw_ok (svcs (sto s)) -> gcw_ok (svcs (sto s'))).
Proof.
  intros Hwf Hok H. apply step_svcs in H.
  destruct l as [t v|t o| |i ttl sp now|i|i exp sp]; try (destruct H as [-> |[g ->]]; cbn; auto; fail); rewrite H; clear H.
  - destruct Hok as [Hsp Hnow]. rewrite <- svc_update_il_plain.
    destruct (il_post (sto s) i ttl sp now [] Ok Hwf Hsp Hnow) as (A & B & _). auto.
  - destruct (remove_service i (sto s)) as [st|] eqn:E; [|auto]. split; [|intros _; eapply gcw_remove; eauto].
    apply remove_service_spec in E as (-> & _). apply wf_remove. exact Hwf.
  - split; [|intros []]. destruct (key_of i) as [|n|] eqn:Ek; try exact Hwf.
    apply wf_save; [exact Hwf|exact Hok|]. intros n0 Hk Ht. inv Hk. eapply key_text_ok; eauto.
Qed.

Lemma wf_init : wf_svcs (svcs (sto init)).
Proof. split; [exact I|]. intros k e H. discriminate H. Qed.

Lemma wf_exec b c ls s : wf_svcs (svcs (sto s)) -> Forall label_ok ls -> wf_svcs (svcs (sto (exec (step_gen b c) s ls))).
Proof.
  apply (invariant_Forall (step_gen b c) (fun s => wf_svcs (svcs (sto s))) label_ok).
  intros s0 l s' Hwf Hok H. exact (proj1 (store_step b c s0 l s' Hwf Hok H)).
Qed.

Lemma gcw_stays b c ls s :
  wf_svcs (svcs (sto s)) -> gcw_ok (svcs (sto s)) -> Forall (fun l => label_ok l /\ no_seed l) ls ->
  gcw_ok (svcs (sto (exec (step_gen b c) s ls))).
Proof.
  intros Hwf Hg Hall.
  apply (invariant_Forall (step_gen b c) (fun s => wf_svcs (svcs (sto s)) /\ gcw_ok (svcs (sto s)))
           (fun l => label_ok l /\ no_seed l)) with (ls := ls) (s := s);
    [|split; assumption|exact Hall].
  intros s0 l s' [W G0] [Hok Hns] H. destruct (store_step b c s0 l s' W Hok H) as [A B]. split; [exact A|exact (B Hns G0)].
Qed.
