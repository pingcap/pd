(* C13 — proofs over histories of model/C13_Rules.v: what the patch of an update can
   contain [make_patch_ind]; configurations and patches are sorted maps of valid contents under their own
   keys; retrying a failed update converges [retry_converges_from]; the committed configuration is the
   validated view [committed_get_view]; a restarted RuleManager is the one that is serving [in_sync_reload]. *)
From Coq Require Import Sorting.Sorted.
From PDV Require Import lib.Base lib.C12_Order lib.C13_Map gen.Gen_C13 model.C13_Rules
  proof.C13_RulesProof proof.C13_UpdateProof.
Local Open Scope list_scope.

Notation psorted := (asorted pair_cmp).
Notation gsorted := (asorted key_cmp).

Lemma gsorted_ksorted {V} (m : list (id * V)) : gsorted m <-> ksorted m.
Proof. split; intros H; exact H. Qed.

Definition role_ok (r : rule) : bool :=
  match r_role r with
  | BadRole => false
  | Leader => negb (r_count r <=? 0)%Z && negb (r_count r >? 1)%Z
  | _ => negb (r_count r <=? 0)%Z
  end.
Definition content_ok (r : rule) : bool :=
  r_wellformed r && negb (negb (is_nil (r_end r)) && negb (key_gtb (r_end r) (r_start r)))
  && negb (is_nil (r_gid r) || is_nil (r_id r)) && role_ok r.

Lemma adjust_rule_none_spec r : adjust_rule r None = if content_ok r then Some r else None.
Proof.
  unfold adjust_rule, content_ok, role_ok. destruct r as [gid rid idx ov st en ro cnt ver wf grp]. cbn.
  destruct wf; cbn; [|reflexivity].
  destruct (negb (is_nil en) && negb (key_gtb en st)); cbn; [reflexivity|].
  destruct (is_nil gid || is_nil rid); cbn; [reflexivity|].
  destruct ro; cbn; try reflexivity; destruct (cnt <=? 0)%Z; cbn; try reflexivity.
  destruct (cnt >? 1)%Z; reflexivity.
Qed.

(* a bundle's group id: taken over by a rule without one, otherwise it must be the rule's own *)
Lemma adjust_rule_some_spec r g :
  adjust_rule r (Some g) =
  if is_nil g then adjust_rule r None
  else if is_nil (r_gid r) then adjust_rule (set_gid r g) None
  else if key_eqb g (r_gid r) then adjust_rule r None else None.
Proof.
  unfold adjust_rule.
  assert (E : r_wellformed (set_gid r g) = r_wellformed r /\ r_end (set_gid r g) = r_end r /\ r_start (set_gid r g) = r_start r)
    by (destruct r; cbn; auto).
  destruct E as (E1 & E2 & E3). rewrite E1, E2, E3.
  destruct (negb (r_wellformed r)); [destruct (is_nil g); [reflexivity|]; destruct (is_nil (r_gid r)); [reflexivity|]; destruct (key_eqb g (r_gid r)); reflexivity|].
  destruct (negb (is_nil (r_end r)) && negb (key_gtb (r_end r) (r_start r)));
    [destruct (is_nil g); [reflexivity|]; destruct (is_nil (r_gid r)); [reflexivity|]; destruct (key_eqb g (r_gid r)); reflexivity|].
  destruct (is_nil g); [reflexivity|]. destruct (is_nil (r_gid r)) eqn:Eg; [reflexivity|].
  destruct (key_eqb g (r_gid r)); [rewrite ?Eg; reflexivity|reflexivity].
Qed.

Definition valid (r : rule) : Prop := adjust_rule r None = Some r.

Lemma valid_iff r : valid r <-> content_ok r = true.
Proof.
  unfold valid. rewrite adjust_rule_none_spec. destruct (content_ok r); split; intros H; try reflexivity; discriminate.
Qed.

Lemma adjust_rule_none r r' : adjust_rule r None = Some r' -> r' = r /\ valid r.
Proof.
  intros H. pose proof H as H'. rewrite adjust_rule_none_spec in H.
  destruct (content_ok r) eqn:E; [|discriminate]. inversion H; subst. split; [reflexivity|exact H'].
Qed.

Lemma valid_gid r : valid r -> is_nil (r_gid r) = false.
Proof.
  rewrite valid_iff. unfold content_ok. intros H.
  apply andb_true_iff in H as [H _]. apply andb_true_iff in H as [_ H].
  apply negb_true_iff, orb_false_iff in H as [H _]. exact H.
Qed.

(* what adjustRule returns when it accepts: the rule, with the bundle's group id filled in if it had none *)
Definition fill (g : id) (r : rule) : rule := if is_nil (r_gid r) then set_gid r g else r.
Definition fill_opt (b : option id) (r : rule) : rule := match b with Some g => fill g r | None => r end.

Lemma adjust_rule_spec r b r' : adjust_rule r b = Some r' -> r' = fill_opt b r /\ valid r'.
Proof.
  destruct b as [g|]; [|intros H; destruct (adjust_rule_none r r' H) as [-> V]; auto].
  rewrite adjust_rule_some_spec. unfold fill_opt, fill.
  destruct (is_nil g); [intros H; destruct (adjust_rule_none r r' H) as [-> V]; rewrite (valid_gid r V); auto|].
  destruct (is_nil (r_gid r)); [intros H; destruct (adjust_rule_none _ r' H) as [-> V]; auto|].
  destruct (key_eqb g (r_gid r)); [intros H; destruct (adjust_rule_none r r' H) as [-> V]; auto|discriminate].
Qed.

Lemma adjust_all_spec rs b : forall rs', adjust_all rs b = Some rs' -> rs' = map (fill_opt b) rs /\ Forall valid rs'.
Proof.
  induction rs as [|r rest IH]; intros rs' H; cbn in H; [inversion H; auto|].
  destruct (adjust_rule r b) as [r1|] eqn:E; [|discriminate].
  destruct (adjust_all rest b) as [l|]; [|discriminate]. inversion H; subst.
  destruct (adjust_rule_spec r b r1 E) as [-> V]. destruct (IH l eq_refl) as [-> F]. auto.
Qed.

Lemma valid_set_group r g : valid r -> valid (set_group r g).
Proof. rewrite !valid_iff. destruct r; cbn. exact (fun H => H). Qed.

Lemma valid_facts r : valid r -> r_wellformed r = true /\ (r_end r = [] \/ key_lt (r_start r) (r_end r)).
Proof.
  rewrite valid_iff. unfold content_ok. intros H.
  apply andb_true_iff in H as [H _]. apply andb_true_iff in H as [H _]. apply andb_true_iff in H as [H1 H2].
  split; [exact H1|]. destruct (r_end r) as [|b e]; [left; reflexivity|right].
  cbn in H2. apply negb_true_iff, negb_false_iff in H2. apply key_gtb_lt. exact H2.
Qed.

Lemma rkey_set_group r g : rkey (set_group r g) = rkey r.
Proof. destruct r; reflexivity. Qed.

(* re-pointing a rule keeps it a valid rule under its own key *)
Lemma own_valid_set_group k r g : k = rkey r /\ valid r -> k = rkey (set_group r g) /\ valid (set_group r g).
Proof. intros [K V]. rewrite rkey_set_group. split; [exact K|apply valid_set_group; exact V]. Qed.

Record patch_ok (p : patch) : Prop := {
  po_rsorted : psorted (m_rules p);
  po_rules : forall k r, In (k, Some r) (m_rules p) -> k = rkey r /\ valid r;
  po_gsorted : gsorted (m_groups p);
  po_groups : forall k g, In (k, g) (m_groups p) -> k = g_id g
}.

Lemma empty_patch_ok : patch_ok empty_patch.
Proof. constructor; cbn; try constructor; intros; contradiction. Qed.

Lemma p_set_rule_ok r p : valid r -> patch_ok p -> patch_ok (p_set_rule r p).
Proof.
  intros V [A B C D]. constructor; cbn; [apply (aset_sorted pair_cmp good_pair pair_cmp_eq); exact A| |exact C|exact D].
  intros k r0 H. apply (aset_In pair_cmp) in H as [H|H]; [inversion H; subst; auto|apply B; exact H].
Qed.
Lemma p_delete_rule_ok g i p : patch_ok p -> patch_ok (p_delete_rule g i p).
Proof.
  intros [A B C D]. constructor; cbn; [apply (aset_sorted pair_cmp good_pair pair_cmp_eq); exact A| |exact C|exact D].
  intros k r0 H. apply (aset_In pair_cmp) in H as [H|H]; [discriminate|apply B; exact H].
Qed.
Lemma p_set_group_ok g p : patch_ok p -> patch_ok (p_set_group g p).
Proof.
  intros [A B C D]. constructor; cbn; [exact A|exact B|apply (aset_sorted key_cmp good_key key_cmp_eq); exact C|].
  intros k g0 H. apply (aset_In key_cmp) in H as [H|H]; [inversion H; reflexivity|apply D; exact H].
Qed.

(* the keys an update names and the rules it carries (model: names_key, rules_of_update) *)
Definition named (u : update) (k : id * id) : Prop := names_key u (fst k) (snd k) = true.
Definition carried (u : update) (r : rule) : Prop := In r (rules_of_update u).

Lemma rules_of_update_with um u : rules_of_update (UWithStores um u) = rules_of_update u.
Proof. destruct u; reflexivity. Qed.
Lemma names_key_with um u g i : names_key (UWithStores um u) g i = names_key u g i.
Proof. unfold names_key. rewrite rules_of_update_with. reflexivity. Qed.

Lemma named_carried u r : carried u r -> named u (rkey r).
Proof.
  intros H. unfold named, names_key. apply orb_true_iff. left. apply existsb_exists.
  exists r. split; [exact H|]. cbn. rewrite !key_eqb_refl. reflexivity.
Qed.

(* the second disjunct of the model's names_key: the keys an update names by a deletion (a key, a group and an
   id prefix, a whole group, everything) *)
Definition names_by_deletion (u : update) (g i : id) : bool :=
  (fix go (u : update) : bool :=
     match u with
     | UDeleteRule g' i' => key_eqb g' g && key_eqb i' i
     | UBatch ops => existsb (fun o => match o with
                                       | BDel g' i' false => key_eqb g' g && key_eqb i' i
                                       | BDel g' i' true => key_eqb g' g && is_prefix i' i
                                       | BAdd _ => false
                                       end) ops
     | USetBundle b => key_eqb (b_id b) g
     | USetAllBundles bs ov => ov || existsb (fun b => key_eqb (b_id b) g) bs
     | UDeleteBundle g' => key_eqb g' g
     | UWithStores _ u' => go u'
     | _ => false
     end) u.
Lemma names_key_eq u g i :
  names_key u g i = existsb (fun x => key_eqb (r_gid x) g && key_eqb (r_id x) i) (rules_of_update u) || names_by_deletion u g i.
Proof. reflexivity. Qed.
Lemma named_go u g i : names_by_deletion u g i = true -> named u (g, i).
Proof. intros H. unfold named. cbn [fst snd]. rewrite names_key_eq, H. apply orb_true_r. Qed.

Lemma fold_left_inv {A X} (I : A -> Prop) (f : A -> X -> A) (l : list X) :
  (forall a x, In x l -> I a -> I (f a x)) -> forall a, I a -> I (fold_left f l a).
Proof.
  induction l as [|x rest IH]; intros Hf a Ha; [exact Ha|]. cbn [fold_left].
  apply IH; [intros a' x' Hin; apply Hf; right; exact Hin|]. apply Hf; [left; reflexivity|exact Ha].
Qed.

(* the patch of an update is built from the empty patch by setting valid rules the update carries, deleting
   keys it names, and setting groups: whatever these three steps preserve holds of it *)
Section MakePatch.
  Variables (c : config) (I : patch -> Prop).
  Hypothesis Hempty : I empty_patch.

  Let closed (u : update) : Prop :=
    (forall r p, valid r -> carried u r -> I p -> I (p_set_rule r p)) /\
    (forall g i p, named u (g, i) -> I p -> I (p_delete_rule g i p)) /\
    (forall g p, I p -> I (p_set_group g p)).

  Lemma bundle_patch_ind u b p p' :
    closed u -> (forall r, In r (b_rules b) -> carried u (fill (b_id b) r)) ->
    I p -> bundle_patch b p = Some p' -> I p'.
  Proof.
    intros (Hset & _ & Hgrp) Hb Hp E. unfold bundle_patch in E.
    destruct (adjust_all (b_rules b) (Some (b_id b))) as [rs|] eqn:Ea; [|discriminate]. inversion E; subst. clear E.
    destruct (adjust_all_spec _ _ _ Ea) as [-> V]. rewrite Forall_forall in V.
    apply fold_left_inv; [|apply Hgrp; exact Hp].
    intros p0 x Hin H0. pose proof (V x Hin) as Vx. apply in_map_iff in Hin as [r [<- Hr]].
    apply Hset; [exact Vx|apply Hb; exact Hr|exact H0].
  Qed.

  Lemma delete_rules_ind u {X} (cond : X -> bool) (g i : X -> id) l p :
    closed u -> (forall x, cond x = true -> named u (g x, i x)) -> I p ->
    I (fold_left (fun p x => if cond x then p_delete_rule (g x) (i x) p else p) l p).
  Proof.
    intros (_ & Hdel & _) Hn. apply fold_left_inv. intros p1 x _ H1.
    destruct (cond x) eqn:Ec; [apply Hdel; [apply Hn; exact Ec|exact H1]|exact H1].
  Qed.
  Lemma delete_groups_ind u {X} (cond : X -> bool) (g : X -> id) l p :
    closed u -> I p -> I (fold_left (fun p x => if cond x then p_delete_group (g x) p else p) l p).
  Proof.
    intros (_ & _ & Hgrp). apply fold_left_inv. intros p1 x _ H1. destruct (cond x); [apply Hgrp|]; exact H1.
  Qed.

  Theorem make_patch_ind u : closed u -> forall p, make_patch c u = Some p -> I p.
  Proof.
    induction u as [r|g i|rs|ops|gr|gid|b|bs ov|gid|um u IH]; intros Hcl p H; pose proof Hcl as (Hset & Hdel & Hgrp);
      cbn [make_patch] in H.
    - destruct (adjust_rule r None) as [r'|] eqn:E; [|discriminate]. inversion H; subst.
      destruct (adjust_rule_none r r' E) as [-> V]. apply Hset; [exact V|left; reflexivity|exact Hempty].
    - inversion H; subst. apply Hdel; [|exact Hempty]. apply named_go; cbn. rewrite !key_eqb_refl. reflexivity.
    - destruct (adjust_all rs None) as [rs'|] eqn:E; [|discriminate]. inversion H; subst.
      destruct (adjust_all_spec _ _ _ E) as [-> V]. rewrite map_id in *. rewrite Forall_forall in V.
      apply fold_left_inv; [|exact Hempty]. intros p0 x Hin H0. apply Hset; [apply V; exact Hin|exact Hin|exact H0].
    - destruct (adjust_all _ None); [|discriminate]. inversion H; subst. clear H.
      apply fold_left_inv; [|exact Hempty].
      intros p0 o Hin H0. destruct o as [r|g i [|]].
      + destruct (adjust_rule r None) as [r'|] eqn:E; [|exact H0].
        destruct (adjust_rule_none r r' E) as [-> V]. apply Hset; [exact V| |exact H0].
        unfold carried. cbn [rules_of_update]. apply in_flat_map. exists (BAdd r). split; [exact Hin|left; reflexivity].
      + apply (delete_rules_ind (UBatch ops)); [exact Hcl| |exact H0].
        intros kr Ec. apply andb_true_iff in Ec as [E1 E2]. apply key_eqb_eq in E1. apply named_go; cbn; apply existsb_exists.
        exists (BDel g i true). split; [exact Hin|]. rewrite E1, key_eqb_refl, E2. reflexivity.
      + apply Hdel; [|exact H0]. apply named_go; cbn. apply existsb_exists.
        exists (BDel g i false). split; [exact Hin|]. rewrite !key_eqb_refl. reflexivity.
    - destruct (gid_ok (g_id gr)); [|discriminate]. inversion H; subst. apply Hgrp, Hempty.
    - inversion H; subst. apply Hgrp, Hempty.
    - destruct (negb (gid_ok (b_id b))); [discriminate|].
      eapply (bundle_patch_ind (USetBundle b)); [exact Hcl| | |exact H].
      + intros r Hr. unfold carried. cbn [rules_of_update]. apply in_map_iff. exists r. split; [reflexivity|exact Hr].
      + destruct (gget (b_id b) (c_groups c)); [|exact Hempty].
        apply (delete_rules_ind (USetBundle b)); [exact Hcl| |exact Hempty].
        intros kr Ec. apply named_go; cbn. rewrite key_eqb_sym. exact Ec.
    - destruct (negb (forallb (fun b => gid_ok (b_id b)) bs)); [discriminate|].
      match type of H with fold_left ?f bs (Some ?p1) = _ => set (P1 := p1) in *; set (F := f) in * end.
      assert (HP1 : I P1).
      { unfold P1.
        apply (delete_groups_ind (USetAllBundles bs ov)); [exact Hcl|].
        apply (delete_rules_ind (USetAllBundles bs ov)); [exact Hcl| |exact Hempty].
        intros kr Ec. apply named_go; cbn. exact Ec. }
      clearbody P1.
      assert (G : forall l, (forall b, In b l -> In b bs) -> forall op p', fold_left F l op = Some p' ->
                  (forall q, op = Some q -> I q) -> I p').
      { induction l as [|b rest IHl]; intros Hsub op p' E Hop; cbn [fold_left] in E; [apply Hop; exact E|].
        apply (IHl (fun b0 Hb0 => Hsub b0 (or_intror Hb0)) _ _ E). intros q Eq. unfold F in Eq.
        destruct op as [p0|]; [|discriminate].
        eapply (bundle_patch_ind (USetAllBundles bs ov)); [exact Hcl| |apply Hop; reflexivity|exact Eq].
        intros r Hr. unfold carried. cbn [rules_of_update]. apply in_flat_map. exists b.
        split; [apply Hsub; left; reflexivity|]. apply in_map_iff. exists r. split; [reflexivity|exact Hr]. }
      apply (G bs (fun b Hb => Hb) _ _ H). intros q Eq. inversion Eq; subst. exact HP1.
    - inversion H; subst.
      apply (delete_groups_ind (UDeleteBundle gid)); [exact Hcl|].
      apply (delete_rules_ind (UDeleteBundle gid)); [exact Hcl| |exact Hempty].
      intros kr Ec. apply named_go; cbn. rewrite key_eqb_sym. exact Ec.
    - destruct (existsb _ (added_rules u)); [discriminate|]. apply IH; [|exact H]. split; [|split].
      + intros r p0 V Cr. apply Hset; [exact V|]. unfold carried. rewrite rules_of_update_with. exact Cr.
      + intros g i p0 N. apply Hdel. unfold named. cbn [fst snd]. rewrite names_key_with. exact N.
      + exact Hgrp.
  Qed.
End MakePatch.

Lemma make_patch_ok c u p : make_patch c u = Some p -> patch_ok p.
Proof.
  apply (make_patch_ind c patch_ok empty_patch_ok). split; [|split].
  - intros r p0 V _. apply p_set_rule_ok; exact V.
  - intros g i p0 _. apply p_delete_rule_ok.
  - intros g p0. apply p_set_group_ok.
Qed.

Record conf_ok (c : config) : Prop := {
  co_rsorted : psorted (c_rules c);
  co_rules : forall k r, In (k, r) (c_rules c) -> k = rkey r /\ valid r;
  co_gsorted : gsorted (c_groups c);
  co_groups : forall k g, In (k, g) (c_groups c) -> k = g_id g
}.

(* patch.adjust on the served rules: those the patch overwrites are skipped, the others re-pointed *)
Definition repoint (c : config) (p : patch) (k : id * id) (r : rule) : rule :=
  match mget pair_cmp k (m_rules p) with Some _ => r | None => set_group r (Some (p_get_group c p (r_gid r))) end.

Lemma patch_adjust_rules c p :
  c_rules (fst (patch_adjust c p)) = map (fun kr => (fst kr, repoint c p (fst kr) (snd kr))) (c_rules c).
Proof.
  unfold patch_adjust, repoint. cbn [fst c_rules]. apply map_ext. intros [k r]. cbn [fst snd].
  destruct (mget pair_cmp k (m_rules p)); reflexivity.
Qed.
Lemma adjusted_conf_get c p k :
  mget pair_cmp k (c_rules (fst (patch_adjust c p))) = option_map (repoint c p k) (mget pair_cmp k (c_rules c)).
Proof. rewrite patch_adjust_rules. apply (aget_map_kv pair_cmp pair_cmp_eq). Qed.

Lemma patch_adjust_patch_ok c p : patch_ok p -> patch_ok (snd (patch_adjust c p)).
Proof.
  intros [E F G0 H]. unfold patch_adjust. cbn [snd]. constructor; cbn [m_rules m_groups]; try assumption.
  - apply (map_vals_sorted pair_cmp). exact E.
  - intros k r Hin. apply in_map_iff in Hin as [[k0 [r0|]] [Ek Hin0]]; cbn in Ek; [|discriminate].
    injection Ek as <- <-.
    exact (own_valid_set_group _ _ _ (F k0 r0 Hin0)).
Qed.

Lemma patch_adjust_ok c p : conf_ok c -> patch_ok p ->
  conf_ok (fst (patch_adjust c p)) /\ patch_ok (snd (patch_adjust c p)).
Proof.
  intros [A B C D] Hp. split; [|apply patch_adjust_patch_ok; exact Hp].
  constructor; [rewrite patch_adjust_rules| |exact C|exact D].
  - apply (map_kv_sorted pair_cmp (fun kr => repoint c p (fst kr) (snd kr))). exact A.
  - intros k r Hin. rewrite patch_adjust_rules in Hin. apply in_map_iff in Hin as [[k0 r0] [Ek Hin0]]. cbn [fst snd] in Ek.
    injection Ek as <- <-. unfold repoint.
    destruct (mget pair_cmp k0 (m_rules p)); [exact (B k0 r0 Hin0)|exact (own_valid_set_group _ _ _ (B k0 r0 Hin0))].
Qed.

Lemma patch_trim_ok c p : patch_ok p -> patch_ok (patch_trim c p).
Proof.
  intros [E F G0 H]. unfold patch_trim. constructor; cbn [m_rules m_groups].
  - apply filter_sorted; exact E.
  - intros k r Hin. apply filter_In in Hin as [Hin _]. apply F; exact Hin.
  - apply filter_sorted; exact G0.
  - intros k g Hin. apply filter_In in Hin as [Hin _]. apply H; exact Hin.
Qed.

Lemma commit_groups_In L (m : gmap) k g :
  In (k, g) (fold_left (fun m (kg : id * group) => mset key_cmp (fst kg) (snd kg) m) L m) -> In (k, g) m \/ In (k, g) L.
Proof.
  rewrite (fold_aset_awrite key_cmp). intros H. apply (fold_awrite_In key_cmp) in H as [H|H]; [left; exact H|right].
  apply in_map_iff in H as [[k0 g0] [E H]]. inversion E; subst. exact H.
Qed.
Lemma commit_groups_sorted L (m : gmap) :
  gsorted m -> gsorted (fold_left (fun m (kg : id * group) => mset key_cmp (fst kg) (snd kg) m) L m).
Proof. rewrite (fold_aset_awrite key_cmp). apply (fold_awrite_sorted key_cmp good_key key_cmp_eq). Qed.
Lemma aget_fold_mset_groups L (m : gmap) k : gsorted L -> gsorted m ->
  mget key_cmp k (fold_left (fun m (kg : id * group) => mset key_cmp (fst kg) (snd kg) m) L m) =
  match mget key_cmp k L with Some g => Some g | None => mget key_cmp k m end.
Proof.
  intros SL Sm. rewrite (fold_aset_awrite key_cmp), (aget_fold_awrite key_cmp good_key key_cmp_eq);
    [|apply (map_vals_sorted key_cmp (@Some group)); exact SL|exact Sm].
  rewrite (aget_map_vals key_cmp (@Some group)). destruct (aget key_cmp k L); reflexivity.
Qed.

Lemma fold_add_default_ok l : forall gs,
  gsorted gs -> (forall k g, In (k, g) gs -> k = g_id g) ->
  gsorted (fold_left add_default l gs) /\ (forall k g, In (k, g) (fold_left add_default l gs) -> k = g_id g).
Proof.
  induction l as [|kr rest IH]; intros gs S K; [split; assumption|]. cbn [fold_left]. apply IH.
  - unfold add_default. destruct (gget _ gs); [exact S|apply (aset_sorted key_cmp good_key key_cmp_eq); exact S].
  - intros k g H. unfold add_default in H. destruct (gget _ gs); [apply K; exact H|].
    apply (aset_In key_cmp) in H as [H|H]; [inversion H; reflexivity|apply K; exact H].
Qed.

Lemma config_adjust_ok c : conf_ok c -> conf_ok (config_adjust c).
Proof.
  intros [A B C D]. rewrite config_adjust_unfold. cbv zeta.
  destruct (fold_add_default_ok (c_rules c) (filter (fun kg => negb (is_default (snd kg))) (c_groups c))) as [G1 G2].
  { apply filter_sorted; exact C. }
  { intros k g H. apply filter_In in H as [H _]. apply D; exact H. }
  constructor; cbn [c_rules c_groups]; [| |exact G1|exact G2].
  - apply (map_kv_sorted pair_cmp (fun kr => set_group (snd kr) (gget (r_gid (snd kr)) _))). exact A.
  - intros k r Hin. apply in_map_iff in Hin as [[k0 r0] [Ek Hin0]]. cbn [fst snd] in Ek. injection Ek as <- <-.
    exact (own_valid_set_group _ _ _ (B k0 r0 Hin0)).
Qed.

Lemma patch_commit_ok c p : conf_ok c -> patch_ok p -> conf_ok (patch_commit c p).
Proof.
  intros [A B C D] [E F G0 H]. unfold patch_commit. apply config_adjust_ok.
  constructor; cbn [c_rules c_groups].
  - apply (fold_awrite_sorted pair_cmp good_pair pair_cmp_eq (m_rules p)). exact A.
  - intros k r Hin. apply (fold_awrite_In pair_cmp (m_rules p)) in Hin as [Hin|Hin]; [apply B|apply F]; exact Hin.
  - apply commit_groups_sorted. exact C.
  - intros k g Hin. apply commit_groups_In in Hin as [Hin|Hin]; [apply D|apply H]; exact Hin.
Qed.

Lemma try_commit_conf_ok m s p order f m' s' e ok :
  conf_ok (m_conf m) -> patch_ok p -> try_commit m s p order f = (m', s', e, ok) -> conf_ok (m_conf m').
Proof.
  intros Hc Hp H. pose proof (try_commit_outcome m s p order f) as O. rewrite H in O.
  destruct (patch_adjust_ok (m_conf m) p Hc Hp) as [C1 P1].
  inversion O as [c1 p1 be Ea|c1 p1 rl sa k ok' Ea|c1 p1 rl sa k ok' Ea]; subst; rewrite Ea in C1, P1; cbn [m_conf];
    [apply config_adjust_ok; exact C1|apply config_adjust_ok; exact C1|].
  apply patch_commit_ok; [exact C1|apply patch_trim_ok; exact P1].
Qed.

Definition ssorted (s : storage) : Prop := psorted (s_rules s) /\ gsorted (s_groups s).

Lemma apply_rule_write_sorted kr s : ssorted s -> ssorted (apply_rule_write kr s).
Proof.
  intros [A B]. rewrite apply_rule_write_spec. split; [|exact B]. cbn. apply (awrite_sorted pair_cmp good_pair pair_cmp_eq); exact A.
Qed.
Lemma apply_group_write_sorted kg s : ssorted s -> ssorted (apply_group_write kg s).
Proof.
  intros [A B]. rewrite apply_group_write_spec. split; [exact A|]. cbn. apply (awrite_sorted key_cmp good_key key_cmp_eq); exact B.
Qed.
Lemma fold_rule_write_sorted {X} (g : X -> (id * id) * option rule) l : forall s,
  ssorted s -> ssorted (fold_left (fun s x => apply_rule_write (g x) s) l s).
Proof. induction l as [|x l IH]; intros s Ss; [exact Ss|]. cbn [fold_left]. apply IH, apply_rule_write_sorted, Ss. Qed.

Lemma save_all_sorted p s : ssorted s -> ssorted (save_all p s).
Proof.
  intros [A B]. rewrite save_all_spec. split; cbn.
  - apply (fold_awrite_sorted pair_cmp good_pair pair_cmp_eq); exact A.
  - apply (fold_awrite_sorted key_cmp good_key key_cmp_eq); exact B.
Qed.

(* a partial save only touches keys of the patch *)
Definition untouched_outside (p : patch) (s s' : storage) : Prop :=
  (forall k, mget pair_cmp k (m_rules p) = None -> mget pair_cmp k (s_rules s') = mget pair_cmp k (s_rules s)) /\
  (forall k, mget key_cmp k (m_groups p) = None -> mget key_cmp k (s_groups s') = mget key_cmp k (s_groups s)).

Lemma keqb_false_of_get {K V} (cmp : K -> K -> comparison) (G : good cmp) (E : forall a b, cmp a b = Eq -> a = b)
      (m : list (K * V)) k k' v : aget cmp k' m = Some v -> aget cmp k m = None -> keqb cmp k k' = false.
Proof.
  intros H1 H2. destruct (keqb cmp k k') eqn:Ek; [|reflexivity].
  apply (keqb_eq cmp G E) in Ek. subst. congruence.
Qed.

Lemma write_effect_ok p s0 w ap s : write_effect p w = Some ap ->
  ssorted s /\ untouched_outside p s0 s -> ssorted (ap s) /\ untouched_outside p s0 (ap s).
Proof.
  intros Ew [Ss [U1 U2]]. pose proof Ss as [SA SB].
  destruct w as [g i|g]; cbn [write_effect] in Ew.
  - destruct (mget pair_cmp (g, i) (m_rules p)) as [v|] eqn:Eg; inversion Ew; subst ap.
    split; [apply apply_rule_write_sorted; exact Ss|]. rewrite apply_rule_write_spec.
    split; cbn [s_rules s_groups fst snd]; [|exact U2].
    intros k Hk. rewrite (aget_awrite pair_cmp pair_cmp_eq) by exact SA. cbn [fst snd].
    rewrite (keqb_false_of_get pair_cmp good_pair pair_cmp_eq _ _ _ _ Eg Hk). apply U1; exact Hk.
  - destruct (mget key_cmp g (m_groups p)) as [v|] eqn:Eg; inversion Ew; subst ap.
    split; [apply apply_group_write_sorted; exact Ss|]. rewrite apply_group_write_spec.
    split; cbn [s_rules s_groups fst snd]; [exact U1|].
    intros k Hk. rewrite (aget_awrite key_cmp key_cmp_eq) by exact SB. cbn [fst snd].
    rewrite (keqb_false_of_get key_cmp good_key key_cmp_eq _ _ _ _ Eg Hk). apply U2; exact Hk.
Qed.

Lemma save_writes_effect p order n f s seen :
  ssorted s ->
  ssorted (fst (fst (save_writes p order n f s seen))) /\
  untouched_outside p s (fst (fst (save_writes p order n f s seen))).
Proof.
  intros Ss. apply (save_writes_inv (fun s' => ssorted s' /\ untouched_outside p s s')).
  - intros w ap s1. apply write_effect_ok.
  - split; [exact Ss|split; reflexivity].
Qed.

(* the complete save absorbs whatever a partial save of the same patch left behind *)
Lemma save_all_absorbs p s s1 :
  patch_ok p -> ssorted s -> ssorted s1 -> untouched_outside p s s1 -> save_all p s1 = save_all p s.
Proof.
  intros [PA _ PC _] [SA SB] [S1A S1B] [U1 U2]. rewrite !save_all_spec. f_equal.
  - apply (fold_awrite_absorbs pair_cmp good_pair pair_cmp_eq); try assumption; [apply (map_vals_sorted pair_cmp); exact PA|].
    intros k E. apply U1. unfold rule_writes in E. rewrite (aget_map_vals pair_cmp) in E.
    destruct (aget pair_cmp k (m_rules p)); [discriminate|reflexivity].
  - apply (fold_awrite_absorbs key_cmp good_key key_cmp_eq); try assumption;
      [apply (map_vals_sorted key_cmp (fun g : group => if is_default g then None else Some g)); exact PC|].
    intros k E. apply U2. unfold group_writes in E.
    rewrite (aget_map_vals key_cmp (fun g : group => if is_default g then None else Some g)) in E.
    destruct (aget key_cmp k (m_groups p)); [discriminate|reflexivity].
Qed.

Lemma load_repairs_sorted s : ssorted s -> ssorted (snd (load_repairs s)).
Proof.
  intros S. unfold load_repairs. cbn [snd].
  apply (fold_rule_write_sorted (fun k => (k, None))), (fold_rule_write_sorted (fun r => (rkey r, Some r))), S.
Qed.

Lemma initialize_sorted s mr : ssorted s -> ssorted (snd (initialize s mr)).
Proof.
  intros S. unfold initialize. pose proof (load_repairs_sorted s S) as S2.
  destruct (load_repairs s) as [acc s2]. cbn [snd] in S2.
  destruct (la_rules acc) as [|x rs].
  - destruct (build_rule_list _); cbn [snd]; apply apply_rule_write_sorted; exact S2.
  - destruct (build_rule_list _); cbn [snd]; exact S2.
Qed.

Lemma try_commit_sorted m s p order f m' s' e ok :
  ssorted s -> try_commit m s p order f = (m', s', e, ok) -> ssorted s'.
Proof.
  intros S H. pose proof (try_commit_outcome m s p order f) as O. rewrite H in O.
  inversion O as [|c1 p1 rl sa k ok' _ _ Es|]; subst; [exact S| |apply save_all_sorted; exact S].
  pose proof (save_writes_effect (patch_trim c1 p1) order 1%nat f s [] S) as [W _]. rewrite Es in W. exact W.
Qed.

Lemma step_sorted st o : ssorted (st_store st) -> ssorted (st_store (fst (step st o))).
Proof.
  intros S. assert (Hinit : forall mr, ssorted (st_store (fst (step st (ORestart mr))))).
  { intros mr. cbn [step]. pose proof (initialize_sorted (st_store st) mr S) as I.
    destruct (initialize (st_store st) mr) as [[m|e] s']; exact I. }
  assert (Hupd : forall u f w, ssorted (st_store (fst (step_update st u f w)))).
  { intros u f w. destruct (step_update_cases st u f w) as [[-> _]|(m & p & m' & s' & e & ok & _ & _ & Et & ->)]; [exact S|].
    eapply try_commit_sorted; eauto. }
  destruct o as [mr|u f w|u w|ig|mr|k v|k]; [apply Hinit|apply Hupd|apply Hupd| |apply Hinit| |].
  - cbn. destruct ig; [apply load_repairs_sorted; exact S|exact S].
  - cbn. destruct S as [A B]. split; cbn; [apply (aset_sorted pair_cmp good_pair pair_cmp_eq); exact A|exact B].
  - cbn. destruct S as [A B]. split; cbn; [apply (adel_sorted pair_cmp); exact A|exact B].
Qed.

Theorem reachable_sorted ops : ssorted (st_store (run_state step init_state ops)).
Proof. apply (run_state_inv step (fun st => ssorted (st_store st))); [exact step_sorted|split; constructor]. Qed.

(* retrying the update that just failed with a storage error: the retry ends in exactly the state the
   update would have produced had its first attempt not failed, whichever write failed and whether or
   not it was applied *)
Theorem retry_converges_from st u f w1 w2 w3 st1 o1 st2 o2 st3 o3 :
  live_canonical st -> ssorted (st_store st) ->
  step_update st u (Some f) w1 = (st1, o1) -> o_res o1 = RErr EStorage ->
  step_update st1 u None w2 = (st2, o2) -> o_res o2 = ROk ->
  step_update st u None w3 = (st3, o3) -> o_res o3 = ROk ->
  st2 = st3.
Proof.
  intros Hc Hs H1 R1 H2 R2 H3 R3.
  destruct (step_update_storage_error _ _ _ _ _ _ H1 R1) as (m & p & m1 & s1 & ok1 & El & Ep & E1 & ->).
  unfold live_canonical, on_live in Hc. rewrite El in Hc.
  destruct (try_commit_error _ _ _ _ _ _ _ _ _ Hc E1) as [-> _].
  destruct (step_update_ok _ _ _ _ _ _ H2 R2) as (m0 & p0 & m2 & s2 & ok2 & El2 & Ep2 & E2 & ->).
  cbn [st_live st_store] in *. injection El2 as <-. rewrite Ep in Ep2. injection Ep2 as <-.
  destruct (step_update_ok _ _ _ _ _ _ H3 R3) as (m0 & p0 & m3 & s3 & ok3 & El3 & Ep3 & E3 & ->).
  rewrite El in El3. injection El3 as <-. rewrite Ep in Ep3. injection Ep3 as <-.
  (* the three commits share adjust / build / trim; only the storage they start from differs *)
  destruct (try_commit_failed _ _ _ _ _ _ _ _ E1) as (c1 & p1 & rl & k & Ea & Eb & Es).
  destruct (try_commit_committed _ _ _ _ _ _ _ _ E2) as (c2 & p2 & rl2 & Ea2 & Eb2 & -> & ->).
  destruct (try_commit_committed _ _ _ _ _ _ _ _ E3) as (c3 & p3 & rl3 & Ea3 & Eb3 & -> & ->).
  rewrite Ea in Ea2, Ea3. injection Ea2 as <- <-. injection Ea3 as <- <-. rewrite Eb in Eb2, Eb3. injection Eb2 as <-. injection Eb3 as <-.
  assert (P2 : patch_ok (patch_trim c1 p1)).
  { apply patch_trim_ok. pose proof (patch_adjust_patch_ok (m_conf m) p (make_patch_ok _ _ _ Ep)) as X. rewrite Ea in X. exact X. }
  pose proof (save_writes_effect (patch_trim c1 p1) w1 1%nat (Some f) (st_store st) [] Hs) as [W1 U1]. rewrite Es in W1, U1.
  rewrite (save_all_absorbs (patch_trim c1 p1) (st_store st) s1 P2 Hs W1 U1). reflexivity.
Qed.

Lemma config_adjust_filter_groups R G :
  config_adjust (Config R (filter (fun kg => negb (is_default (snd kg))) G)) = config_adjust (Config R G).
Proof. rewrite !config_adjust_unfold. cbn [c_rules c_groups]. rewrite filter_twice. reflexivity. Qed.

Lemma ssorted_app_l {A} (R : A -> A -> Prop) l1 : forall l2, StronglySorted R (l1 ++ l2) -> StronglySorted R l1.
Proof.
  induction l1 as [|x r IH]; intros l2 H; [constructor|]. cbn in H. inversion H as [|? ? S F]; subst.
  constructor; [eapply IH; exact S|]. rewrite Forall_forall in *. intros y Hy. apply F. apply in_or_app. left; exact Hy.
Qed.

(* one record of loadRules' scan *)
Definition lstep (acc : loadacc) (kv : (id * id) * sval) : loadacc :=
  match snd kv with
  | SVGarbage => LoadAcc (la_rules acc) (la_save acc) (la_delete acc ++ [fst kv])
  | SVRule r0 =>
      match adjust_rule r0 None with
      | None => LoadAcc (la_rules acc) (la_save acc) (la_delete acc ++ [fst kv])
      | Some r =>
          match rget (rkey r) (la_rules acc) with
          | Some _ => LoadAcc (la_rules acc) (la_save acc) (la_delete acc ++ [fst kv])
          | None =>
              if pair_eqb (fst kv) (rkey r)
              then LoadAcc (mset pair_cmp (rkey r) r (la_rules acc)) (la_save acc) (la_delete acc)
              else LoadAcc (mset pair_cmp (rkey r) r (la_rules acc)) (la_save acc ++ [r]) (la_delete acc ++ [fst kv])
          end
      end
  end.

Lemma load_rules_fold s : load_rules s = fold_left lstep (s_rules s) (LoadAcc [] [] []).
Proof. reflexivity. Qed.

(* on the image of a configuration the scan serves every record in place and queues no repair *)
Lemma load_rules_mirror todo : forall done acc,
  psorted (done ++ todo) ->
  (forall k r, In (k, r) todo -> k = rkey r /\ valid r) ->
  la_rules acc = strip_rules done -> la_save acc = [] -> la_delete acc = [] ->
  let acc' := fold_left lstep (map_vals sv todo) acc in
  la_rules acc' = strip_rules (done ++ todo) /\ la_save acc' = [] /\ la_delete acc' = [].
Proof.
  induction todo as [|[k r] rest IH]; intros done acc S V E1 E2 E3; cbn [map_vals map fold_left].
  - rewrite app_nil_r. auto.
  - destruct (V k r (or_introl eq_refl)) as [Kr Vr].
    assert (Hlt : forall x, In x (strip_rules done) -> klt pair_cmp (fst x) k).
    { intros x Hx. unfold strip_rules in Hx. apply in_map_iff in Hx as [[k0 r0] [<- Hx]]. cbn [fst].
      apply (ssorted_app_rel (fun a b : (id * id) * rule => klt pair_cmp (fst a) (fst b)) done ((k, r) :: rest) S (k0, r0) (k, r) Hx).
      left; reflexivity. }
    assert (Estep : lstep acc (k, sv r) = LoadAcc (strip_rules done ++ [(k, set_group r None)]) (la_save acc) (la_delete acc)).
    { unfold lstep. cbn [snd fst sv]. pose proof (valid_set_group r None Vr) as Vs. unfold valid in Vs. rewrite Vs.
      rewrite rkey_set_group, <- Kr. unfold rget.
      rewrite E1, (aget_gt_all pair_cmp good_pair k (strip_rules done) Hlt), pair_eqb_refl,
        (aset_gt_all pair_cmp good_pair k (set_group r None) (strip_rules done) Hlt). reflexivity. }
    cbn [fst snd]. fold (map_vals sv rest). rewrite Estep.
    specialize (IH (done ++ [(k, r)])
                  (LoadAcc (strip_rules done ++ [(k, set_group r None)]) (la_save acc) (la_delete acc))).
    rewrite <- app_assoc in IH. cbn [app] in IH. apply IH; cbn [la_rules la_save la_delete]; try assumption.
    + intros k' r' H'. apply V. right; exact H'.
    + unfold strip_rules. rewrite map_app. reflexivity.
Qed.

Lemma initialize_mirror c s mr :
  conf_ok c -> canonical c -> mirrors c s -> c_rules c <> [] ->
  initialize s mr =
  (match build_rule_list (map snd (c_rules c)) with inl _ => inr EBuild | inr rl => inl (Manager c rl) end, s).
Proof.
  intros [A B C D] Hcan [M1 M2] Hne. unfold initialize, load_repairs.
  assert (L : la_rules (load_rules s) = strip_rules (c_rules c) /\ la_save (load_rules s) = [] /\ la_delete (load_rules s) = []).
  { rewrite load_rules_fold, M1. apply (load_rules_mirror (c_rules c) [] (LoadAcc [] [] [])); cbn; auto. }
  destruct L as (L1 & L2 & L3). rewrite L1, L2, L3. cbn [fold_left filter].
  destruct (strip_rules (c_rules c)) as [|x xs] eqn:Es.
  { exfalso. destruct (c_rules c); [congruence|discriminate]. }
  rewrite <- Es. rewrite M2.
  assert (Ec : config_adjust (Config (strip_rules (c_rules c)) (filter nd (c_groups c))) = c).
  { unfold nd. rewrite config_adjust_filter_groups, <- config_adjust_via_strip. exact Hcan. }
  rewrite Ec. destruct (build_rule_list (map snd (c_rules c))); reflexivity.
Qed.

Lemma indexes_ext rules rules' rl : (forall y, In y rules <-> In y rules') -> indexes rules rl -> indexes rules' rl.
Proof.
  intros E (O & S & K & B).
  assert (BE : forall k, boundary rules k <-> boundary rules' k).
  { intros k. unfold boundary. split; intros [y [Hy H]]; exists y; (split; [apply E; exact Hy|exact H]). }
  split; [|split; [exact S|split; [intros k; rewrite K; apply BE|apply BE; exact B]]].
  rewrite Forall_forall in *. intros g Hg. destruct (O g Hg) as (G1 & G2 & G3). split; [exact G1|]. split; [|exact G3].
  intros y. rewrite G2, E. tauto.
Qed.

Lemma group_eqb_eq a b : group_eqb a b = true -> a = b.
Proof.
  unfold group_eqb. intros H. apply andb_true_iff in H as [H H3]. apply andb_true_iff in H as [H1 H2].
  apply key_eqb_eq in H1. apply Z.eqb_eq in H2. apply Bool.eqb_prop in H3. destruct a, b; cbn in *; congruence.
Qed.
Lemma default_group_eq g gid : is_default g = true -> g_id g = gid -> g = default_group gid.
Proof.
  unfold is_default, default_group. intros H E. apply andb_true_iff in H as [H1 H2]. apply Z.eqb_eq in H1.
  apply negb_true_iff in H2. destruct g; cbn in *; congruence.
Qed.

Lemma role_eqb_eq a b : role_eqb a b = true <-> a = b.
Proof. destruct a, b; cbn; split; intros H; try discriminate; reflexivity. Qed.
(* jsonEquals compares the nine marshalled fields; the well-formedness flag stands for what was parsed *)
Lemma rule_json_eqb_strip a b : rule_json_eqb a b = true -> r_wellformed a = r_wellformed b -> strip a = strip b.
Proof.
  unfold rule_json_eqb. rewrite !andb_true_iff, !key_eqb_eq, !Z.eqb_eq, !Bool.eqb_true_iff, role_eqb_eq.
  intros H W. decompose [and] H. destruct a, b; cbn in *; subst; reflexivity.
Qed.

Lemma aget_fold_add_default l : forall gs gid, gsorted gs ->
  mget key_cmp gid (fold_left add_default l gs) =
  match mget key_cmp gid gs with
  | Some g => Some g
  | None => if existsb (fun kr : (id * id) * rule => key_eqb gid (r_gid (snd kr))) l then Some (default_group gid) else None
  end.
Proof.
  induction l as [|kr rest IH]; intros gs gid S; cbn [fold_left existsb]; [destruct (mget key_cmp gid gs); reflexivity|].
  rewrite IH.
  2:{ unfold add_default. destruct (gget _ gs); [exact S|apply (aset_sorted key_cmp good_key key_cmp_eq); exact S]. }
  unfold add_default, gget. destruct (aget key_cmp (r_gid (snd kr)) gs) as [g0|] eqn:E0.
  - destruct (aget key_cmp gid gs) eqn:E1; [reflexivity|].
    destruct (key_eqb gid (r_gid (snd kr))) eqn:Ek; [|reflexivity]. apply key_eqb_eq in Ek. subst. congruence.
  - rewrite (aget_aset key_cmp key_cmp_eq) by exact S. unfold keqb, key_eqb.
    destruct (key_cmp gid (r_gid (snd kr))) eqn:Ek.
    + apply key_cmp_eq in Ek. subst gid. rewrite E0. reflexivity.
    + destruct (aget key_cmp gid gs); reflexivity.
    + destruct (aget key_cmp gid gs); reflexivity.
Qed.

(* patch.iterateRules by key: the patch's entry if it has one, the configuration's otherwise *)
Definition vget (c : config) (p : patch) (k : id * id) : option rule :=
  match mget pair_cmp k (m_rules p) with Some w => w | None => mget pair_cmp k (c_rules c) end.

Lemma view_In c1 p1 y :
  In y (patch_view c1 p1) <->
  (exists k, In (k, Some y) (m_rules p1)) \/ (exists k, In (k, y) (c_rules c1) /\ mget pair_cmp k (m_rules p1) = None).
Proof.
  unfold patch_view. rewrite in_app_iff, !in_flat_map. split.
  - intros [[[k [r|]] [H1 H2]]|[[k r] [H1 H2]]]; cbn in H2.
    + destruct H2 as [<-|[]]. left. exists k. exact H1.
    + destruct H2.
    + cbn [fst snd] in H2. destruct (mget pair_cmp k (m_rules p1)) eqn:E; [destruct H2|]. destruct H2 as [<-|[]].
      right. exists k. split; [exact H1|exact E].
  - intros [[k H]|[k [H1 H2]]].
    + left. exists (k, Some y). split; [exact H|left; reflexivity].
    + right. exists (k, y). split; [exact H1|]. cbn [fst snd]. rewrite H2. left; reflexivity.
Qed.

Lemma set_group_same r : set_group r (r_group r) = r.
Proof. destruct r; reflexivity. Qed.

Section Commit.
  Variables (c : config) (p : patch).
  Hypothesis Hc : conf_ok c.
  Hypothesis Hp : patch_ok p.
  (* c1, p1: after patch.adjust; p2: the trimmed patch; R', G': the maps after commit, before ruleConfig.adjust;
     g1': the groups after it; rp: patch.adjust's re-pointing of one rule *)
  Let c1 := fst (patch_adjust c p).
  Let p1 := snd (patch_adjust c p).
  Let p2 := patch_trim c1 p1.
  Let pgg := p_get_group c p.
  Let rp := fun r : rule => set_group r (Some (pgg (r_gid r))).
  Let R' := fold_left (awrite pair_cmp) (m_rules p2) (c_rules c1).
  Let G' := fold_left (fun m (kg : id * group) => mset key_cmp (fst kg) (snd kg) m) (m_groups p2) (c_groups c1).
  Let g1' := fold_left add_default R' (filter (fun kg => negb (is_default (snd kg))) G').

  Let Hc1 : conf_ok c1 := proj1 (patch_adjust_ok c p Hc Hp).
  Let Hp1 : patch_ok p1 := patch_adjust_patch_ok c p Hp.
  Let Hp2 : patch_ok p2 := patch_trim_ok c1 p1 Hp1.

  Lemma adjusted_patch_get k : mget pair_cmp k (m_rules p1) = option_map (option_map rp) (mget pair_cmp k (m_rules p)).
  Proof. exact (aget_map_vals pair_cmp (option_map rp) (m_rules p) k). Qed.

  (* patch.adjust re-points by group id only, and re-pointing again changes nothing *)
  Lemma rp_strip r r' : strip r = strip r' -> rp r = rp r'.
  Proof.
    intros E. unfold rp. rewrite <- (set_group_strip r), <- (set_group_strip r'), <- (r_gid_set_group r None), <- (r_gid_set_group r' None).
    fold (strip r) (strip r'). rewrite E. reflexivity.
  Qed.
  Lemma rp_rp r : rp (rp r) = rp r.
  Proof. unfold rp. rewrite r_gid_set_group, set_group_twice. reflexivity. Qed.

  Lemma adjusted_patch_repointed k r : mget pair_cmp k (m_rules p1) = Some (Some r) -> rp r = r.
  Proof. rewrite adjusted_patch_get. destruct (mget pair_cmp k (m_rules p)) as [[r0|]|]; cbn; intros E; inversion E. apply rp_rp. Qed.
  Lemma adjusted_conf_repointed k r : mget pair_cmp k (c_rules c1) = Some r -> mget pair_cmp k (m_rules p1) = None -> rp r = r.
  Proof.
    intros E N. rewrite adjusted_patch_get in N. unfold c1 in E. rewrite adjusted_conf_get in E. unfold repoint in E.
    destruct (mget pair_cmp k (m_rules p)); [discriminate|]. destruct (mget pair_cmp k (c_rules c)); inversion E. apply rp_rp.
  Qed.

  Lemma committed_raw_get k : mget pair_cmp k R' = match mget pair_cmp k (m_rules p2) with Some w => w | None => mget pair_cmp k (c_rules c1) end.
  Proof.
    unfold R'.
    apply (aget_fold_awrite pair_cmp good_pair pair_cmp_eq); [apply (po_rsorted _ Hp2)|apply (co_rsorted _ Hc1)].
  Qed.

  Lemma trimmed_patch_get k : mget pair_cmp k (m_rules p2) =
    match mget pair_cmp k (m_rules p1) with
    | Some v => if negb (opt_rule_json_eqb v (rget k (c_rules c1))) then Some v else None
    | None => None
    end.
  Proof.
    unfold p2, patch_trim. cbn [m_rules].
    rewrite (aget_filter pair_cmp good_pair pair_cmp_eq) by apply (po_rsorted _ Hp1). reflexivity.
  Qed.

  Lemma trimmed_group_get k : mget key_cmp k (m_groups p2) =
    match mget key_cmp k (m_groups p) with
    | Some g => if negb (group_eqb g (c_get_group c1 k)) then Some g else None
    | None => None
    end.
  Proof.
    unfold p2, patch_trim. cbn [m_groups]. change (m_groups p1) with (m_groups p).
    rewrite (aget_filter key_cmp good_key key_cmp_eq) by apply (po_gsorted _ Hp). reflexivity.
  Qed.

  (* adjust() of the committed configuration gives every rule the group patch.adjust() gave it: trim drops a
     group entry only if it equals what is served (or the default), adjust() drops only default groups and
     re-creates the default for every group id that has a rule *)
  Lemma committed_group k r : In (k, r) R' -> gget (r_gid r) g1' = Some (pgg (r_gid r)).
  Proof.
    intros Hin. set (gid := r_gid r).
    assert (SG' : gsorted G') by (apply commit_groups_sorted; apply (co_gsorted _ Hc1)).
    unfold gget, g1'. rewrite aget_fold_add_default by (apply filter_sorted; exact SG').
    rewrite (aget_filter key_cmp good_key key_cmp_eq) by exact SG'.
    assert (Ex : existsb (fun kr : (id * id) * rule => key_eqb gid (r_gid (snd kr))) R' = true).
    { apply existsb_exists. exists (k, r). split; [exact Hin|]. apply key_eqb_eq. reflexivity. }
    rewrite Ex. unfold G'. rewrite aget_fold_mset_groups by (try apply (po_gsorted _ Hp2); apply (co_gsorted _ Hc1)).
    rewrite trimmed_group_get. change (c_groups c1) with (c_groups c).
    unfold pgg, p_get_group, gget, c_get_group. change (c_groups c1) with (c_groups c). unfold gget. cbn [snd].
    (* a group that adjust() drops as default is the default group it re-creates *)
    assert (RT : forall g, g_id g = gid ->
              match (if negb (is_default g) then Some g else None) with Some x => Some x | None => Some (default_group gid) end = Some g).
    { intros g Kg. destruct (is_default g) eqn:D; cbn [negb]; [|reflexivity]. f_equal. symmetry. apply default_group_eq; assumption. }
    destruct (mget key_cmp gid (m_groups p)) as [g|] eqn:Eg.
    - assert (Kg : g_id g = gid).
      { symmetry. apply (po_groups _ Hp). apply (aget_In key_cmp key_cmp_eq). exact Eg. }
      destruct (group_eqb g match mget key_cmp gid (c_groups c) with Some g0 => g0 | None => default_group gid end) eqn:Eq; cbn [negb];
        [|exact (RT g Kg)].
      apply group_eqb_eq in Eq. destruct (mget key_cmp gid (c_groups c)) as [g0|] eqn:E0; [subst g0; exact (RT g Kg)|].
      rewrite Eq. reflexivity.
    - destruct (mget key_cmp gid (c_groups c)) as [g0|] eqn:E0; [|reflexivity].
      apply RT. symmetry. apply (co_groups _ Hc). apply (aget_In key_cmp key_cmp_eq). exact E0.
  Qed.

  Lemma committed_rules :
    c_rules (patch_commit c1 p2) = map (fun kr => (fst kr, set_group (snd kr) (gget (r_gid (snd kr)) g1'))) R'.
  Proof. unfold patch_commit. rewrite config_adjust_unfold. reflexivity. Qed.

  Lemma trimmed_same k r1 r :
    mget pair_cmp k (m_rules p1) = Some (Some r1) -> mget pair_cmp k (c_rules c1) = Some r ->
    rule_json_eqb r1 r = true -> rp r = r1.
  Proof.
    intros H1 H2 J. rewrite <- (adjusted_patch_repointed k r1 H1). apply rp_strip. symmetry.
    destruct (po_rules _ Hp1 k r1 (aget_In pair_cmp pair_cmp_eq _ _ _ H1)) as [_ V1].
    destruct (co_rules _ Hc1 k r (aget_In pair_cmp pair_cmp_eq _ _ _ H2)) as [_ V2].
    apply (rule_json_eqb_strip r1 r J). rewrite (proj1 (valid_facts r1 V1)), (proj1 (valid_facts r V2)). reflexivity.
  Qed.

  (* the committed configuration serves, key by key, what the validated view showed *)
  Theorem committed_get_view k : rget k (c_rules (patch_commit c1 p2)) = vget c1 p1 k.
  Proof.
    unfold rget, vget. rewrite committed_rules.
    rewrite (aget_map_vals pair_cmp (fun r => set_group r (gget (r_gid r) g1')) R' k).
    pose proof (committed_raw_get k) as G. rewrite trimmed_patch_get in G.
    destruct (mget pair_cmp k R') as [r|] eqn:E; cbn [option_map].
    - pose proof (aget_In pair_cmp pair_cmp_eq _ _ _ E) as Hin. rewrite (committed_group k r Hin).
      destruct (mget pair_cmp k (m_rules p1)) as [v|] eqn:E1.
      + destruct (negb _) eqn:Ek in G.
        * subst v. f_equal. exact (adjusted_patch_repointed k r E1).
        * apply negb_false_iff in Ek. unfold rget in Ek. rewrite <- G in Ek.
          destruct v as [r1|]; [|discriminate]. f_equal. exact (trimmed_same k r1 r E1 (eq_sym G) Ek).
      + rewrite <- G. f_equal. exact (adjusted_conf_repointed k r (eq_sym G) E1).
    - destruct (mget pair_cmp k (m_rules p1)) as [v|] eqn:E1; [|exact G].
      destruct (negb _) eqn:Ek in G; [exact G|].
      apply negb_false_iff in Ek. unfold rget in Ek. rewrite <- G in Ek. destruct v; [discriminate|reflexivity].
  Qed.

  Lemma view_vget y : In y (patch_view c1 p1) <-> exists k, vget c1 p1 k = Some y.
  Proof.
    rewrite view_In. unfold vget. split.
    - intros [[k H]|[k [H N]]]; exists k.
      + rewrite (In_aget pair_cmp good_pair k _ _ (po_rsorted _ Hp1) H). reflexivity.
      + rewrite N. apply (In_aget pair_cmp good_pair); [apply (co_rsorted _ Hc1)|exact H].
    - intros [k H]. destruct (mget pair_cmp k (m_rules p1)) as [w|] eqn:E.
      + subst w. left. exists k. apply (aget_In pair_cmp pair_cmp_eq). exact E.
      + right. exists k. split; [apply (aget_In pair_cmp pair_cmp_eq); exact H|exact E].
  Qed.

  Theorem committed_eq_view y :
    In y (map snd (c_rules (patch_commit c1 p2))) <-> In y (patch_view c1 p1).
  Proof.
    pose proof (co_rsorted _ (patch_commit_ok _ _ Hc1 Hp2)) as S.
    rewrite view_vget, in_map_iff. split.
    - intros [[k r] [<- Hin]]. exists k. rewrite <- committed_get_view. apply (In_aget pair_cmp good_pair); assumption.
    - intros [k H]. rewrite <- committed_get_view in H. exists (k, y). split; [reflexivity|].
      apply (aget_In pair_cmp pair_cmp_eq). exact H.
  Qed.
End Commit.

Lemma nodup_flat {X} (m : list ((id * id) * X)) (sel : (id * id) * X -> list rule) :
  psorted m -> (forall kr, In kr m -> forall r, In r (sel kr) -> rkey r = fst kr) -> (forall kr, (length (sel kr) <= 1)%nat) ->
  NoDup (map rkey (flat_map sel m)) /\ (forall r, In r (flat_map sel m) -> In (rkey r) (map fst m)).
Proof.
  intros S K L. induction S as [|x rest S IH F]; cbn [flat_map]; [split; [constructor|intros r []]|].
  destruct IH as [IH1 IH2]; [intros kr Hkr; apply K; right; exact Hkr|]. rewrite Forall_forall in F. split.
  - rewrite map_app. apply NoDup_app_intro; [|exact IH1|].
    + specialize (L x). destruct (sel x) as [|r [|r' t]]; cbn in *; [constructor|repeat constructor; intros []|lia].
    + intros k Hk1 Hk2. apply in_map_iff in Hk1 as [r1 [E1 H1]]. apply in_map_iff in Hk2 as [r2 [E2 H2]].
      apply IH2 in H2. rewrite E2, <- E1, (K x (or_introl eq_refl) r1 H1) in H2. apply in_map_iff in H2 as [y [Ey Hy]].
      specialize (F y Hy). unfold klt in F. rewrite Ey, (g_refl _ good_pair) in F. discriminate.
  - intros r Hr. apply in_app_or in Hr as [Hr|Hr]; cbn [map]; [left; symmetry; apply (K x (or_introl eq_refl)); exact Hr|right; apply IH2; exact Hr].
Qed.

Lemma view_wf c p : conf_ok c -> patch_ok p ->
  wf_rules (patch_view (fst (patch_adjust c p)) (snd (patch_adjust c p))).
Proof.
  intros Hc Hp. pose proof (proj1 (patch_adjust_ok c p Hc Hp)) as C1. pose proof (patch_adjust_patch_ok c p Hp) as P1.
  set (c1 := fst (patch_adjust c p)) in *. set (p1 := snd (patch_adjust c p)) in *.
  constructor.
  - unfold patch_view. rewrite map_app.
    destruct (nodup_flat (m_rules p1) (fun kr => match snd kr with Some r => [r] | None => [] end) (po_rsorted _ P1)) as [N1 M1].
    { intros [k [r0|]] Hin r H; cbn in H; [destruct H as [<-|[]]|destruct H]. cbn. symmetry. apply (po_rules _ P1 k r0 Hin). }
    { intros [k [r0|]]; cbn; lia. }
    destruct (nodup_flat (c_rules c1) (fun kr => match mget pair_cmp (fst kr) (m_rules p1) with Some _ => [] | None => [snd kr] end)
                (co_rsorted _ C1)) as [N2 M2].
    { intros [k r0] Hin r H. cbn [fst snd] in H. destruct (mget pair_cmp k (m_rules p1)); [destruct H|]. destruct H as [<-|[]].
      cbn. symmetry. apply (co_rules _ C1 k r0 Hin). }
    { intros [k r0]. cbn [fst snd]. destruct (mget pair_cmp k (m_rules p1)); cbn; lia. }
    apply NoDup_app_intro; [exact N1|exact N2|].
    intros k Hk1 Hk2. apply in_map_iff in Hk1 as [r1 [E1 H1]]. apply in_map_iff in Hk2 as [r2 [E2 H2]].
    apply in_flat_map in H1 as [[k1 [r1'|]] [Hin1 Hs1]]; cbn in Hs1; [|destruct Hs1]. destruct Hs1 as [<-|[]].
    apply in_flat_map in H2 as [[k2 r2'] [Hin2 Hs2]]. cbn [fst snd] in Hs2.
    destruct (mget pair_cmp k2 (m_rules p1)) eqn:N; [destruct Hs2|]. destruct Hs2 as [<-|[]].
    destruct (po_rules _ P1 k1 r1' Hin1) as [K1 _]. destruct (co_rules _ C1 k2 r2' Hin2) as [K2 _].
    assert (Ek : k1 = k2) by congruence. rewrite <- Ek in N.
    rewrite (In_aget pair_cmp good_pair k1 (Some r1') (m_rules p1) (po_rsorted _ P1) Hin1) in N. discriminate.
  - intros r Hr. apply view_In in Hr as [[k H]|[k [H _]]].
    + destruct (po_rules _ P1 k r H) as [_ V]. apply (valid_facts r V).
    + destruct (co_rules _ C1 k r H) as [_ V]. apply (valid_facts r V).
Qed.

Lemma conf_rules_wf c : conf_ok c -> wf_rules (map snd (c_rules c)).
Proof.
  intros [A B C D]. constructor.
  - assert (E : map rkey (map snd (c_rules c)) = map fst (c_rules c)).
    { rewrite map_map. apply map_ext_in. intros [k r] Hin. cbn. symmetry. apply (B k r Hin). }
    rewrite E. apply (asorted_NoDup_keys pair_cmp good_pair). exact A.
  - intros r Hr. apply in_map_iff in Hr as [[k r0] [<- Hin]]. cbn. destruct (B k r0 Hin) as [_ V]. apply (valid_facts r0 V).
Qed.

Theorem accepted_update_indexes m s p order m' s' ok :
  conf_ok (m_conf m) -> patch_ok p ->
  try_commit m s p order None = (m', s', None, ok) ->
  indexes (map snd (c_rules (m_conf m'))) (m_list m').
Proof.
  intros Hc Hp H. destruct (try_commit_committed _ _ _ _ _ _ _ _ H) as (c1 & p1 & rl & Ea & Eb & -> & _).
  pose proof (view_wf (m_conf m) p Hc Hp) as W. pose proof (committed_eq_view (m_conf m) p Hc Hp) as Eq.
  rewrite Ea in W, Eq. cbn [fst snd m_conf m_list] in *.
  apply (indexes_ext (patch_view c1 p1)); [intros y; symmetry; apply Eq|]. apply build_indexes; assumption.
Qed.

Record served_in_sync (m : manager) (s : storage) : Prop := {
  ho_conf : conf_ok (m_conf m);
  ho_canon : canonical (m_conf m);
  ho_mirror : mirrors (m_conf m) s;
  ho_index : indexes (map snd (c_rules (m_conf m))) (m_list m)
}.
Definition st_in_sync : state -> Prop := on_live served_in_sync.

Lemma step_update_in_sync st u w : st_in_sync st -> st_in_sync (fst (step_update st u None w)).
Proof.
  apply step_update_on_live. intros m p m' s' e ok El [H1 H2 H3 H4] Ep Et.
  pose proof (make_patch_ok _ _ _ Ep) as Pok. destruct e as [e|].
  - destruct (try_commit_error _ _ _ _ _ _ _ _ _ H2 Et) as [-> [[_ ->]|[_ N]]]; [constructor; assumption|contradiction].
  - constructor.
    + eapply try_commit_conf_ok; eauto.
    + eapply try_commit_canonical; eauto.
    + eapply accepted_update_mirrors; eauto. apply (co_gsorted _ H1).
    + eapply accepted_update_indexes; eauto.
Qed.

Lemma default_rule_valid mr : (1 <= mr)%Z -> valid (default_rule mr).
Proof.
  intros H. apply valid_iff. unfold content_ok, role_ok, default_rule. cbn.
  destruct (mr <=? 0)%Z eqn:E; [apply Z.leb_le in E; lia|reflexivity].
Qed.

Lemma initialize_empty_in_sync mr m s' : initialize (Storage [] []) mr = (inl m, s') -> served_in_sync m s'.
Proof.
  intros H. pose proof (initialize_empty_mirrors mr m s' H) as M. pose proof (initialize_canonical _ _ _ _ H) as Cn.
  unfold initialize, load_repairs in H. cbn [load_rules s_rules fold_left filter la_rules la_save la_delete s_groups] in H.
  destruct (build_rule_list _) as [e|rl] eqn:B; inversion H; subst. clear H. cbn [m_conf m_list] in *.
  (* the default rule alone is accepted only with at least one voter *)
  assert (Hmr : (1 <= mr)%Z).
  { destruct (Z.leb_spec 1 mr) as [L|L]; [exact L|exfalso].
    revert B. unfold build_rule_list. cbn.
    assert (E : (mr <? 1)%Z = true) by (apply Z.ltb_lt; lia).
    unfold check_apply_rules. cbn. rewrite ?Z.add_0_l, E. discriminate. }
  assert (Ck : conf_ok (config_adjust (Config [(rkey (default_rule mr), default_rule mr)] []))).
  { apply config_adjust_ok. constructor; cbn [c_rules c_groups].
    - repeat constructor.
    - intros k r [E|[]]. inversion E; subst. split; [reflexivity|apply default_rule_valid; exact Hmr].
    - constructor.
    - intros k g []. }
  constructor; [exact Ck|exact Cn|exact M|].
  apply build_indexes; [apply conf_rules_wf; exact Ck|exact B].
Qed.

Theorem fault_free_history_ok mr ups :
  forallb fault_free_update ups = true -> st_in_sync (run_state step init_state (ORestart mr :: ups)).
Proof.
  intros Hff. cbn [run_state]. apply (run_state_inv_on step (fun o => fault_free_update o = true)).
  - intros st [| u [|] w | u w | | | |]; try discriminate; intros _; apply step_update_in_sync.
  - apply Forall_forall, forallb_forall, Hff.
  - unfold step. cbn [st_store init_state]. destruct (initialize (Storage [] []) mr) as [[m0|e] s0] eqn:Ei; [|exact I].
    exact (initialize_empty_in_sync _ _ _ Ei).
Qed.

(* a PD restarted on the storage gets the RuleManager that is serving: same configuration, same index *)
Theorem in_sync_reload m s mr : served_in_sync m s -> initialize s mr = (inl m, s).
Proof.
  intros [H1 H2 H3 H4].
  assert (Hne : c_rules (m_conf m) <> []).
  { destruct H4 as (_ & _ & _ & [y [Hy _]]). intros E. rewrite E in Hy. destruct Hy. }
  rewrite (initialize_mirror (m_conf m) s mr H1 H2 H3 Hne), (build_complete _ _ (conf_rules_wf _ H1) H4).
  destruct m; reflexivity.
Qed.
