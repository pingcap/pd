(* C08 — one round of the non-joint loop: peerPlan's result, applied by buildStepsWithoutJointConsensus
   (transfer, add, promote, transfer, demote, remove), keeps the simulation and the pending-map invariant. *)
From Coq Require Import String Sorting.Sorted.
From PDV Require Import lib.Base gen.Gen_C08 model.C08_Steps model.C08_Builder
     proof.C08_ListFacts proof.C08_PmapFacts proof.C08_SimPhases proof.C08_StepSpec proof.C08_NjSteps proof.C08_NjPlans
     proof.C08_Skel.
Local Open Scope list_scope.
Local Open Scope Z_scope.

Definition maybe_transfer (b : bstate) (l : Z) : bstate :=
  if negb (l =? 0) && negb (l =? b_cur_leader b) then set_kinds (exec_transfer b l) true (b_kregion b) else b.
Definition do_add (b : bstate) (oa : option peer) : bstate :=
  match oa with Some a => let x := exec_add b a in set_kinds x (b_kleader x) true | None => b end.
Definition do_promote (b : bstate) (ox : option peer) : bstate := match ox with Some x => exec_promote b x | None => b end.
Definition do_demote (b : bstate) (ox : option peer) : bstate := match ox with Some x => exec_demote b x | None => b end.
Definition do_remove (b : bstate) (ox : option peer) : bstate :=
  match ox with Some x => let y := exec_remove b x in set_kinds y (b_kleader y) true | None => b end.

Lemma apply_plan_eq b p :
  apply_plan b p =
  do_remove (do_demote (maybe_transfer (do_promote (do_add (maybe_transfer b (lba p)) (p_add p)) (p_promote p)) (lbr p)) (p_demote p)) (p_remove p).
Proof. reflexivity. Qed.

(* A property of the builder state that every call of the loop keeps, given what is known at that call; the loop lemmas
   below carry one such property along with the simulation (instances: keeps of proof/C08_NjMain.v, NjM of
   proof/C09_NjMono.v). *)
Record NjClosed (T : pmap) (g : goal) (r0 : region) (Q : bstate -> Prop) : Prop := {
  q_kinds : forall b kl kr, Q b -> Q (set_kinds b kl kr);
  q_transfer : forall b to, Q b -> Q (exec_transfer b to);
  q_add : forall b r a, Sim g r0 b r -> PInv T b -> pm_get (b_add b) (pstore a) = Some a -> pm_get (b_cur b) (pstore a) = None ->
                        Q b -> Q (exec_add b a);
  q_promote : forall b r n, Sim g r0 b r -> PInv T b -> pm_get (b_promote b) (pstore n) = Some n -> Q b -> Q (exec_promote b n);
  q_demote : forall b r n, Sim g r0 b r -> PInv T b -> pm_get (b_demote b) (pstore n) = Some n -> Q b -> Q (exec_demote b n);
  q_remove : forall b r x, Sim g r0 b r -> PInv T b -> pm_get (b_remove b) (pstore x) = Some x -> Q b -> Q (exec_remove b x)
}.

Lemma maybe_transfer_frame b l :
  b_cur (maybe_transfer b l) = b_cur b /\ b_add (maybe_transfer b l) = b_add b /\ b_remove (maybe_transfer b l) = b_remove b
  /\ b_promote (maybe_transfer b l) = b_promote b /\ b_demote (maybe_transfer b l) = b_demote b.
Proof. unfold maybe_transfer. destruct (negb (l =? 0) && negb (l =? b_cur_leader b)); repeat split. Qed.

Lemma do_add_frame b oa :
  b_cur (do_add b oa) = (match oa with Some a => pm_set (b_cur b) a | None => b_cur b end)
  /\ b_remove (do_add b oa) = b_remove b /\ b_promote (do_add b oa) = b_promote b /\ b_demote (do_add b oa) = b_demote b
  /\ b_cur_leader (do_add b oa) = b_cur_leader b.
Proof. destruct oa; repeat split. Qed.

Lemma do_promote_frame b ox :
  b_cur (do_promote b ox) = (match ox with Some x => pm_set (b_cur b) x | None => b_cur b end)
  /\ b_remove (do_promote b ox) = b_remove b /\ b_demote (do_promote b ox) = b_demote b
  /\ b_cur_leader (do_promote b ox) = b_cur_leader b.
Proof. destruct ox; repeat split. Qed.

Lemma do_demote_frame b ox : b_remove (do_demote b ox) = b_remove b.
Proof. destruct ox; reflexivity. Qed.

Section Apply.
  Variables (T : pmap) (g : goal) (r0 : region) (Q : bstate -> Prop).
  Hypothesis HQ : NjClosed T g r0 Q.

  Lemma Sim_same b b' r :
    b_steps b' = b_steps b -> b_cur b' = b_cur b -> b_cur_leader b' = b_cur_leader b -> b_add b' = b_add b ->
    Sim g r0 b r -> Sim g r0 b' r.
  Proof.
    intros E1 E2 E3 E4 [S1 S2 S3 S4 S5 S6]. constructor; [ | exact S2 | exact S3 | | | ].
    - intros rest. rewrite E1. apply S1.
    - intros st. rewrite E2. apply S4.
    - rewrite E3. exact S5.
    - rewrite E4. exact S6.
  Qed.

  Lemma stage_transfer b r l :
    Sim g r0 b r -> PInv T b -> Q b -> (l = 0 \/ exists q, pm_get (b_cur b) l = Some q /\ prole q = Voter) ->
    exists r', Sim g r0 (maybe_transfer b l) r' /\ PInv T (maybe_transfer b l) /\ Q (maybe_transfer b l)
               /\ voters_new (peers r') = voters_new (peers r)
               /\ leader r' = (if l =? 0 then leader r else l).
  Proof.
    intros S P M H. unfold maybe_transfer.
    destruct (l =? 0) eqn:E0; cbn [negb andb].
    - exists r. auto.
    - destruct (l =? b_cur_leader b) eqn:E1; cbn [negb].
      + exists r. apply Z.eqb_eq in E1. rewrite (sim_leader _ _ _ _ S). auto.
      + apply Z.eqb_neq in E0, E1. destruct H as [H|(q & Hq & Hro)]; [contradiction|].
        destruct (step_transfer T g r0 b r l q S P Hq Hro E1) as [S' P'].
        exists (set_leader r l). split; [|split; [|split; [|split; reflexivity]]].
        * eapply Sim_same; [..|exact S']; reflexivity.
        * eapply PInv_same; [..|exact P']; reflexivity.
        * apply (q_kinds _ _ _ _ HQ), (q_transfer _ _ _ _ HQ), M.
  Qed.

  Lemma stage_add b r oa :
    Sim g r0 b r -> PInv T b -> Q b ->
    (forall a, oa = Some a -> pm_get (b_add b) (pstore a) = Some a /\ pm_get (b_cur b) (pstore a) = None) ->
    exists r', Sim g r0 (do_add b oa) r' /\ PInv T (do_add b oa) /\ Q (do_add b oa)
               /\ voters_new (peers r') = voters_new (peers r) + b2z (match oa with Some a => negb (is_learner a) | None => false end)
               /\ leader r' = leader r.
  Proof.
    intros S P M H. destruct oa as [a|]; cbn [do_add].
    - destruct (H a eq_refl) as [Ha Hc]. destruct (step_add T g r0 b r a S P Ha Hc) as (r' & S' & P' & V' & L').
      exists r'. split; [|split; [|split; [|split; assumption]]].
      + eapply Sim_same; [..|exact S']; reflexivity.
      + eapply PInv_same; [..|exact P']; reflexivity.
      + apply (q_kinds _ _ _ _ HQ), (q_add _ _ _ _ HQ b r a S P Ha Hc M).
    - exists r. split; [exact S|split; [exact P|split; [exact M|split; [cbn; lia|reflexivity]]]].
  Qed.

  Lemma stage_promote b r ox :
    Sim g r0 b r -> PInv T b -> Q b -> (forall x, ox = Some x -> pm_get (b_promote b) (pstore x) = Some x) ->
    exists r', Sim g r0 (do_promote b ox) r' /\ PInv T (do_promote b ox) /\ Q (do_promote b ox)
               /\ voters_new (peers r') = voters_new (peers r) + b2z (is_some ox)
               /\ leader r' = leader r.
  Proof.
    intros S P M H. destruct ox as [x|]; cbn [do_promote is_some].
    - destruct (step_promote T g r0 b r x S P (H x eq_refl)) as (r' & S' & P' & V' & L'). exists r'.
      split; [exact S'|split; [exact P'|split; [exact (q_promote _ _ _ _ HQ b r x S P (H x eq_refl) M)|split; assumption]]].
    - exists r. split; [exact S|split; [exact P|split; [exact M|split; [cbn; lia|reflexivity]]]].
  Qed.

  Lemma stage_demote b r ox :
    Sim g r0 b r -> PInv T b -> Q b -> (forall x, ox = Some x -> pm_get (b_demote b) (pstore x) = Some x /\ leader r <> pstore x) ->
    g_min_voters g + b2z (is_some ox) <= voters_new (peers r) ->
    exists r', Sim g r0 (do_demote b ox) r' /\ PInv T (do_demote b ox) /\ Q (do_demote b ox)
               /\ voters_new (peers r') = voters_new (peers r) - b2z (is_some ox)
               /\ leader r' = leader r.
  Proof.
    intros S P M H Hv. destruct ox as [x|]; cbn [do_demote is_some] in *.
    - destruct (H x eq_refl) as [Hx Hl].
      destruct (step_demote T g r0 b r x S P Hx Hl Hv) as (r' & S' & P' & V' & L'). exists r'.
      split; [exact S'|split; [exact P'|split; [exact (q_demote _ _ _ _ HQ b r x S P Hx M)|split; assumption]]].
    - exists r. split; [exact S|split; [exact P|split; [exact M|split; [cbn; lia|reflexivity]]]].
  Qed.

  Lemma stage_remove b r ox :
    Sim g r0 b r -> PInv T b -> Q b -> (forall x, ox = Some x -> pm_get (b_remove b) (pstore x) = Some x /\ leader r <> pstore x) ->
    g_min_voters g + b2z (match ox with Some x => new_voter x | None => false end) <= voters_new (peers r) ->
    exists r', Sim g r0 (do_remove b ox) r' /\ PInv T (do_remove b ox) /\ Q (do_remove b ox).
  Proof.
    intros S P M H Hv. destruct ox as [x|]; cbn [do_remove] in *.
    - destruct (H x eq_refl) as [Hx Hl].
      destruct (step_remove T g r0 b r x S P Hx Hl Hv) as (r' & S' & P' & V' & L'). exists r'. split; [|split].
      + eapply Sim_same; [..|exact S']; reflexivity.
      + eapply PInv_same; [..|exact P']; reflexivity.
      + apply (q_kinds _ _ _ _ HQ), (q_remove _ _ _ _ HQ b r x S P Hx M).
    - exists r. auto.
  Qed.
End Apply.

Definition voters_gained (p : splan) : Z :=
  b2z (match p_add p with Some a => negb (is_learner a) | None => false end) + b2z (is_some (p_promote p)).
Definition voters_lost (p : splan) : Z :=
  b2z (is_some (p_demote p)) + b2z (match p_remove p with Some x => new_voter x | None => false end).

Record PlanOK (g : goal) (b : bstate) (r : region) (p : splan) : Prop := {
  ok_lba : lba p = 0 \/ exists q, pm_get (b_cur b) (lba p) = Some q /\ prole q = Voter;
  ok_add : forall a, p_add p = Some a -> pm_get (b_add b) (pstore a) = Some a /\ pm_get (b_cur b) (pstore a) = None;
  ok_pro : forall x, p_promote p = Some x -> pm_get (b_promote b) (pstore x) = Some x;
  ok_dem : forall x, p_demote p = Some x -> pm_get (b_demote b) (pstore x) = Some x;
  ok_rem : forall x, p_remove p = Some x -> pm_get (b_remove b) (pstore x) = Some x;
  ok_lbr : (lbr p = 0 /\ p_demote p = None /\ p_remove p = None) \/
           (lbr p <> 0 /\ lbr p <> ostore (p_demote p) /\ lbr p <> ostore (p_remove p) /\
            ((exists q, pm_get (b_cur b) (lbr p) = Some q /\ prole q = Voter)
             \/ (exists x, p_promote p = Some x /\ pstore x = lbr p)
             \/ (exists a, p_add p = Some a /\ pstore a = lbr p /\ prole a = Voter)));
  ok_votes : g_min_voters g + voters_lost p <= voters_new (peers r) + voters_gained p
}.

Section Round.
  Variables (T : pmap) (g : goal) (r0 : region) (Q : bstate -> Prop).
  Hypothesis HQ : NjClosed T g r0 Q.

  Lemma b2z_nonneg c : 0 <= b2z c.
  Proof. destruct c; cbn; lia. Qed.

  Lemma lbr_voter b p :
    PInv T b ->
    (forall a, p_add p = Some a -> pm_get (b_add b) (pstore a) = Some a /\ pm_get (b_cur b) (pstore a) = None) ->
    (forall x, p_promote p = Some x -> pm_get (b_promote b) (pstore x) = Some x) ->
    ((exists q, pm_get (b_cur b) (lbr p) = Some q /\ prole q = Voter)
     \/ (exists x, p_promote p = Some x /\ pstore x = lbr p)
     \/ (exists a, p_add p = Some a /\ pstore a = lbr p /\ prole a = Voter)) ->
    exists q, pm_get (match p_promote p with Some x => pm_set (match p_add p with Some a => pm_set (b_cur b) a | None => b_cur b end) x
                                             | None => match p_add p with Some a => pm_set (b_cur b) a | None => b_cur b end end) (lbr p) = Some q
              /\ prole q = Voter.
  Proof.
    intros P Kadd Kpro Hc.
    assert (Hprole : forall x, p_promote p = Some x -> prole x = Voter).
    { intros x Hx. pose proof (pi_at _ _ P (pstore x)) as I. unfold look, PIat in I. rewrite (Kpro x Hx) in I.
      destruct I as (Qp & _). destruct (Qp x eq_refl) as (o & _ & _ & En). rewrite En. reflexivity. }
    assert (Hbase : exists q, pm_get (match p_add p with Some a => pm_set (b_cur b) a | None => b_cur b end) (lbr p) = Some q /\ prole q = Voter
                    \/ exists x, p_promote p = Some x /\ pstore x = lbr p).
    { destruct Hc as [(q & Hq & Hro)|[(x & Hx & Hs)|(a & Ha & Hs & Hro)]].
      - exists q. left. split; [|exact Hro]. destruct (p_add p) as [a|]; [|exact Hq].
        rewrite get_set. destruct (lbr p =? pstore a) eqn:E2; [|exact Hq].
        apply Z.eqb_eq in E2. destruct (Kadd a eq_refl) as [_ C]. rewrite <- E2, Hq in C. discriminate.
      - exists x. right. eauto.
      - exists a. left. rewrite Ha, get_set, <- Hs, Z.eqb_refl. auto. }
    destruct Hbase as (q & [[Hq Hro]|(x & Hx & Hs)]).
    - destruct (p_promote p) as [x|]; [|eauto]. rewrite get_set. destruct (lbr p =? pstore x); [exists x; split; [reflexivity|apply Hprole; reflexivity]|eauto].
    - rewrite Hx, get_set, <- Hs, Z.eqb_refl. exists x. split; [reflexivity|apply Hprole; exact Hx].
  Qed.

  Lemma apply_plan_ok b r p :
    Sim g r0 b r -> PInv T b -> PlanOK g b r p -> Q b ->
    exists r', Sim g r0 (apply_plan b p) r' /\ PInv T (apply_plan b p) /\ Q (apply_plan b p).
  Proof.
    intros S P [Ka Kadd Kpro Kdem Krem Kl Kv] M. rewrite apply_plan_eq.
    destruct (stage_transfer T g r0 Q HQ b r (lba p) S P M Ka) as (r1 & S1 & P1 & M1 & V1 & L1).
    destruct (maybe_transfer_frame b (lba p)) as (Ec1 & Ea1 & Er1 & Ep1 & Ed1).
    set (b1 := maybe_transfer b (lba p)) in *.
    assert (H2 : forall a, p_add p = Some a -> pm_get (b_add b1) (pstore a) = Some a /\ pm_get (b_cur b1) (pstore a) = None).
    { intros a Ha. rewrite Ea1, Ec1. apply Kadd. exact Ha. }
    destruct (stage_add T g r0 Q HQ b1 r1 (p_add p) S1 P1 M1 H2) as (r2 & S2 & P2 & M2 & V2 & L2).
    destruct (do_add_frame b1 (p_add p)) as (Ec2 & Er2 & Ep2 & Ed2 & El2).
    set (b2 := do_add b1 (p_add p)) in *.
    assert (H3 : forall x, p_promote p = Some x -> pm_get (b_promote b2) (pstore x) = Some x).
    { intros x Hx. rewrite Ep2, Ep1. apply Kpro. exact Hx. }
    destruct (stage_promote T g r0 Q HQ b2 r2 (p_promote p) S2 P2 M2 H3) as (r3 & S3 & P3 & M3 & V3 & L3).
    destruct (do_promote_frame b2 (p_promote p)) as (Ec3 & Er3 & Ed3 & El3).
    set (b3 := do_promote b2 (p_promote p)) in *.
    assert (H4 : lbr p = 0 \/ exists q, pm_get (b_cur b3) (lbr p) = Some q /\ prole q = Voter).
    { destruct Kl as [(Z0 & _)|(Nz & _ & _ & Hc)]; [left; exact Z0|right].
      rewrite Ec3, Ec2, Ec1. apply lbr_voter; assumption. }
    destruct (stage_transfer T g r0 Q HQ b3 r3 (lbr p) S3 P3 M3 H4) as (r4 & S4 & P4 & M4 & V4 & L4).
    destruct (maybe_transfer_frame b3 (lbr p)) as (Ec4 & Ea4 & Er4 & Ep4 & Ed4).
    set (b4 := maybe_transfer b3 (lbr p)) in *.
    assert (Hv4 : voters_new (peers r4) = voters_new (peers r) + voters_gained p) by (unfold voters_gained; lia).
    (* the leader is now away from whatever is demoted or removed *)
    assert (Hlead : forall x, (p_demote p = Some x \/ p_remove p = Some x) -> leader r4 <> pstore x).
    { intros x Hx. destruct Kl as [(Z0 & D0 & R0)|(Nz & N1 & N2 & _)].
      - destruct Hx as [Hx|Hx]; congruence.
      - rewrite L4. destruct (lbr p =? 0) eqn:E; [apply Z.eqb_eq in E; contradiction|].
        destruct Hx as [Hx|Hx]; [rewrite Hx in N1|rewrite Hx in N2]; cbn [ostore] in *; assumption. }
    assert (H5 : forall x, p_demote p = Some x -> pm_get (b_demote b4) (pstore x) = Some x /\ leader r4 <> pstore x).
    { intros x Hx. split; [rewrite Ed4, Ed3, Ed2, Ed1; apply Kdem; exact Hx|apply Hlead; left; exact Hx]. }
    assert (Hv5 : g_min_voters g + b2z (is_some (p_demote p)) <= voters_new (peers r4)).
    { rewrite Hv4. unfold voters_lost in Kv. pose proof (b2z_nonneg (match p_remove p with Some x => new_voter x | None => false end)). lia. }
    destruct (stage_demote T g r0 Q HQ b4 r4 (p_demote p) S4 P4 M4 H5 Hv5) as (r5 & S5 & P5 & M5 & V5 & L5).
    pose proof (do_demote_frame b4 (p_demote p)) as Er5.
    set (b5 := do_demote b4 (p_demote p)) in *.
    assert (H6 : forall x, p_remove p = Some x -> pm_get (b_remove b5) (pstore x) = Some x /\ leader r5 <> pstore x).
    { intros x Hx. split; [rewrite Er5, Er4, Er3, Er2, Er1; apply Krem; exact Hx|rewrite L5; apply Hlead; right; exact Hx]. }
    assert (Hv6 : g_min_voters g + b2z (match p_remove p with Some x => new_voter x | None => false end) <= voters_new (peers r5)).
    { rewrite V5, Hv4. unfold voters_lost in Kv. lia. }
    exact (stage_remove T g r0 Q HQ b5 r5 (p_remove p) S5 P5 M5 H6 Hv6).
  Qed.
End Round.

Section Kind.
  Variables (T : pmap) (g : goal) (r0 : region).
  Hypothesis HTs : PSorted T.
  Hypothesis HTnj : NJ T.
  Hypothesis HTv : g_min_voters g <= voters_new T.

  Lemma in_ids_get (m : pmap) l : In l (pm_ids m) -> exists q, pm_get m l = Some q.
  Proof.
    intros H. unfold pm_get. fold (lk m l). destruct (lk m l) as [q|] eqn:E; [eauto|].
    apply lk_None in E. contradiction.
  Qed.

  Lemma allow_role b q f : allow_leader b q f = true -> prole q = Voter \/ prole q = Incoming.
  Proof. unfold allow_leader. rewrite no_leader_roles_ok. destruct (prole q); cbn; intros H; try discriminate; auto. Qed.

  Lemma allowed_voter b l : PInv T b -> Allowed b l -> exists q, pm_get (b_cur b) l = Some q /\ prole q = Voter.
  Proof.
    intros P [Hin Ha]. destruct (in_ids_get _ _ Hin) as (q & Hq). rewrite Hq in Ha. cbn [allow_leader_o] in Ha.
    exists q. split; [exact Hq|]. pose proof (pi_at _ _ P l) as Q. unfold look, PIat in Q. rewrite Hq in Q.
    destruct Q as (_ & _ & _ & _ & _ & Qc). destruct (Qc q eq_refl) as (_ & _ & [R|R]); [exact R|].
    destruct (allow_role _ _ _ Ha) as [R'|R']; congruence.
  Qed.

  Lemma allowed_after_voter b la l : PInv T b -> AllowedAfter b la l -> exists q, pm_get (b_cur b) l = Some q /\ prole q = Voter.
  Proof.
    intros P [Hin Ha]. destruct (in_ids_get _ _ Hin) as (q & Hq). unfold allow_leader_after in Ha. rewrite Hq in Ha. cbn [allow_leader_o] in Ha.
    exists q. split; [exact Hq|]. pose proof (pi_at _ _ P l) as Q. unfold look, PIat in Q. rewrite Hq in Q.
    destruct Q as (_ & _ & _ & _ & _ & Qc). destruct (Qc q eq_refl) as (_ & _ & [R|R]); [exact R|].
    destruct (allow_role _ _ _ Ha) as [R'|R']; congruence.
  Qed.

  Lemma allowed_after_nonzero b la l : PInv T b -> AllowedAfter b la l -> l <> 0.
  Proof.
    intros P A. destruct (allowed_after_voter b la l P A) as (q & Hq & _).
    pose proof (pi_at _ _ P l) as Q. unfold look, PIat in Q. rewrite Hq in Q.
    destruct Q as (_ & _ & _ & _ & _ & Qc). destruct (Qc q eq_refl) as (N & _). exact N.
  Qed.

  Lemma allowed_nonzero b l : PInv T b -> Allowed b l -> l <> 0.
  Proof.
    intros P A. destruct (allowed_voter b l P A) as (q & Hq & _).
    pose proof (pi_at _ _ P l) as Q. unfold look, PIat in Q. rewrite Hq in Q.
    destruct Q as (_ & _ & _ & _ & _ & Qc). apply (Qc q eq_refl).
  Qed.

  Lemma in_get (m : pmap) x : PSorted m -> In x m -> pm_get m (pstore x) = Some x.
  Proof. intros H Hin. apply lk_In; [apply PSorted_ND; exact H|exact Hin]. Qed.

  Lemma cur_free_get b st : cur_free b st = true -> pm_get (b_cur b) st = None.
  Proof. unfold cur_free. destruct (pm_get (b_cur b) st); [discriminate|reflexivity]. Qed.

  Lemma add_facts b a : PInv T b -> In a (b_add b) ->
    pm_get (b_add b) (pstore a) = Some a /\ (prole a = Voter \/ prole a = Learner)
    /\ (is_learner a = false -> pm_get (b_cur b) (pstore a) = None).
  Proof.
    intros P Hin. pose proof (in_get _ _ (pi_add_s _ _ P) Hin) as Ha. split; [exact Ha|].
    pose proof (pi_at _ _ P (pstore a)) as Q. unfold look, PIat in Q. rewrite Ha in Q.
    destruct Q as (_ & _ & _ & Qa & _). destruct (Qa a eq_refl) as (_ & _ & Hro & _ & _ & Hc). split; [exact Hro|].
    intros Hl. destruct Hc as [Hc|(_ & R)]; [exact Hc|]. apply is_learner_role in R. congruence.
  Qed.

  Lemma remove_facts b x : PInv T b -> In x (b_remove b) ->
    pm_get (b_remove b) (pstore x) = Some x /\ pm_get (b_cur b) (pstore x) = Some x /\ (prole x = Voter \/ prole x = Learner).
  Proof.
    intros P Hin. pose proof (in_get _ _ (pi_rem_s _ _ P) Hin) as Hx. split; [exact Hx|].
    pose proof (pi_at _ _ P (pstore x)) as Q. unfold look, PIat in Q. rewrite Hx in Q.
    destruct Q as (_ & _ & Qr & _ & _ & Qc). destruct (Qr x eq_refl) as (Hc & _). split; [exact Hc|].
    rewrite Hc in Qc. apply (Qc x eq_refl).
  Qed.

  Lemma promote_facts b x : PInv T b -> In x (b_promote b) ->
    pm_get (b_promote b) (pstore x) = Some x /\ prole x = Voter /\ exists o, pm_get (b_cur b) (pstore x) = Some o /\ prole o = Learner.
  Proof.
    intros P Hin. pose proof (in_get _ _ (pi_pro_s _ _ P) Hin) as Hx. split; [exact Hx|].
    pose proof (pi_at _ _ P (pstore x)) as Q. unfold look, PIat in Q. rewrite Hx in Q.
    destruct Q as (Qp & _). destruct (Qp x eq_refl) as (o & Ho & Hro & En). split; [rewrite En; reflexivity|eauto].
  Qed.

  Lemma demote_facts b x : PInv T b -> In x (b_demote b) ->
    pm_get (b_demote b) (pstore x) = Some x /\ exists o, pm_get (b_cur b) (pstore x) = Some o /\ prole o = Voter.
  Proof.
    intros P Hin. pose proof (in_get _ _ (pi_dem_s _ _ P) Hin) as Hx. split; [exact Hx|].
    pose proof (pi_at _ _ P (pstore x)) as Q. unfold look, PIat in Q. rewrite Hx in Q.
    destruct Q as (_ & Qd & _). destruct (Qd x eq_refl) as (o & Ho & Hro & En). eauto.
  Qed.

  Lemma NJ_new_voter x : (prole x = Voter \/ prole x = Learner) -> new_voter x = negb (is_learner x).
  Proof. intros [R|R]; unfold new_voter, is_learner; rewrite R; reflexivity. Qed.

  (* a lone demotion / voter removal leaves at least the target's voters *)
  Lemma voters_bound b r s q0 :
    Sim g r0 b r -> PInv T b -> b_promote b = [] -> (forall a, In a (b_add b) -> is_learner a = true) ->
    pm_get (b_cur b) s = Some q0 -> prole q0 = Voter ->
    (pm_get (b_demote b) s <> None \/ pm_get (b_remove b) s <> None) ->
    g_min_voters g + 1 <= voters_new (peers r).
  Proof.
    intros S P Hp0 Hadd Hq0 Hro Hpend.
    assert (X : voters_new T + 1 <= voters_new (peers r)).
    { unfold voters_new. apply (count_inj_strict new_voter new_voter T (peers r) s q0).
      - apply PSorted_ND. exact HTs.
      - apply (inv_nd _ _ (sim_inv _ _ _ _ S)).
      - intros p Hp Fp.
        assert (Hvp : prole p = Voter).
        { destruct (HTnj p Hp) as [R|R]; [exact R|]. unfold new_voter in Fp. rewrite R in Fp. discriminate. }
        pose proof (in_get _ _ HTs Hp) as HTp.
        pose proof (pi_at _ _ P (pstore p)) as Q. unfold look, PIat in Q.
        destruct Q as (Qp & Qd & Qr & Qa & Qf & Qc). rewrite HTp in Qf. cbn [option_map] in Qf. rewrite Hvp in Qf.
        assert (Epro : pm_get (b_promote b) (pstore p) = None) by (rewrite Hp0; reflexivity).
        rewrite Epro in *.
        destruct (pm_get (b_add b) (pstore p)) as [a|] eqn:Ea.
        { exfalso. cbn in Qf. assert (Hin : In a (b_add b)) by (apply (lk_Some _ _ _ Ea)).
          specialize (Hadd a Hin). apply is_learner_role in Hadd. congruence. }
        destruct (pm_get (b_remove b) (pstore p)) as [x|] eqn:Er; [cbn in Qf; discriminate|].
        destruct (pm_get (b_demote b) (pstore p)) as [d|] eqn:Ed; [cbn in Qf; discriminate|].
        cbn in Qf. destruct (pm_get (b_cur b) (pstore p)) as [q|] eqn:Ec; [|discriminate].
        cbn in Qf. split.
        + intros C. rewrite C in Ed, Er. destruct Hpend as [H|H]; contradiction.
        + exists q. split; [rewrite (sim_cur _ _ _ _ S); exact Ec|]. inversion Qf as [R]. unfold new_voter. rewrite R. reflexivity.
      - rewrite (sim_cur _ _ _ _ S). exact Hq0.
      - unfold new_voter. rewrite Hro. reflexivity. }
    lia.
  Qed.

  Lemma plan_kind_ok b r p : Sim g r0 b r -> PInv T b -> PlanKind b p -> PlanOK g b r p.
  Proof.
    intros S P K. pose proof (inv_new _ _ (sim_inv _ _ _ _ S)) as Hv.
    destruct K as [(next & HB & (Hsb & HAa & N1 & N2 & Hlr))|x rest Hp Ep|Hre Hp0 (d & l & Hd & HAl & Nl & Ep)|Hre Hp0 (x & l & Hx & HAl & Nl & Ep)|(a & l & Ha & Hf & HAl & Ep)].
    - destruct Hsb as (Eadd & Erem & Epro & Edem).
      destruct (Body_parts b next HB) as (Ba & Br & Bp & Bd & Bv).
      assert (Hlba : exists q, pm_get (b_cur b) (lba p) = Some q /\ prole q = Voter) by (apply allowed_voter; assumption).
      assert (Hlbr : (exists q, pm_get (b_cur b) (lbr p) = Some q /\ prole q = Voter)
                     \/ (exists x, p_promote p = Some x /\ pstore x = lbr p)
                     \/ (exists a, p_add p = Some a /\ pstore a = lbr p /\ prole a = Voter)).
      { destruct Hlr as [HA|[(I1 & I2 & I3)|(I1 & I2 & I3)]].
        - left. eapply allowed_after_voter; eassumption.
        - right. left. rewrite Epro. destruct (p_promote next) as [x|]; [|discriminate]. exists x. cbn [ostore] in I2. auto.
        - right. right. rewrite Eadd. destruct (p_add next) as [a|] eqn:Ea; [|discriminate]. exists a. cbn [ostore allow_leader_o] in *.
          split; [reflexivity|split; [auto|]].
          destruct (add_facts b a P (proj1 (Ba a eq_refl))) as (_ & [R|R] & _); [exact R|].
          destruct (allow_role _ _ _ I3) as [R'|R']; congruence. }
      assert (Hlbr0 : lbr p <> 0).
      { destruct Hlr as [HA|[(I1 & I2 & I3)|(I1 & I2 & I3)]].
        - eapply (allowed_after_nonzero b); eassumption.
        - destruct (p_promote next) as [x|] eqn:Ex; [|discriminate]. cbn [ostore] in I2. rewrite I2.
          destruct (promote_facts b x P (Bp x eq_refl)) as (_ & _ & o & Ho & _).
          pose proof (pi_at _ _ P (pstore x)) as I. unfold look, PIat in I. rewrite Ho in I.
          destruct I as (_ & _ & _ & _ & _ & Qc). apply (Qc o eq_refl).
        - destruct (p_add next) as [a|] eqn:Ea; [|discriminate]. cbn [ostore] in I2. rewrite I2.
          destruct (add_facts b a P (proj1 (Ba a eq_refl))) as (Hga & _).
          pose proof (pi_at _ _ P (pstore a)) as I. unfold look, PIat in I. rewrite Hga in I.
          destruct I as (_ & _ & _ & Qa & _). apply (Qa a eq_refl). }
      constructor.
      + right. exact Hlba.
      + intros a Ha. rewrite Eadd in Ha. destruct (Ba a Ha) as [Hin Hc]. destruct (add_facts b a P Hin) as (G1 & _ & G3).
        split; [exact G1|]. destruct Hc as [Hc|Hc]; [apply cur_free_get; exact Hc|apply G3; exact Hc].
      + intros x Hx. rewrite Epro in Hx. apply (promote_facts b x P (Bp x Hx)).
      + intros x Hx. rewrite Edem in Hx. apply (demote_facts b x P (Bd x Hx)).
      + intros x Hx. rewrite Erem in Hx. apply (remove_facts b x P (Br x Hx)).
      + right. rewrite Edem, Erem. auto.
      + unfold voters_gained, voters_lost. rewrite Eadd, Erem, Epro, Edem.
        assert (Hnv : match p_remove next with Some x => new_voter x | None => false end
                      = match p_remove next with Some x => negb (is_learner x) | None => false end).
        { destruct (p_remove next) as [x|] eqn:Ex; [|reflexivity].
          destruct (remove_facts b x P (Br x eq_refl)) as (_ & _ & Rx). apply NJ_new_voter; exact Rx. }
        rewrite Hnv. destruct Bv as [Bv|(Hsingle & Ep0 & Ed0 & a & x & Ea & Ex)]; [lia|].
        rewrite Ea, Ex, Ep0, Ed0. cbn [is_some b2z].
        destruct (is_learner a) eqn:Ela, (is_learner x) eqn:Elx; cbn; try lia.
        (* a learner replaces a voter, and nothing else is pending: the target has one voter less than now *)
        pose proof (proj1 (Ba a Ea)) as Ha. destruct (remove_facts b x P (Br x Ex)) as (G2 & Hcx & Rx).
        unfold single_replace in Hsingle. apply andb_true_iff in Hsingle as [Hsingle _]. apply andb_true_iff in Hsingle as [Hsingle S3].
        apply andb_true_iff in Hsingle as [S1 _]. apply Nat.eqb_eq in S1, S3.
        assert (Hp0 : b_promote b = []) by (destruct (b_promote b); [reflexivity|discriminate S3]).
        assert (Hall : forall a', In a' (b_add b) -> is_learner a' = true).
        { intros a' Ha'. destruct (b_add b) as [|a0 [|a1 l]]; try discriminate S1. destruct Ha as [<-|[]]. destruct Ha' as [<-|[]]. exact Ela. }
        assert (Hxv : prole x = Voter).
        { destruct Rx as [R|R]; [exact R|]. apply is_learner_role in R. congruence. }
        assert (Hpend : pm_get (b_demote b) (pstore x) <> None \/ pm_get (b_remove b) (pstore x) <> None) by (right; rewrite G2; discriminate).
        pose proof (voters_bound b r (pstore x) x S P Hp0 Hall Hcx Hxv Hpend). lia.
    - subst p. assert (Hin : In x (b_promote b)) by (rewrite Hp; left; reflexivity).
      destruct (promote_facts b x P Hin) as (G1 & _).
      constructor; cbn [lba lbr p_add p_remove p_promote p_demote]; auto; try (intros ? C; try discriminate C; inversion C; subst; auto).
      unfold voters_gained, voters_lost; cbn. lia.
    - subst p. destruct (demote_facts b d P Hd) as (G1 & o & Ho & Hro).
      destruct (allowed_voter b l P HAl) as (q & Hq & Hqr).
      assert (Hl0 : l <> 0) by (apply (allowed_nonzero b); assumption).
      constructor; cbn [lba lbr p_add p_remove p_promote p_demote ostore]; auto; try (intros ? C; try discriminate C; inversion C; subst; auto).
      + right. repeat split; auto. left. eauto.
      + unfold voters_gained, voters_lost; cbn.
        assert (Hall : forall a, In a (b_add b) -> is_learner a = true).
        { intros a Ha. destruct (is_learner a) eqn:El; [reflexivity|]. exfalso.
          assert (X : NE (plan_replace b)).
          { apply plan_replace_NE_of. left. exists d, a, l, l. repeat split; auto; try apply HAl; apply allowed_after_self; exact HAl. }
          unfold NE in X. congruence. }
        pose proof (voters_bound b r (pstore d) o S P Hp0 Hall Ho Hro) as B.
        assert (Hpend : pm_get (b_demote b) (pstore d) <> None \/ pm_get (b_remove b) (pstore d) <> None) by (left; rewrite G1; discriminate).
        specialize (B Hpend). lia.
    - subst p. destruct (remove_facts b x P Hx) as (G1 & Hc & Rx).
      destruct (allowed_voter b l P HAl) as (q & Hq & Hqr).
      assert (Hl0 : l <> 0) by (apply (allowed_nonzero b); assumption).
      constructor; cbn [lba lbr p_add p_remove p_promote p_demote ostore]; auto; try (intros ? C; try discriminate C; inversion C; subst; auto).
      + right. repeat split; auto. left. eauto.
      + unfold voters_gained, voters_lost; cbn. rewrite (NJ_new_voter x Rx). destruct (is_learner x) eqn:Elx; cbn; [lia|].
        assert (Hall : forall a, In a (b_add b) -> is_learner a = true).
        { intros a Ha. destruct (is_learner a) eqn:El; [reflexivity|]. exfalso.
          destruct (add_facts b a P Ha) as (_ & _ & Gf).
          assert (X : NE (plan_replace b)).
          { apply plan_replace_NE_of. right. exists a, x, l, l. repeat split; auto; try apply HAl; try congruence; try (apply allowed_after_self; exact HAl).
            unfold cur_free. rewrite (Gf El). reflexivity. }
          unfold NE in X. congruence. }
        assert (Hxv : prole x = Voter).
        { destruct Rx as [R|R]; [exact R|]. apply is_learner_role in R. congruence. }
        pose proof (voters_bound b r (pstore x) x S P Hp0 Hall Hc Hxv) as B.
        assert (Hpend : pm_get (b_demote b) (pstore x) <> None \/ pm_get (b_remove b) (pstore x) <> None) by (right; rewrite G1; discriminate).
        specialize (B Hpend). lia.
    - subst p. destruct (add_facts b a P Ha) as (G1 & _ & _).
      destruct (allowed_voter b l P HAl) as (q & Hq & Hqr).
      constructor; cbn [lba lbr p_add p_remove p_promote p_demote ostore]; auto; try (intros ? C; try discriminate C; inversion C; subst; auto).
      + right. eauto.
      + split; [exact G1|apply cur_free_get; exact Hf].
      + unfold voters_gained, voters_lost; cbn. pose proof (b2z_nonneg (negb (is_learner a))). lia.
  Qed.
End Kind.
