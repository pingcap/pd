(* C11 — Scatter and balance moves preserve a region's replica count and roles.
   Statements with short derivations from proof/C11_ScatterProof.v; obligations on the regenerated tables in proof/C11_Tables.v,
   step-semantics facts in lib/C10_StepFacts.v.

   Quantification: every cluster (any stores, any combination of the predicates the filters read, any labels),
   every counter state of the scatterer (= every history of earlier decisions, in every group), every region,
   every placement-safeguard outcome (`guard` is an arbitrary function) and EVERY order in which the peers are
   processed (Go map iteration), every tie-break among equally loaded candidates (the model is set-valued). *)
From Coq Require Import Permutation.
From PDV Require Import lib.C10_Cluster lib.C10_StepFacts gen.Gen_C11 model.C11_Scatter model.C11_Plan proof.C11_Tables proof.C11_Pins proof.C11_ScatterProof.
From PDV Require model.C08_Steps model.C08_Builder proof.C08_PlanProof.
Local Open Scope list_scope.
Local Open Scope Z_scope.

(* 1. scatter keeps every peer: over all histories (counter states), all groups, all processing orders of the
   ordinary and of the tiflash peers and all tie-breaks, the target placement has the same number of peers of
   each role as the region, on pairwise distinct stores, and no peer ever falls back onto a store selected for
   another peer.  (This rests on selectCandidates excluding the stores of the region's other peers, /repo commit d081275
   "region scatter must not pick a store that holds another peer of the region"; without the exclusion the S12 history
   below loses a replica.) *)
Theorem C11_scatter_preserves_roles :
  forall stores st grp guard rule_ok r o,
    NoDup (stores_of (peers r)) ->
    In o (scatter_outcomes stores st grp guard rule_ok r) ->
    o_clash o = false
    /\ Permutation (map snd (o_targets o)) (map p_role (peers r))
    /\ NoDup (map fst (o_targets o))
    /\ List.length (o_targets o) = List.length (peers r).
Proof. exact scatter_preserves_roles. Qed.

(* per processing order: a clash-free run carries the roles of the peers, in the order processed, on distinct stores *)
Theorem C11_scatter_run_keeps_every_peer :
  forall stores grp guard rs e g order out,
    In out (run_order stores grp guard rs e g (Acc [] [] false) order) ->
    a_clash out = false ->
    map snd (a_targets out) = map p_role order /\ NoDup (map fst (a_targets out))
    /\ List.length (a_targets out) = List.length order.
Proof.
  intros stores grp guard rs e g order out Hin Hc.
  destruct (run_order_targets_follow stores grp guard rs e g order (Acc [] [] false) [] out Hin Hc targets_follow_nil) as (T1 & T2 & T3).
  cbn [app] in T3. repeat split.
  - exact T3.
  - rewrite T1. apply NoDup_rev. exact T2.
  - rewrite <- (map_length snd), T3. apply map_length.
Qed.

(* 1b. the builder's multi-peer scatter plan: whenever C08's verified checker accepts the steps of an operator for the goal
   of a scatter outcome (what model/C11_Plan.v evaluates on EVERY operator the real Scatter returns), the steps execute on the
   region with every step safe and finished at its turn, the leader never removed or demoted, one peer per store, the voter
   floor kept, and END IN EXACTLY the outcome's target placement and leader.  (Instance of C08's plan_ok_sound.)  Together with
   C11_scatter_preserves_roles: the executed operator keeps the number of peers of every role. *)
Theorem C11_scatter_plan_executes :
  forall r o r8 ss,
    C08_Builder.plan_ok (goal_of_outcome r o) r8 ss = true ->
    exists trs rf, C08_PlanProof.exec_plan r8 ss = Some (trs, rf)
                   /\ Forall (C08_PlanProof.transition_ok (goal_of_outcome r o)) trs
                   /\ C08_PlanProof.final_state_ok (goal_of_outcome r o) rf.
Proof. intros r o r8 ss. apply C08_PlanProof.plan_ok_sound_pf. Qed.

(* 2. peers move only to up stores: a scattered peer stays on its store or goes to a store that is up, not down,
   connected, not busy, passes the engine filter and was not selected for another peer *)
Theorem C11_scatter_target_good :
  forall stores grp guard rs e g a p c,
    In c (peer_choices stores grp guard rs e g a p) ->
    c = p_store p \/ (~ In c (a_selected a) /\ exists s, In s stores /\ sid s = c /\ up_store s /\ e s = true).
Proof.
  intros stores grp guard rs e g a p c H. apply peer_choices_in in H as [H|(H1 & _ & H3)]; [left; exact H|right; exact (conj H1 H3)].
Qed.

(* balance-region, shuffle-region, hot-region (move peer), shuffle-hot-region, scatter-range: the StoreStateFilter literal
   of each is {MoveRegion} (regenerated, proof/C11_Tables.v move_flags_ok); every admissible target is an up store that
   holds no peer of the region, so source and target differ, and it is not refused by the scheduler's special-use filter *)
Theorem C11_move_target_good :
  forall flags su stores r dst,
    In flags [Gen_C11.balance_region_target_flags; Gen_C11.shuffle_region_flags; Gen_C11.hot_move_flags; Gen_C11.shuffle_hot_flags] ->
    In dst (move_targets flags su stores r) ->
    In dst stores /\ ~ In (sid dst) (stores_of (peers r)) /\ up_store dst /\ su dst = false
    /\ (forall src, In src (stores_of (peers r)) -> src <> sid dst).
Proof.
  intros flags su stores r dst Hf H.
  (* each of the four literals is {MoveRegion} *)
  assert (E : flags = [MoveRegion]).
  { destruct move_flags_ok as (E1 & E2 & _ & E3 & E4). destruct Hf as [<-|[<-|[<-|[<-|[]]]]]; assumption. }
  rewrite E in H. destruct (move_target_good su stores r dst H) as (A & B & C & D).
  split; [exact A|]. split; [exact B|]. split; [exact C|]. split; [exact D|]. intros src Hsrc ->. contradiction.
Qed.

(* "may only remove candidates": the unmodelled filters (placement safeguard, score / load tolerance filters, shouldBalance,
   random picks) act in conjunction with the modelled ones, so whatever survives them is an admissible target of the model *)
Theorem C11_more_filters_only_remove :
  forall flags su stores r (extra : store -> bool) dst,
    In dst (filter (fun s => move_pred flags su r s && extra s) stores) -> In dst (move_targets flags su stores r).
Proof.
  intros flags su stores r extra dst H. apply filter_In in H as [Hin H]. apply andb_true_iff in H as [H _].
  unfold move_targets. apply filter_In. split; assumption.
Qed.

(* moving the peer of `src` to such a store keeps the number of peers of every role, one peer per store, src <> dst *)
Theorem C11_move_preserves_roles :
  forall ps src dst id p,
    NoDup (stores_of ps) -> peer_on ps src = Some p -> ~ In dst (stores_of ps) ->
    roles_preserved ps (move_result ps src dst id) = true
    /\ NoDup (stores_of (move_result ps src dst id))
    /\ List.length (move_result ps src dst id) = List.length ps
    /\ src <> dst.
Proof. exact move_preserves_roles. Qed.

(* 3. leaders only to voters on stores that accept leaders (balance-leader, shuffle-leader, evict-leader, label,
   hot-region transfer-leader, scatter-range) *)
Theorem C11_leader_target_good :
  forall flags stores r dst,
    In flags [Gen_C11.balance_leader_flags; Gen_C11.shuffle_leader_flags; Gen_C11.evict_leader_flags; Gen_C11.label_flags; Gen_C11.hot_leader_flags] ->
    In dst (leader_targets flags stores r) ->
    (exists p, In p (peers r) /\ p_store p = sid dst /\ is_learner p = false)
    /\ sid dst <> leader_store r /\ up_store dst /\ s_pause dst = false /\ s_reject dst = false.
Proof.
  intros flags stores r dst Hf H.
  (* each of the five literals is {TransferLeader} *)
  assert (E : flags = [TransferLeader]).
  { destruct leader_flags_ok as (E1 & E2 & E3 & E4 & E5). destruct Hf as [<-|[<-|[<-|[<-|[<-|[]]]]]]; assumption. }
  rewrite E in H. exact (leader_target_good stores r dst H).
Qed.

(* grant-leader applies no store filter (forced transfer): the new leader is still a voter of the region on another
   store; that the store accepts leaders does NOT hold (finding C11:grant-leader:leader-to-store-rejecting-leaders) *)
Theorem C11_forced_leader_target :
  forall stores r dst, In dst (leader_targets [] stores r) ->
    (exists p, In p (peers r) /\ p_store p = sid dst /\ is_learner p = false) /\ sid dst <> leader_store r.
Proof. intros stores r dst H. apply leader_target_voter in H as (V & L & _). exact (conj V L). Qed.

(* 4. at most one peer per store is an invariant of every step sequence TiKV accepts (used by the monitor on
   every operator the implementation returned) *)
Theorem C11_one_peer_per_store :
  forall xs s tr, run_steps s xs = Some tr -> NoDup (stores_of (rs_peers s)) -> Forall (fun s' => NoDup (stores_of (rs_peers s'))) tr.
Proof. exact run_steps_nodup. Qed.

(* the scatter leader: whenever some target qualifies (store without engine label, target peer not a learner, the store passes the
   leaderTarget row of the regenerated StoreStateFilter table, a leader / voter rule selects it), the store chosen for the leader
   is such a target - up, not down, connected, not busy, leader transfer not paused (evict-leader), no reject-leader label.
   (selectAvailableLeaderStores as of /repo commits f715d6e and 940882c; the operator is built with a forced leader, which
   skips the builder's own checks.)
   If NO target qualifies the leader stays where it is when its peer stays. *)
Theorem C11_scatter_leader_accepts_leaders :
  forall stores grp ldr cur rule_ok targets l,
    In l (leader_choices stores grp ldr cur rule_ok targets) ->
    leader_candidates stores rule_ok targets <> [] ->
    exists ro s, In (l, ro) targets /\ ro <> Learner /\ find_store stores l = Some s /\ lv_empty (engine_of s) = true
                 /\ up_store s /\ s_pause s = false /\ s_reject s = false /\ rule_ok l = true.
Proof. exact scatter_leader_accepts_leaders. Qed.

Example C11_leader_reject_regression :
  leader_choices [Store 1 SUp false false false false false false false false false true [];
                  Store 2 SUp false false false false false false false false false false [];
                  Store 3 SUp false false false false false false false false true false []] 1 [] 1 (fun _ => true)
                 [(1, Voter); (2, Voter); (3, Voter)] = [2].
Proof. vm_compute. reflexivity. Qed.

(* regression / non-vacuity: the S12 history (counters {1:1, 3:1}, region on 1,2,3) keeps all three peers *)
Example C11_s12_regression :
  map a_targets (run_order s12_stores 1 (fun _ _ => true) [1; 2; 3] is_ordinary s12_counters (Acc [] [] false) s12_peers)
    = [[(1, Voter); (2, Voter); (3, Voter)]].
Proof. vm_compute. reflexivity. Qed.

Print Assumptions C11_scatter_preserves_roles.
Print Assumptions C11_scatter_run_keeps_every_peer.
Print Assumptions C11_scatter_plan_executes.
Print Assumptions C11_scatter_target_good.
Print Assumptions C11_move_target_good.
Print Assumptions C11_move_preserves_roles.
Print Assumptions C11_more_filters_only_remove.
Print Assumptions C11_leader_target_good.
Print Assumptions C11_forced_leader_target.
Print Assumptions C11_one_peer_per_store.
Print Assumptions C11_scatter_leader_accepts_leaders.
