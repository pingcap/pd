(* C07 — structural obligations on the code as it is now (regenerated gen/Gen_C07.v).
   model/C07_Region.v transcribes region_tree.go and the RegionsInfo part of region.go; model/C07_BTreeSpec.v
   specifies pkg/btree and model/C07_BTree.v transcribes btree.go, the order statistics (`indices`) included (the
   `src_bt_*` bodies below).  The models were written against exactly
   these function bodies: any token change in one of them breaks the `reflexivity` below, and the check then
   searches for a failing input (DESIGN.md section 4). *)
From Coq Require Import ZArith List String.
From PDV Require Import gen.Gen_C07.
Import ListNotations.
Open Scope string_scope.

(* btree.New panics below degree 2; the driver exercises pkg/btree with exactly these degrees *)
Lemma degree_ok : (2 <= defaultBTreeDegree)%Z.
Proof. vm_compute. discriminate. Qed.
Lemma degree_tested : In defaultBTreeDegree [2; 3; 4; 64]%Z.
Proof. vm_compute. tauto. Qed.

(* server/core/region_tree.go: (regionTree).length, body *)
Lemma src_tree_length_ok : src_tree_length =
  "{ if v0 == nil { return 0 } return v0.tree.Len() }".
Proof. reflexivity. Qed.

(* server/core/region_tree.go: (regionTree).getOverlaps, body *)
Lemma src_tree_getOverlaps_ok : src_tree_getOverlaps =
  "{ v2 := &regionItem{region: v1} v3 := v0.find(v1) if v3 == nil { v3 = v2 } var v4 []*RegionInfo v0.tree.AscendGreaterOrEqual(v3, func(v5 btree.Item) bool { v6 := v5.(*regionItem) if len(v1.GetEndKey()) > 0 && bytes.Compare(v1.GetEndKey(), v6.region.GetStartKey()) <= 0 { return false } v4 = append(v4, v6.region) return true }) return v4 }".
Proof. reflexivity. Qed.

(* server/core/region_tree.go: (regionTree).update, body *)
Lemma src_tree_update_ok : src_tree_update =
  "{ v2 := v1.region v0.totalSize += v2.approximateSize v3 := v0.getOverlaps(v2) for _, v4 := range v3 { v0.tree.Delete(&regionItem{v4}) v0.totalSize -= v4.approximateSize } v0.tree.ReplaceOrInsert(v1) return v3 }".
Proof. reflexivity. Qed.

(* server/core/region_tree.go: (regionTree).updateStat, body *)
Lemma src_tree_updateStat_ok : src_tree_updateStat =
  "{ v0.totalSize += v2.approximateSize v0.totalSize -= v1.approximateSize }".
Proof. reflexivity. Qed.

(* server/core/region_tree.go: (regionTree).remove, body *)
Lemma src_tree_remove_ok : src_tree_remove =
  "{ if v0.length() == 0 { return nil } v2 := v0.find(v1) if v2 == nil || v2.region.GetID() != v1.GetID() { return nil } v0.totalSize -= v1.approximateSize return v0.tree.Delete(v2) }".
Proof. reflexivity. Qed.

(* server/core/region_tree.go: (regionTree).search, body *)
Lemma src_tree_search_ok : src_tree_search =
  "{ v2 := &RegionInfo{meta: &metapb.Region{StartKey: v1}} v3 := v0.find(v2) if v3 == nil { return nil } return v3.region }".
Proof. reflexivity. Qed.

(* server/core/region_tree.go: (regionTree).searchPrev, body *)
Lemma src_tree_searchPrev_ok : src_tree_searchPrev =
  "{ v2 := &RegionInfo{meta: &metapb.Region{StartKey: v1}} v3 := v0.find(v2) if v3 == nil { return nil } v4, _ := v0.getAdjacentRegions(v3.region) if v4 == nil { return nil } if !bytes.Equal(v4.region.GetEndKey(), v3.region.GetStartKey()) { return nil } return v4.region }".
Proof. reflexivity. Qed.

(* server/core/region_tree.go: (regionTree).find, body *)
Lemma src_tree_find_ok : src_tree_find =
  "{ v2 := &regionItem{region: v1} var v3 *regionItem v0.tree.DescendLessOrEqual(v2, func(v4 btree.Item) bool { v3 = v4.(*regionItem) return false }) if v3 == nil || !v3.Contains(v1.GetStartKey()) { return nil } return v3 }".
Proof. reflexivity. Qed.

(* server/core/region_tree.go: (regionTree).scanRange, body *)
Lemma src_tree_scanRange_ok : src_tree_scanRange =
  "{ v3 := &RegionInfo{meta: &metapb.Region{StartKey: v1}} v4 := v0.find(v3) if v4 == nil { v4 = &regionItem{region: &RegionInfo{meta: &metapb.Region{StartKey: v1}}} } v0.tree.AscendGreaterOrEqual(v4, func(v5 btree.Item) bool { return v2(v5.(*regionItem).region) }) }".
Proof. reflexivity. Qed.

(* server/core/region_tree.go: (regionTree).scanRanges, body *)
Lemma src_tree_scanRanges_ok : src_tree_scanRanges =
  "{ if v0.length() == 0 { return nil } var v1 []*RegionInfo v0.scanRange([]byte(""""), func(v2 *RegionInfo) bool { v1 = append(v1, v2) return true }) return v1 }".
Proof. reflexivity. Qed.

(* server/core/region_tree.go: (regionTree).getAdjacentRegions, body *)
Lemma src_tree_getAdjacentRegions_ok : src_tree_getAdjacentRegions =
  "{ v2 := &regionItem{region: &RegionInfo{meta: &metapb.Region{StartKey: v1.GetStartKey()}}} var v3, v4 *regionItem v0.tree.AscendGreaterOrEqual(v2, func(v5 btree.Item) bool { if bytes.Equal(v2.region.GetStartKey(), v5.(*regionItem).region.GetStartKey()) { return true } v4 = v5.(*regionItem) return false }) v0.tree.DescendLessOrEqual(v2, func(v6 btree.Item) bool { if bytes.Equal(v2.region.GetStartKey(), v6.(*regionItem).region.GetStartKey()) { return true } v3 = v6.(*regionItem) return false }) return v3, v4 }".
Proof. reflexivity. Qed.

(* server/core/region_tree.go: (regionTree).RandomRegion, body *)
Lemma src_tree_RandomRegion_ok : src_tree_RandomRegion =
  "{ if v0.length() == 0 { return nil } if len(v1) == 0 { v1 = []KeyRange{NewKeyRange("""", """")} } for _, v2 := range rand.Perm(len(v1)) { var v3 int v4, v5 := v1[v2].StartKey, v1[v2].EndKey v6, v7 := v0.tree.GetWithIndex(&regionItem{region: &RegionInfo{meta: &metapb.Region{StartKey: v4}}}) if len(v5) != 0 { _, v3 = v0.tree.GetWithIndex(&regionItem{region: &RegionInfo{meta: &metapb.Region{StartKey: v5}}}) } else { v3 = v0.tree.Len() } if v7 != 0 && v6 == nil && v0.tree.GetAt(v7-1).(*regionItem).Contains(v4) { v7-- } if v3 <= v7 { if len(v5) > 0 && bytes.Compare(v4, v5) > 0 { } continue } v8 := rand.Intn(v3-v7) + v7 v9 := v0.tree.GetAt(v8).(*regionItem).region if isInvolved(v9, v4, v5) { return v9 } } return nil }".
Proof. reflexivity. Qed.

(* server/core/region_tree.go: (regionTree).TotalSize, body *)
Lemma src_tree_TotalSize_ok : src_tree_TotalSize =
  "{ if v0.length() == 0 { return 0 } return v0.totalSize }".
Proof. reflexivity. Qed.

(* server/core/region_tree.go: ().newRegionTree, body *)
Lemma src_newRegionTree_ok : src_newRegionTree =
  "{ return &regionTree{ tree: btree.New(defaultBTreeDegree), totalSize: 0, } }".
Proof. reflexivity. Qed.

(* server/core/region.go: (RegionsInfo).GetRegion, body *)
Lemma src_ri_GetRegion_ok : src_ri_GetRegion =
  "{ if v2 := v0.regions.Get(v1); v2 != nil { return v2.region } return nil }".
Proof. reflexivity. Qed.

(* server/core/region.go: (RegionsInfo).SetRegion, body *)
Lemma src_ri_SetRegion_ok : src_ri_SetRegion =
  "{ var v3 *regionItem // Pointer to the *RegionInfo of this ID. var v4 *RegionInfo // This is the original region information of this ID. var v5 bool // This Region is new, or its range has changed. var v6 bool // This Region is new, or its peers have changed, including leader-change/pending/down. if v3 = v0.regions.Get(v1.GetID()); v3 != nil { v4 = v3.region v5 = !bytes.Equal(v4.GetStartKey(), v1.GetStartKey()) || !bytes.Equal(v4.GetEndKey(), v1.GetEndKey()) if v5 { v0.tree.remove(v4) v6 = true } else { v6 = v0.shouldRemoveFromSubTree(v1, v4) } if v6 { v0.removeRegionFromSubTree(v4) } v3.region = v1 } else { v5 = true v6 = true v3 = v0.regions.AddNew(v1) } if !v5 { v0.tree.updateStat(v4, v1) } else { v2 = v0.tree.update(v3) for _, v7 := range v2 { v0.RemoveRegion(v0.GetRegion(v7.GetID())) } } if !v6 { v0.updateSubTreeStat(v4, v1) } else { for _, v8 := range v1.GetVoters() { v9 := v8.GetStoreId() if v8.GetId() == v1.leader.GetId() { v10, v11 := v0.leaders[v9] if !v11 { v10 = newRegionTree() v0.leaders[v9] = v10 } v10.update(v3) } else { v12, v13 := v0.followers[v9] if !v13 { v12 = newRegionTree() v0.followers[v9] = v12 } v12.update(v3) } } for _, v14 := range v1.GetLearners() { v15 := v14.GetStoreId() v16, v17 := v0.learners[v15] if !v17 { v16 = newRegionTree() v0.learners[v15] = v16 } v16.update(v3) } for _, v18 := range v1.GetPendingPeers() { v19 := v18.GetStoreId() v20, v21 := v0.pendingPeers[v19] if !v21 { v20 = newRegionTree() v0.pendingPeers[v19] = v20 } v20.update(v3) } } return }".
Proof. reflexivity. Qed.

(* server/core/region.go: (RegionsInfo).updateSubTreeStat, body *)
Lemma src_ri_updateSubTreeStat_ok : src_ri_updateSubTreeStat =
  "{ for _, v3 := range v2.GetVoters() { v4 := v3.GetStoreId() if v3.GetId() == v2.leader.GetId() { if v5, v6 := v0.leaders[v4]; v6 { v5.updateStat(v1, v2) } } else { if v7, v8 := v0.followers[v4]; v8 { v7.updateStat(v1, v2) } } } for _, v9 := range v2.GetLearners() { if v10, v11 := v0.learners[v9.GetStoreId()]; v11 { v10.updateStat(v1, v2) } } for _, v12 := range v2.GetPendingPeers() { if v13, v14 := v0.pendingPeers[v12.GetStoreId()]; v14 { v13.updateStat(v1, v2) } } }".
Proof. reflexivity. Qed.

(* server/core/region.go: (RegionsInfo).GetOverlaps, body *)
Lemma src_ri_GetOverlaps_ok : src_ri_GetOverlaps =
  "{ return v0.tree.getOverlaps(v1) }".
Proof. reflexivity. Qed.

(* server/core/region.go: (RegionsInfo).RemoveRegion, body *)
Lemma src_ri_RemoveRegion_ok : src_ri_RemoveRegion =
  "{ v0.tree.remove(v1) v0.regions.Delete(v1.GetID()) v0.removeRegionFromSubTree(v1) }".
Proof. reflexivity. Qed.

(* server/core/region.go: (RegionsInfo).removeRegionFromSubTree, body *)
Lemma src_ri_removeRegionFromSubTree_ok : src_ri_removeRegionFromSubTree =
  "{ for _, v2 := range v1.meta.GetPeers() { v3 := v2.GetStoreId() v0.leaders[v3].remove(v1) v0.followers[v3].remove(v1) v0.learners[v3].remove(v1) v0.pendingPeers[v3].remove(v1) } }".
Proof. reflexivity. Qed.

(* server/core/region.go: (RegionsInfo).SearchRegion, body *)
Lemma src_ri_SearchRegion_ok : src_ri_SearchRegion =
  "{ v2 := v0.tree.search(v1) if v2 == nil { return nil } return v0.GetRegion(v2.GetID()) }".
Proof. reflexivity. Qed.

(* server/core/region.go: (RegionsInfo).SearchPrevRegion, body *)
Lemma src_ri_SearchPrevRegion_ok : src_ri_SearchPrevRegion =
  "{ v2 := v0.tree.searchPrev(v1) if v2 == nil { return nil } return v0.GetRegion(v2.GetID()) }".
Proof. reflexivity. Qed.

(* server/core/region.go: (RegionsInfo).ScanRange, body *)
Lemma src_ri_ScanRange_ok : src_ri_ScanRange =
  "{ var v4 []*RegionInfo v0.tree.scanRange(v1, func(v5 *RegionInfo) bool { if len(v2) > 0 && bytes.Compare(v5.GetStartKey(), v2) >= 0 { return false } if v3 > 0 && len(v4) >= v3 { return false } v4 = append(v4, v0.GetRegion(v5.GetID())) return true }) return v4 }".
Proof. reflexivity. Qed.

(* server/core/region.go: (RegionsInfo).GetAdjacentRegions, body *)
Lemma src_ri_GetAdjacentRegions_ok : src_ri_GetAdjacentRegions =
  "{ v2, v3 := v0.tree.getAdjacentRegions(v1) var v4, v5 *RegionInfo if v2 != nil && bytes.Equal(v2.region.GetEndKey(), v1.GetStartKey()) { v4 = v0.GetRegion(v2.region.GetID()) } if v3 != nil && bytes.Equal(v1.GetEndKey(), v3.region.GetStartKey()) { v5 = v0.GetRegion(v3.region.GetID()) } return v4, v5 }".
Proof. reflexivity. Qed.

(* server/core/region.go: (RegionsInfo).GetAverageRegionSize, body *)
Lemma src_ri_GetAverageRegionSize_ok : src_ri_GetAverageRegionSize =
  "{ if v0.tree.length() == 0 { return 0 } return v0.tree.TotalSize() / int64(v0.tree.length()) }".
Proof. reflexivity. Qed.

(* server/core/region.go: (RegionsInfo).GetStoreRegions, body *)
Lemma src_ri_GetStoreRegions_ok : src_ri_GetStoreRegions =
  "{ v2 := make([]*RegionInfo, 0, v0.GetStoreRegionCount(v1)) if v3, v4 := v0.leaders[v1]; v4 { v2 = append(v2, v3.scanRanges()...) } if v5, v6 := v0.followers[v1]; v6 { v2 = append(v2, v5.scanRanges()...) } if v7, v8 := v0.learners[v1]; v8 { v2 = append(v2, v7.scanRanges()...) } return v2 }".
Proof. reflexivity. Qed.

(* server/core/region.go: (RegionsInfo).GetStoreLeaderCount, body *)
Lemma src_ri_GetStoreLeaderCount_ok : src_ri_GetStoreLeaderCount =
  "{ return v0.leaders[v1].length() }".
Proof. reflexivity. Qed.

(* server/core/region.go: (RegionsInfo).GetStoreFollowerCount, body *)
Lemma src_ri_GetStoreFollowerCount_ok : src_ri_GetStoreFollowerCount =
  "{ return v0.followers[v1].length() }".
Proof. reflexivity. Qed.

(* server/core/region.go: (RegionsInfo).GetStoreLearnerCount, body *)
Lemma src_ri_GetStoreLearnerCount_ok : src_ri_GetStoreLearnerCount =
  "{ return v0.learners[v1].length() }".
Proof. reflexivity. Qed.

(* server/core/region.go: (RegionsInfo).GetStorePendingPeerCount, body *)
Lemma src_ri_GetStorePendingPeerCount_ok : src_ri_GetStorePendingPeerCount =
  "{ return v0.pendingPeers[v1].length() }".
Proof. reflexivity. Qed.

(* server/core/region.go: (RegionsInfo).GetStoreLeaderRegionSize, body *)
Lemma src_ri_GetStoreLeaderRegionSize_ok : src_ri_GetStoreLeaderRegionSize =
  "{ return v0.leaders[v1].TotalSize() }".
Proof. reflexivity. Qed.

(* server/core/region.go: (RegionsInfo).GetStoreFollowerRegionSize, body *)
Lemma src_ri_GetStoreFollowerRegionSize_ok : src_ri_GetStoreFollowerRegionSize =
  "{ return v0.followers[v1].TotalSize() }".
Proof. reflexivity. Qed.

(* server/core/region.go: (RegionsInfo).GetStoreLearnerRegionSize, body *)
Lemma src_ri_GetStoreLearnerRegionSize_ok : src_ri_GetStoreLearnerRegionSize =
  "{ return v0.learners[v1].TotalSize() }".
Proof. reflexivity. Qed.

(* server/core/region.go: (RegionsInfo).RandLeaderRegion, body *)
Lemma src_ri_RandLeaderRegion_ok : src_ri_RandLeaderRegion =
  "{ return v0.leaders[v1].RandomRegion(v2) }".
Proof. reflexivity. Qed.

(* server/core/region.go: (RegionsInfo).RandFollowerRegion, body *)
Lemma src_ri_RandFollowerRegion_ok : src_ri_RandFollowerRegion =
  "{ return v0.followers[v1].RandomRegion(v2) }".
Proof. reflexivity. Qed.

(* server/core/region.go: (RegionsInfo).RandLearnerRegion, body *)
Lemma src_ri_RandLearnerRegion_ok : src_ri_RandLearnerRegion =
  "{ return v0.learners[v1].RandomRegion(v2) }".
Proof. reflexivity. Qed.

(* server/core/region.go: (RegionsInfo).RandPendingRegion, body *)
Lemma src_ri_RandPendingRegion_ok : src_ri_RandPendingRegion =
  "{ return v0.pendingPeers[v1].RandomRegion(v2) }".
Proof. reflexivity. Qed.

(* server/core/region.go: (RegionsInfo).Len, body *)
Lemma src_ri_Len_ok : src_ri_Len =
  "{ return v0.regions.Len() }".
Proof. reflexivity. Qed.

(* server/core/region.go: (RegionsInfo).TreeLen, body *)
Lemma src_ri_TreeLen_ok : src_ri_TreeLen =
  "{ return v0.tree.length() }".
Proof. reflexivity. Qed.

(* server/core/region_tree.go: (regionItem).Less, body *)
Lemma src_item_Less_ok : src_item_Less =
  "{ v2 := v0.region.GetStartKey() v3 := v1.(*regionItem).region.GetStartKey() return bytes.Compare(v2, v3) < 0 }".
Proof. reflexivity. Qed.

(* server/core/region_tree.go: (regionItem).Contains, body *)
Lemma src_item_Contains_ok : src_item_Contains =
  "{ v2, v3 := v0.region.GetStartKey(), v0.region.GetEndKey() return bytes.Compare(v1, v2) >= 0 && (len(v3) == 0 || bytes.Compare(v1, v3) < 0) }".
Proof. reflexivity. Qed.

(* server/core/region.go: ().isInvolved, body *)
Lemma src_isInvolved_ok : src_isInvolved =
  "{ return bytes.Compare(v0.GetStartKey(), v1) >= 0 && (len(v2) == 0 || (len(v0.GetEndKey()) > 0 && bytes.Compare(v0.GetEndKey(), v2) <= 0)) }".
Proof. reflexivity. Qed.

(* server/core/region.go: (RegionsInfo).shouldRemoveFromSubTree, body *)
Lemma src_shouldRemoveFromSubTree_ok : src_shouldRemoveFromSubTree =
  "{ return v2.leader.GetId() != v1.leader.GetId() || !SortedPeersEqual(v2.GetVoters(), v1.GetVoters()) || !SortedPeersEqual(v2.GetLearners(), v1.GetLearners()) || !SortedPeersEqual(v2.GetPendingPeers(), v1.GetPendingPeers()) }".
Proof. reflexivity. Qed.

(* server/core/region.go: ().SortedPeersEqual, body *)
Lemma src_SortedPeersEqual_ok : src_SortedPeersEqual =
  "{ if len(v0) != len(v1) { return false } for v2, v3 := range v0 { v4 := v1[v2] if v3.GetStoreId() != v4.GetStoreId() || v3.GetId() != v4.GetId() { return false } } return true }".
Proof. reflexivity. Qed.

(* server/core/region.go: (peerSlice).Less, body *)
Lemma src_peerSlice_Less_ok : src_peerSlice_Less =
  "{ return v0[v1].GetId() < v0[v2].GetId() }".
Proof. reflexivity. Qed.

(* server/core/region.go: ().classifyVoterAndLearner, body *)
Lemma src_classifyVoterAndLearner_ok : src_classifyVoterAndLearner =
  "{ v1 := make([]*metapb.Peer, 0, 1) v2 := make([]*metapb.Peer, 0, len(v0.meta.Peers)) for _, v3 := range v0.meta.Peers { if IsLearner(v3) { v1 = append(v1, v3) } else { v2 = append(v2, v3) } } sort.Sort(peerSlice(v1)) sort.Sort(peerSlice(v2)) v0.learners = v1 v0.voters = v2 }".
Proof. reflexivity. Qed.

(* server/core/region.go: (regionMap).AddNew, body *)
Lemma src_regionMap_AddNew_ok : src_regionMap_AddNew =
  "{ v2 := &regionItem{region: v1} v0[v1.GetID()] = v2 return v2 }".
Proof. reflexivity. Qed.

(* server/core/region.go: (regionMap).Get, body *)
Lemma src_regionMap_Get_ok : src_regionMap_Get =
  "{ return v0[v1] }".
Proof. reflexivity. Qed.

(* server/core/region.go: (regionMap).Delete, body *)
Lemma src_regionMap_Delete_ok : src_regionMap_Delete =
  "{ delete(v0, v1) }".
Proof. reflexivity. Qed.

(* pkg/btree/btree.go: (items).find, body *)
Lemma src_bt_items_find_ok : src_bt_items_find =
  "{ v4 := sort.Search(len(v0), func(v5 int) bool { return v1.Less(v0[v5]) }) if v4 > 0 && !v0[v4-1].Less(v1) { return v4 - 1, true } return v4, false }".
Proof. reflexivity. Qed.

(* pkg/btree/btree.go: (indices).addAt, body *)
Lemma src_bt_indices_addAt_ok : src_bt_indices_addAt =
  "{ for v3 := v1; v3 < len(*v0); v3++ { (*v0)[v3] += v2 } }".
Proof. reflexivity. Qed.

(* pkg/btree/btree.go: (indices).insertAt, body *)
Lemma src_bt_indices_insertAt_ok : src_bt_indices_insertAt =
  "{ *v0 = append(*v0, -1) for v3 := len(*v0) - 1; v3 >= v1 && v3 > 0; v3-- { (*v0)[v3] = (*v0)[v3-1] + v2 + 1 } if v1 == 0 { (*v0)[0] = v2 } }".
Proof. reflexivity. Qed.

(* pkg/btree/btree.go: (indices).push, body *)
Lemma src_bt_indices_push_ok : src_bt_indices_push =
  "{ if len(*v0) == 0 { *v0 = append(*v0, v1) } else { *v0 = append(*v0, (*v0)[len(*v0)-1]+1+v1) } }".
Proof. reflexivity. Qed.

(* pkg/btree/btree.go: (indices).split, body *)
Lemma src_bt_indices_split_ok : src_bt_indices_split =
  "{ v0.insertAt(v1+1, -1) (*v0)[v1] -= 1 + v2 }".
Proof. reflexivity. Qed.

(* pkg/btree/btree.go: (indices).merge, body *)
Lemma src_bt_indices_merge_ok : src_bt_indices_merge =
  "{ for v2 := v1; v2 < len(*v0)-1; v2++ { (*v0)[v2] = (*v0)[v2+1] } *v0 = (*v0)[:len(*v0)-1] }".
Proof. reflexivity. Qed.

(* pkg/btree/btree.go: (indices).removeAt, body *)
Lemma src_bt_indices_removeAt_ok : src_bt_indices_removeAt =
  "{ v2 := (*v0)[v1] if v1 > 0 { v2 = v2 - (*v0)[v1-1] - 1 } for v3 := v1 + 1; v3 < len(*v0); v3++ { (*v0)[v3-1] = (*v0)[v3] - v2 - 1 } *v0 = (*v0)[:len(*v0)-1] return v2 }".
Proof. reflexivity. Qed.

(* pkg/btree/btree.go: (indices).pop, body *)
Lemma src_bt_indices_pop_ok : src_bt_indices_pop =
  "{ v1 := len(*v0) v2 := (*v0)[v1-1] if v1 != 1 { v2 -= (*v0)[v1-2] + 1 } *v0 = (*v0)[:len(*v0)-1] return v2 }".
Proof. reflexivity. Qed.

(* pkg/btree/btree.go: (indices).find, body *)
Lemma src_bt_indices_find_ok : src_bt_indices_find =
  "{ v4 := sort.SearchInts(v0, v1) return v4, v0[v4] == v1 }".
Proof. reflexivity. Qed.

(* pkg/btree/btree.go: (node).length, body *)
Lemma src_bt_node_length_ok : src_bt_node_length =
  "{ if len(v0.indices) <= 0 { return len(v0.items) } return v0.indices[len(v0.indices)-1] }".
Proof. reflexivity. Qed.

(* pkg/btree/btree.go: (node).initSize, body *)
Lemma src_bt_node_initSize_ok : src_bt_node_initSize =
  "{ v1 := len(v0.children) if v1 <= 0 { v0.indices.truncate(0) return } else if v1 <= cap(v0.indices) { v0.indices = v0.indices[:v1] } else { v0.indices = make([]int, v1) } v0.indices[0] = v0.children[0].length() for v2 := 1; v2 < v1; v2++ { v0.indices[v2] = v0.indices[v2-1] + 1 + v0.children[v2].length() } }".
Proof. reflexivity. Qed.

(* pkg/btree/btree.go: (node).split, body *)
Lemma src_bt_node_split_ok : src_bt_node_split =
  "{ v2 := v0.items[v1] v3 := v0.cow.newNode() v3.items = append(v3.items, v0.items[v1+1:]...) v0.items.truncate(v1) if len(v0.children) > 0 { v3.children = append(v3.children, v0.children[v1+1:]...) v3.initSize() v0.children.truncate(v1 + 1) v0.indices.truncate(v1 + 1) } return v2, v3 }".
Proof. reflexivity. Qed.

(* pkg/btree/btree.go: (node).maybeSplitChild, body *)
Lemma src_bt_node_maybeSplitChild_ok : src_bt_node_maybeSplitChild =
  "{ if len(v0.children[v1].items) < v2 { return false } v3 := v0.mutableChild(v1) v4, v5 := v3.split(v2 / 2) v0.items.insertAt(v1, v4) v0.children.insertAt(v1+1, v5) v0.indices.split(v1, v5.length()) return true }".
Proof. reflexivity. Qed.

(* pkg/btree/btree.go: (node).insert, body *)
Lemma src_bt_node_insert_ok : src_bt_node_insert =
  "{ v3, v4 := v0.items.find(v1) if v4 { v5 := v0.items[v3] v0.items[v3] = v1 return v5 } if len(v0.children) == 0 { v0.items.insertAt(v3, v1) return nil } if v0.maybeSplitChild(v3, v2) { v6 := v0.items[v3] switch { case v1.Less(v6): case v6.Less(v1): v3++ default: v7 := v0.items[v3] v0.items[v3] = v1 return v7 } } v8 := v0.mutableChild(v3).insert(v1, v2) if v8 == nil { v0.indices.addAt(v3, 1) } return v8 }".
Proof. reflexivity. Qed.

(* pkg/btree/btree.go: (node).getAt, body *)
Lemma src_bt_node_getAt_ok : src_bt_node_getAt =
  "{ if v1 >= v0.length() || v1 < 0 { return nil } if len(v0.children) == 0 { return v0.items[v1] } v2, v3 := v0.indices.find(v1) if v3 { return v0.items[v2] } if v2 == 0 { return v0.children[0].getAt(v1) } return v0.children[v2].getAt(v1 - v0.indices[v2-1] - 1) }".
Proof. reflexivity. Qed.

(* pkg/btree/btree.go: (node).getWithIndex, body *)
Lemma src_bt_node_getWithIndex_ok : src_bt_node_getWithIndex =
  "{ v2, v3 := v0.items.find(v1) if v3 { v4 := v2 if len(v0.indices) > 0 { v4 = v0.indices[v2] } return v0.items[v2], v4 } else if len(v0.children) > 0 { v5, v6 := v0.children[v2].getWithIndex(v1) if v2 > 0 { v6 += v0.indices[v2-1] + 1 } return v5, v6 } return nil, v2 }".
Proof. reflexivity. Qed.

(* pkg/btree/btree.go: (node).remove, body *)
Lemma src_bt_node_remove_ok : src_bt_node_remove =
  "{ var v5 int var v6 bool switch v3 { case removeMax: if len(v0.children) == 0 { return v0.items.pop() } v5 = len(v0.items) case removeMin: if len(v0.children) == 0 { return v0.items.removeAt(0) } v5 = 0 case removeItem: v5, v6 = v0.items.find(v1) if len(v0.children) == 0 { if v6 { return v0.items.removeAt(v5) } return nil } default: panic(""invalid type"") } if len(v0.children[v5].items) <= v2 { return v0.growChildAndRemove(v5, v1, v2, v3) } v7 := v0.mutableChild(v5) if v6 { v4 = v0.items[v5] v0.items[v5] = v7.remove(nil, v2, removeMax) } else { v4 = v7.remove(v1, v2, v3) } if v4 != nil { v0.indices.addAt(v5, -1) } return }".
Proof. reflexivity. Qed.

(* pkg/btree/btree.go: (node).growChildAndRemove, body *)
Lemma src_bt_node_growChildAndRemove_ok : src_bt_node_growChildAndRemove =
  "{ if v1 > 0 && len(v0.children[v1-1].items) > v3 { v5 := v0.mutableChild(v1) v6 := v0.mutableChild(v1 - 1) v7 := v6.items.pop() v5.items.insertAt(0, v0.items[v1-1]) v0.items[v1-1] = v7 v0.indices[v1-1] -= 1 if len(v6.children) > 0 { v5.children.insertAt(0, v6.children.pop()) v8 := v6.indices.pop() v0.indices[v1-1] -= v8 v5.indices.insertAt(0, v8) } } else if v1 < len(v0.items) && len(v0.children[v1+1].items) > v3 { v9 := v0.mutableChild(v1) v10 := v0.mutableChild(v1 + 1) v11 := v10.items.removeAt(0) v9.items = append(v9.items, v0.items[v1]) v0.items[v1] = v11 v0.indices[v1] += 1 if len(v10.children) > 0 { v9.children = append(v9.children, v10.children.removeAt(0)) v12 := v10.indices.removeAt(0) v0.indices[v1] += v12 v9.indices.push(v12) } } else { if v1 >= len(v0.items) { v1-- } v13 := v0.mutableChild(v1) v14 := v0.items.removeAt(v1) v15 := v0.children.removeAt(v1 + 1) v13.items = append(v13.items, v14) v13.items = append(v13.items, v15.items...) v13.children = append(v13.children, v15.children...) for _, v16 := range v15.children { v13.indices.push(v16.length()) } v0.indices.merge(v1) v0.cow.freeNode(v15) } return v0.remove(v2, v3, v4) }".
Proof. reflexivity. Qed.

(* pkg/btree/btree.go: (node).iterate, body *)
Lemma src_bt_node_iterate_ok : src_bt_node_iterate =
  "{ var v7, v8 bool var v9 int switch v1 { case ascend: if v2 != nil { v9, _ = v0.items.find(v2) } for v10 := v9; v10 < len(v0.items); v10++ { if len(v0.children) > 0 { if v5, v7 = v0.children[v10].iterate(v1, v2, v3, v4, v5, v6); !v7 { return v5, false } } if !v4 && !v5 && v2 != nil && !v2.Less(v0.items[v10]) { v5 = true continue } v5 = true if v3 != nil && !v0.items[v10].Less(v3) { return v5, false } if !v6(v0.items[v10]) { return v5, false } } if len(v0.children) > 0 { if v5, v7 = v0.children[len(v0.children)-1].iterate(v1, v2, v3, v4, v5, v6); !v7 { return v5, false } } case descend: if v2 != nil { v9, v8 = v0.items.find(v2) if !v8 { v9 = v9 - 1 } } else { v9 = len(v0.items) - 1 } for v11 := v9; v11 >= 0; v11-- { if v2 != nil && !v0.items[v11].Less(v2) { if !v4 || v5 || v2.Less(v0.items[v11]) { continue } } if len(v0.children) > 0 { if v5, v7 = v0.children[v11+1].iterate(v1, v2, v3, v4, v5, v6); !v7 { return v5, false } } if v3 != nil && !v3.Less(v0.items[v11]) { return v5, false } v5 = true if !v6(v0.items[v11]) { return v5, false } } if len(v0.children) > 0 { if v5, v7 = v0.children[0].iterate(v1, v2, v3, v4, v5, v6); !v7 { return v5, false } } } return v5, true }".
Proof. reflexivity. Qed.

(* pkg/btree/btree.go: (BTree).ReplaceOrInsert, body *)
Lemma src_bt_ReplaceOrInsert_ok : src_bt_ReplaceOrInsert =
  "{ if v1 == nil { panic(""nil item being added to BTree"") } if v0.root == nil { v0.root = v0.cow.newNode() v0.root.items = append(v0.root.items, v1) v0.length++ return nil } v0.root = v0.root.mutableFor(v0.cow) if len(v0.root.items) >= v0.maxItems() { v2, v3 := v0.root.split(v0.maxItems() / 2) v4 := v0.root v0.root = v0.cow.newNode() v0.root.items = append(v0.root.items, v2) v0.root.children = append(v0.root.children, v4, v3) v0.root.initSize() } v5 := v0.root.insert(v1, v0.maxItems()) if v5 == nil { v0.length++ } return v5 }".
Proof. reflexivity. Qed.

(* pkg/btree/btree.go: (BTree).deleteItem, body *)
Lemma src_bt_deleteItem_ok : src_bt_deleteItem =
  "{ if v0.root == nil || len(v0.root.items) == 0 { return nil } v0.root = v0.root.mutableFor(v0.cow) v3 := v0.root.remove(v1, v0.minItems(), v2) if len(v0.root.items) == 0 && len(v0.root.children) > 0 { v4 := v0.root v0.root = v0.root.children[0] v0.cow.freeNode(v4) } if v3 != nil { v0.length-- } return v3 }".
Proof. reflexivity. Qed.

(* pkg/btree/btree.go: (BTree).maxItems, body *)
Lemma src_bt_maxItems_ok : src_bt_maxItems =
  "{ return v0.degree*2 - 1 }".
Proof. reflexivity. Qed.

(* pkg/btree/btree.go: (BTree).minItems, body *)
Lemma src_bt_minItems_ok : src_bt_minItems =
  "{ return v0.degree - 1 }".
Proof. reflexivity. Qed.

(* pkg/btree/btree.go: (BTree).GetWithIndex, body *)
Lemma src_bt_GetWithIndex_ok : src_bt_GetWithIndex =
  "{ if v0.root == nil { return nil, 0 } return v0.root.getWithIndex(v1) }".
Proof. reflexivity. Qed.

(* pkg/btree/btree.go: (BTree).GetAt, body *)
Lemma src_bt_GetAt_ok : src_bt_GetAt =
  "{ if v0.root == nil { return nil } return v0.root.getAt(v1) }".
Proof. reflexivity. Qed.

(* pkg/btree/btree.go: (BTree).AscendGreaterOrEqual, body *)
Lemma src_bt_AscendGreaterOrEqual_ok : src_bt_AscendGreaterOrEqual =
  "{ if v0.root == nil { return } v0.root.iterate(ascend, v1, nil, true, false, v2) }".
Proof. reflexivity. Qed.

(* pkg/btree/btree.go: (BTree).DescendLessOrEqual, body *)
Lemma src_bt_DescendLessOrEqual_ok : src_bt_DescendLessOrEqual =
  "{ if v0.root == nil { return } v0.root.iterate(descend, v1, nil, true, false, v2) }".
Proof. reflexivity. Qed.

(* ---- the rest of pkg/btree that model/C07_BTree.v transcribes (the Gallina B-tree of the refinement proof) ---- *)
(* pkg/btree/btree.go: (items).insertAt, body *)
Lemma src_bt_items_insertAt_ok : Gen_C07.src_bt_items_insertAt =
  "{ *v0 = append(*v0, nil) if v1 < len(*v0) { copy((*v0)[v1+1:], (*v0)[v1:]) } (*v0)[v1] = v2 }".
Proof. reflexivity. Qed.

(* pkg/btree/btree.go: (items).removeAt, body *)
Lemma src_bt_items_removeAt_ok : Gen_C07.src_bt_items_removeAt =
  "{ v2 := (*v0)[v1] copy((*v0)[v1:], (*v0)[v1+1:]) (*v0)[len(*v0)-1] = nil *v0 = (*v0)[:len(*v0)-1] return v2 }".
Proof. reflexivity. Qed.

(* pkg/btree/btree.go: (items).pop, body *)
Lemma src_bt_items_pop_ok : Gen_C07.src_bt_items_pop =
  "{ v2 := len(*v0) - 1 v1 = (*v0)[v2] (*v0)[v2] = nil *v0 = (*v0)[:v2] return }".
Proof. reflexivity. Qed.

(* pkg/btree/btree.go: (items).truncate, body *)
Lemma src_bt_items_truncate_ok : Gen_C07.src_bt_items_truncate =
  "{ var v2 items *v0, v2 = (*v0)[:v1], (*v0)[v1:] for len(v2) > 0 { v2 = v2[copy(v2, nilItems):] } }".
Proof. reflexivity. Qed.

(* pkg/btree/btree.go: (children).insertAt, body *)
Lemma src_bt_children_insertAt_ok : Gen_C07.src_bt_children_insertAt =
  "{ *v0 = append(*v0, nil) if v1 < len(*v0) { copy((*v0)[v1+1:], (*v0)[v1:]) } (*v0)[v1] = v2 }".
Proof. reflexivity. Qed.

(* pkg/btree/btree.go: (children).removeAt, body *)
Lemma src_bt_children_removeAt_ok : Gen_C07.src_bt_children_removeAt =
  "{ v2 := (*v0)[v1] copy((*v0)[v1:], (*v0)[v1+1:]) (*v0)[len(*v0)-1] = nil *v0 = (*v0)[:len(*v0)-1] return v2 }".
Proof. reflexivity. Qed.

(* pkg/btree/btree.go: (children).pop, body *)
Lemma src_bt_children_pop_ok : Gen_C07.src_bt_children_pop =
  "{ v2 := len(*v0) - 1 v1 = (*v0)[v2] (*v0)[v2] = nil *v0 = (*v0)[:v2] return }".
Proof. reflexivity. Qed.

(* pkg/btree/btree.go: (children).truncate, body *)
Lemma src_bt_children_truncate_ok : Gen_C07.src_bt_children_truncate =
  "{ var v2 children *v0, v2 = (*v0)[:v1], (*v0)[v1:] for len(v2) > 0 { v2 = v2[copy(v2, nilChildren):] } }".
Proof. reflexivity. Qed.

(* pkg/btree/btree.go: (indices).truncate, body *)
Lemma src_bt_indices_truncate_ok : Gen_C07.src_bt_indices_truncate =
  "{ *v0 = (*v0)[:v1] }".
Proof. reflexivity. Qed.

(* pkg/btree/btree.go: (node).mutableFor, body *)
Lemma src_bt_node_mutableFor_ok : Gen_C07.src_bt_node_mutableFor =
  "{ if v0.cow == v1 { return v0 } v2 := v1.newNode() if cap(v2.items) >= len(v0.items) { v2.items = v2.items[:len(v0.items)] } else { v2.items = make(items, len(v0.items), cap(v0.items)) } copy(v2.items, v0.items) if cap(v2.children) >= len(v0.children) { v2.children = v2.children[:len(v0.children)] } else { v2.children = make(children, len(v0.children), cap(v0.children)) } copy(v2.children, v0.children) if cap(v2.indices) >= len(v0.indices) { v2.indices = v2.indices[:len(v0.indices)] } else { v2.indices = make(indices, len(v0.indices), cap(v0.indices)) } copy(v2.indices, v0.indices) return v2 }".
Proof. reflexivity. Qed.

(* pkg/btree/btree.go: (node).mutableChild, body *)
Lemma src_bt_node_mutableChild_ok : Gen_C07.src_bt_node_mutableChild =
  "{ v2 := v0.children[v1].mutableFor(v0.cow) v0.children[v1] = v2 return v2 }".
Proof. reflexivity. Qed.

(* pkg/btree/btree.go: (node).get, body *)
Lemma src_bt_node_get_ok : Gen_C07.src_bt_node_get =
  "{ v2, v3 := v0.items.find(v1) if v3 { return v0.items[v2] } else if len(v0.children) > 0 { return v0.children[v2].get(v1) } return nil }".
Proof. reflexivity. Qed.

(* pkg/btree/btree.go: ().min, body *)
Lemma src_bt_min_ok : Gen_C07.src_bt_min =
  "{ if v0 == nil { return nil } for len(v0.children) > 0 { v0 = v0.children[0] } if len(v0.items) == 0 { return nil } return v0.items[0] }".
Proof. reflexivity. Qed.

(* pkg/btree/btree.go: ().max, body *)
Lemma src_bt_max_ok : Gen_C07.src_bt_max =
  "{ if v0 == nil { return nil } for len(v0.children) > 0 { v0 = v0.children[len(v0.children)-1] } if len(v0.items) == 0 { return nil } return v0.items[len(v0.items)-1] }".
Proof. reflexivity. Qed.

(* pkg/btree/btree.go: (BTree).Delete, body *)
Lemma src_bt_Delete_ok : Gen_C07.src_bt_Delete =
  "{ return v0.deleteItem(v1, removeItem) }".
Proof. reflexivity. Qed.

(* pkg/btree/btree.go: (BTree).DeleteMin, body *)
Lemma src_bt_DeleteMin_ok : Gen_C07.src_bt_DeleteMin =
  "{ return v0.deleteItem(nil, removeMin) }".
Proof. reflexivity. Qed.

(* pkg/btree/btree.go: (BTree).DeleteMax, body *)
Lemma src_bt_DeleteMax_ok : Gen_C07.src_bt_DeleteMax =
  "{ return v0.deleteItem(nil, removeMax) }".
Proof. reflexivity. Qed.

(* pkg/btree/btree.go: (BTree).Get, body *)
Lemma src_bt_Get_ok : Gen_C07.src_bt_Get =
  "{ if v0.root == nil { return nil } return v0.root.get(v1) }".
Proof. reflexivity. Qed.

(* pkg/btree/btree.go: (BTree).Min, body *)
Lemma src_bt_Min_ok : Gen_C07.src_bt_Min =
  "{ return min(v0.root) }".
Proof. reflexivity. Qed.

(* pkg/btree/btree.go: (BTree).Max, body *)
Lemma src_bt_Max_ok : Gen_C07.src_bt_Max =
  "{ return max(v0.root) }".
Proof. reflexivity. Qed.

(* pkg/btree/btree.go: (BTree).Len, body *)
Lemma src_bt_Len_ok : Gen_C07.src_bt_Len =
  "{ return v0.length }".
Proof. reflexivity. Qed.

(* pkg/btree/btree.go: (BTree).getRootLength, body *)
Lemma src_bt_getRootLength_ok : Gen_C07.src_bt_getRootLength =
  "{ if v0.root == nil { return 0 } return v0.root.length() }".
Proof. reflexivity. Qed.

(* server/core/basic_cluster.go: (BasicCluster).PutRegion, body -- the driver puts regions through it; on the observations of C07 it is RegionsInfo.SetRegion (the term is not observed) *)
Lemma src_bc_PutRegion_ok : src_bc_PutRegion =
  "{ v0.Lock() defer v0.Unlock() if v1.term == 0 { if v2 := v0.Regions.GetRegion(v1.GetID()); v2 != nil { v1.term = v2.term } } return v0.Regions.SetRegion(v1) }".
Proof. reflexivity. Qed.

(* server/cluster/cluster.go: (RaftCluster).DropCacheRegion, body *)
Lemma src_rc_DropCacheRegion_ok : src_rc_DropCacheRegion =
  "{ v0.RLock() defer v0.RUnlock() if v2 := v0.GetRegion(v1); v2 != nil { v0.core.RemoveRegion(v2) } }".
Proof. reflexivity. Qed.

(* ---- the ways into the region cache: every call site (outside tests) of the functions that write it.  The drivers go through
   processRegionHeartbeat / PutRegion / CheckAndPutLoadedRegion / DropCacheRegion; a new admin, recovery or feature path (or a second
   call in a listed function) changes one of these lists ---- *)
Lemma cache_writer_sites_PutRegion_ok : cache_writer_sites_PutRegion =
  ["pkg/mock/mockcluster/mockcluster.go:AddLeaderRegion"; "pkg/mock/mockcluster/mockcluster.go:AddLeaderRegionWithRange"; "pkg/mock/mockcluster/mockcluster.go:AddLeaderRegionWithWriteInfo"; "pkg/mock/mockcluster/mockcluster.go:AddRegionLeaderWithReadInfo"; "pkg/mock/mockcluster/mockcluster.go:AddRegionWithLearner"; "pkg/mock/mockcluster/mockcluster.go:AddRegionWithPeerReadInfo"; "pkg/mock/mockcluster/mockcluster.go:AddRegionWithReadInfo"; "pkg/mock/mockcluster/mockcluster.go:LoadRegion"; "pkg/mock/mockcluster/mockcluster.go:PutRegionStores"; "server/cluster/cluster.go:processRegionHeartbeat"; "server/cluster/cluster.go:putRegion"; "server/core/basic_cluster.go:CheckAndPutRegion"; "server/schedule/test_util.go:ApplyOperator"].
Proof. reflexivity. Qed.
Lemma cache_writer_sites_CheckAndPutRegion_ok : cache_writer_sites_CheckAndPutRegion =
  ["server/core/basic_cluster.go:CheckAndPutLoadedRegion"; "server/region_syncer/client.go:StartSyncWithLeader"].
Proof. reflexivity. Qed.
Lemma cache_writer_sites_CheckAndPutLoadedRegion_ok : cache_writer_sites_CheckAndPutLoadedRegion =
  ["server/cluster/cluster.go:LoadClusterInfo"; "server/region_syncer/client.go:StartSyncWithLeader"].
Proof. reflexivity. Qed.
Lemma cache_writer_sites_SetRegion_ok : cache_writer_sites_SetRegion =
  ["server/core/basic_cluster.go:PutRegion"; "server/schedule/range_cluster.go:GenRangeCluster"].
Proof. reflexivity. Qed.
Lemma cache_writer_sites_RemoveRegion_ok : cache_writer_sites_RemoveRegion =
  ["server/cluster/cluster.go:DropCacheRegion"; "server/core/basic_cluster.go:RemoveRegion"; "server/core/region.go:SetRegion"].
Proof. reflexivity. Qed.
Lemma cache_writer_sites_DropCacheRegion_ok : cache_writer_sites_DropCacheRegion =
  ["server/api/admin.go:HandleDropCacheRegion"].
Proof. reflexivity. Qed.
