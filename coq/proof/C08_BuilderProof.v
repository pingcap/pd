(* C08 — the finite domain of the bounded statements (every origin / target / leader / store-admissibility /
   feature-level / force combination for up to 3 stores): each of its inputs meets the hypotheses of the general
   theorems (mk_input_wf), so the bounded builder statements are instances of them.  Also here: three regression
   inputs (leader bounce, S16, demote before add), and CreateLeaveJointStateOperator evaluated over every reachable joint state of up to 3 stores.  The
   regenerated tables of gen/Gen_C08.v are used by the model itself (plan order, preference order, rejected leader
   roles), so a change there re-runs the evaluations on the changed model. *)
From Coq Require Import String.
From PDV Require Import lib.Base gen.Gen_C08 model.C08_Steps model.C08_Builder proof.C08_PlanProof
     proof.C08_ListFacts proof.C08_PmapFacts proof.C08_SimPhases proof.C08_PrepareFacts proof.C08_JointFacts proof.C08_AllocIds.
Local Open Scope Z_scope.

Definition role_opts : list (option role) := [None; Some Voter; Some Learner].
Definition joint_role_opts : list (option role) := [None; Some Voter; Some Learner; Some Incoming; Some Demoting].

Fixpoint vectors {A} (opts : list A) (n : nat) : list (list A) :=
  match n with O => [[]] | S k => flat_map (fun v => map (fun o => o :: v) opts) (vectors opts k) end.

(* position i (from 1) of the vector is store i *)
Fixpoint peers_of_vec (st : Z) (idof : Z -> Z) (v : list (option role)) : list peer :=
  match v with
  | [] => []
  | None :: r => peers_of_vec (st + 1) idof r
  | Some ro :: r => Peer st (idof st) ro :: peers_of_vec (st + 1) idof r
  end.
Definition voters_of (ps : list peer) : list Z := map pstore (filter (fun p => negb (is_learner p)) ps).
Fixpoint stores_of (st : Z) (v : list bool) : list store_info :=
  match v with [] => [] | b :: r => Store st true b [] :: stores_of (st + 1) r end.
Fixpoint alloc_all (st : Z) (n : nat) : list (Z * Z) :=
  match n with O => [] | S k => (st, 200 + st) :: alloc_all (st + 1) k end.

(* (JointConsensus supported, enable-joint-consensus) *)
Definition modes : list (bool * bool) := [(true, true); (true, false); (false, false)].

Definition origin_of (ov : list (option role)) : list peer := peers_of_vec 1 (fun s => 100 + s) ov.
Definition target_of (tv : list (option role)) : list peer := peers_of_vec 1 (fun _ => 0) tv.

Definition mk_input (n : nat) (ov : list (option role)) (ol : Z) (tv : list (option role)) (tl : Z)
           (lok : list bool) (m : bool * bool) (force : bool) : binput :=
  BInput (Cluster (stores_of 1 lok) (fst m) (snd m) 0)
         (Region (origin_of ov) ol 5 0) [] false
         ([OSetPeers (target_of tv)] ++ (if tl =? 0 then [] else [OSetLeader tl]) ++ (if force then [OForceTargetLeader] else []))
         (alloc_all 1 n).

(* the joint path alone, as a decision over one input *)
Definition joint_case_ok (i : binput) : bool :=
  match prepared i with
  | None => true
  | Some b => match build i with
              | Built ss _ _ => negb (b_use_joint b) || plan_ok (goal_of b) (i_region i) ss
              | BuildErr => true
              | BuildFuel => false
              end
  end.

Lemma vectors_In {A} (opts : list A) : forall n v, In v (vectors opts n) -> length v = n /\ Forall (fun x => In x opts) v.
Proof.
  induction n as [|k IH]; intros v H; cbn [vectors] in H.
  - destruct H as [<-|[]]. split; [reflexivity|constructor].
  - apply in_flat_map in H as (w & Hw & H). apply in_map_iff in H as (o & <- & Ho).
    destruct (IH w Hw) as [L F]. split; [cbn [length]; congruence|constructor; assumption].
Qed.

Lemma peers_of_vec_In idof : forall v st p, In p (peers_of_vec st idof v) ->
  st <= pstore p < st + Z.of_nat (length v) /\ pid p = idof (pstore p) /\ In (Some (prole p)) v.
Proof.
  induction v as [|[ro|] v IH]; intros st p H; cbn [peers_of_vec] in H; [contradiction| |].
  - destruct H as [<-|H]; [cbn [pstore pid prole length]; split; [lia|split; [reflexivity|left; reflexivity]]|].
    destruct (IH _ _ H) as (A & B & C). cbn [length]. split; [lia|split; [exact B|right; exact C]].
  - destruct (IH _ _ H) as (A & B & C). cbn [length]. split; [lia|split; [exact B|right; exact C]].
Qed.

Lemma peers_of_vec_ND idof : forall v st, ND (peers_of_vec st idof v).
Proof.
  unfold ND. induction v as [|[ro|] v IH]; intros st; cbn [peers_of_vec map]; [constructor| |apply IH].
  constructor; [|apply IH]. intros C. apply in_map_iff in C as (p & Hp & Hin).
  apply peers_of_vec_In in Hin as (A & _). cbn [pstore] in Hp. lia.
Qed.

Lemma peers_of_vec_ids idof : (forall a b, idof a = idof b -> a = b) -> forall v st, NoDup (map pid (peers_of_vec st idof v)).
Proof.
  intros Hinj. induction v as [|[ro|] v IH]; intros st; cbn [peers_of_vec map]; [constructor| |apply IH].
  constructor; [|apply IH]. intros C. apply in_map_iff in C as (p & Hp & Hin).
  apply peers_of_vec_In in Hin as (A & B & _). cbn [pid] in Hp. rewrite B in Hp. apply Hinj in Hp. lia.
Qed.

Lemma alloc_all_of : forall k st s,
  (st <= s < st + Z.of_nat k -> alloc_of (alloc_all st k) s = 200 + s)
  /\ (~ st <= s < st + Z.of_nat k -> alloc_of (alloc_all st k) s = 0).
Proof.
  unfold alloc_of. induction k as [|k IH]; intros st s; cbn [alloc_all find fst snd].
  - split; [lia|reflexivity].
  - destruct (st =? s) eqn:E.
    + apply Z.eqb_eq in E. subst s. split; [reflexivity|lia].
    + apply Z.eqb_neq in E. destruct (IH (st + 1) s) as [I1 I2]. split; intros H; [apply I1|apply I2]; lia.
Qed.

(* n < 100: origin ids are 100 + store, allocated ids 200 + store *)
Lemma mk_input_wf n ov ol tv tl lok m force :
  (n < 100)%nat ->
  In ov (vectors role_opts n) -> In ol (voters_of (origin_of ov)) -> In tv (vectors role_opts n) ->
  let i := mk_input n ov ol tv tl lok m force in
  nodup_stores (peers (i_region i)) = true /\ is_in_joint (i_region i) = false
  /\ (exists lp, get_store_peer (i_region i) (leader (i_region i)) = Some lp /\ prole lp = Voter)
  /\ (forall p, In p (peers (i_region i)) -> pid p <> 0) /\ leader (i_region i) <> 0
  /\ forall b, prepared i = Some b ->
       NoDup (map pid (peers (i_region i)) ++ map pid (b_add b)) /\ (forall a, In a (b_add b) -> pid a <> 0).
Proof.
  intros Hn Hov Hol Htv i. change (peers (i_region i)) with (origin_of ov). change (leader (i_region i)) with ol.
  destruct (vectors_In _ _ _ Hov) as [Lov Fov]. destruct (vectors_In _ _ _ Htv) as [Ltv _].
  assert (Hnd : ND (origin_of ov)) by apply peers_of_vec_ND.
  assert (Hin : forall p, In p (origin_of ov) -> 1 <= pstore p < 1 + Z.of_nat n /\ pid p = 100 + pstore p /\ (prole p = Voter \/ prole p = Learner)).
  { intros p Hp. apply peers_of_vec_In in Hp as (A & B & C). rewrite Lov in A. split; [exact A|split; [exact B|]].
    rewrite Forall_forall in Fov. destruct (Fov _ C) as [E|[E|[E|[]]]]; inversion E; auto. }
  assert (Hnj : NJ (origin_of ov)) by (intros p Hp; apply (Hin p Hp)).
  apply in_map_iff in Hol as (lp & Hls & Hlp). apply filter_In in Hlp as [Hlin Hll]. apply negb_true_iff in Hll.
  split; [apply nodup_stores_ND; exact Hnd|]. split; [apply NJ_not_joint; exact Hnj|].
  split; [exists lp; split; [rewrite <- Hls; apply (lk_In _ _ Hnd Hlin)|apply (NJ_voter _ _ Hnj Hlin Hll)]|].
  split; [intros p Hp; destruct (Hin p Hp) as (A & B & _); lia|]. split; [destruct (Hin lp Hlin) as (A & _); lia|].
  intros b Hprep.
  (* every store the plan adds a peer on is one of 1..n, so the allocator answers 200 + store *)
  assert (Hadd : forall a, In a (b_add b) -> 1 <= pstore a < 1 + Z.of_nat n).
  { unfold prepared in Hprep. destruct (new_builder i) as [b0|] eqn:Enb; [|discriminate].
    destruct (api_ops b0 (i_ops i)) as [b1|] eqn:Eapi; [|discriminate].
    pose proof (pf_add _ _ _ (prepare_build_spec _ _ _ Hprep)) as F16.
    assert (HT : forall p, In p (b_target b1) -> 1 <= pstore p < 1 + Z.of_nat n).
    { apply (api_ops_target_all (fun p => 1 <= pstore p < 1 + Z.of_nat n)) with (os := i_ops i) (b := b0); [auto|exact Eapi| |].
      - intros o p [<-|Ho] Hp _ _; [apply peers_of_vec_In in Hp as (A & _); rewrite Ltv in A; exact A|].
        cbn in Ho. destruct (tl =? 0), force; cbn in Ho; repeat (destruct Ho as [<-|Ho]; [contradiction Hp|]); contradiction.
      - intros p Hp. destruct (new_builder_target _ _ Enb) as [_ Et]. rewrite Et in Hp. apply pm_of_list_In in Hp. apply (Hin p Hp). }
    intros a Ha. rewrite F16 in Ha. apply cfold_In in Ha as [[]|(t & Ht & Hf)]. rewrite (f_add_store _ _ _ _ _ Hf). apply HT. exact Ht. }
  assert (Hun : Forall (op_unnamed (pm_of_list (origin_of ov))) (i_ops i)).
  { apply Forall_forall. intros o [<-|Ho].
    - intros p Hp _. apply peers_of_vec_In in Hp as (_ & B & _). exact B.
    - cbn in Ho. destruct (tl =? 0), force; cbn in Ho; repeat (destruct Ho as [<-|Ho]; [exact I|]); contradiction. }
  assert (Hal : forall s, 1 <= s < 1 + Z.of_nat n -> alloc_of (i_alloc i) s = 200 + s) by (intros s; apply (alloc_all_of n 1 s)).
  assert (Hal0 : forall s, ~ 1 <= s < 1 + Z.of_nat n -> alloc_of (i_alloc i) s = 0) by (intros s; apply (alloc_all_of n 1 s)).
  split.
  - apply (alloc_gives_distinct_ids i b); auto.
    + apply peers_of_vec_ids. intros a c. lia.
    + intros st C. apply in_map_iff in C as (p & Hp & Hpin). destruct (Hin p Hpin) as (A & B & _).
      assert (D : 1 <= st < 1 + Z.of_nat n \/ ~ 1 <= st < 1 + Z.of_nat n) by lia.
      destruct D as [D|D]; [rewrite (Hal st D) in Hp|rewrite (Hal0 st D) in Hp]; lia.
    + intros s1 s2 H1 H2 Hne. apply in_map_iff in H1 as (a1 & <- & H1). apply in_map_iff in H2 as (a2 & <- & H2).
      rewrite (Hal _ (Hadd a1 H1)), (Hal _ (Hadd a2 H2)). lia.
  - intros a Ha. rewrite (added_ids_are_allocated i b Hnd Hun Hprep a Ha), (Hal _ (Hadd a Ha)). destruct (Hadd a Ha). lia.
Qed.

(* {1 voter leader on a store that rejects leaders, 2 voter}, move 2 -> 3 without joint consensus: a plan in which the leader
   goes 1 -> 2 and is handed BACK to store 1 (what planReplaceLeaders built before 3519349) breaks the rule *)
Lemma leader_bounce_rejected :
  leader_stores_ok (Cluster [Store 1 true false []; Store 2 true true []; Store 3 true true []] false false 0) 1 0 false
    [TransferLeader 1 2; AddLearner 3 203; PromoteLearner 3 203; TransferLeader 2 1; RemovePeer 2 102; TransferLeader 1 3] = false.
Proof. reflexivity. Qed.

Definition up_store (i : Z) := Store i true true [].

(* S16: JointConsensus unsupported; origin {1 voter leader, 2 voter, 3 learner}; DemoteVoter(2).RemovePeer(3):
   the learner on store 2 is added only after voter 12 is gone, and gets a new id *)
Definition s16_input : binput :=
  BInput (Cluster [up_store 1; up_store 2; up_store 3] false true 0)
         (Region [Peer 1 11 Voter; Peer 2 12 Voter; Peer 3 13 Learner] 1 5 0) [] false
         [ODemoteVoter 2; ORemovePeer 3] [(2, 202)].

Lemma s16_plan : build s16_input = Built [RemovePeer 2 12; AddLearner 2 202; RemovePeer 3 13] false true.
Proof. vm_compute. reflexivity. Qed.

Lemma s16_ok : exists b, prepared s16_input = Some b /\
  plan_ok (goal_of b) (i_region s16_input) [RemovePeer 2 12; AddLearner 2 202; RemovePeer 3 13] = true.
Proof. eexists. split; vm_compute; reflexivity. Qed.

(* joint consensus supported but switched off; origin {2 voter leader, 3 voter}; target {1 voter, 2 voter, 3 learner}:
   the new voter is added before the follower is demoted *)
Definition dip_input : binput :=
  BInput (Cluster [up_store 1; up_store 2; up_store 3] true false 0)
         (Region [Peer 2 102 Voter; Peer 3 103 Voter] 2 5 0) [] false
         [OSetPeers [Peer 1 0 Voter; Peer 2 0 Voter; Peer 3 0 Learner]] [(1, 201)].

Lemma dip_plan : build dip_input = Built [AddLearner 1 201; PromoteLearner 1 201; DemoteFollower 3 103] false true.
Proof. vm_compute. reflexivity. Qed.

Lemma dip_ok : exists b, prepared dip_input = Some b /\
  plan_ok (goal_of b) (i_region dip_input) [AddLearner 1 201; PromoteLearner 1 201; DemoteFollower 3 103] = true.
Proof. eexists. split; vm_compute; reflexivity. Qed.

(* for these inputs the plans of a builder without af3c9a8 / 65c6ab4 are rejected by the checker *)
Lemma old_plans_rejected :
  (exists b, prepared s16_input = Some b /\
     plan_check (goal_of b) (i_region s16_input) [AddLearner 2 12; RemovePeer 3 13; RemovePeer 2 12] = Some "check-safety-fails:AddLearner"%string)
  /\ (exists b, prepared dip_input = Some b /\
     plan_check (goal_of b) (i_region dip_input) [DemoteFollower 3 103; AddLearner 1 201; PromoteLearner 1 201] = Some "voters-below-min:DemoteFollower"%string).
Proof. split; eexists; split; vm_compute; reflexivity. Qed.

Definition reachable_joint (ps : list peer) : bool :=
  existsb in_joint ps && negb (voters_old ps =? 0) && negb (voters_new ps =? 0).

Definition leave_case_ok (c : cluster) (r : region) : bool :=
  match leave_joint_op c r with
  | Built ss _ _ => plan_ok (leave_goal r) r ss
  | BuildErr => false
  | BuildFuel => false
  end.

Definition forall_joint_states (n : nat) (P : cluster -> region -> bool) : bool :=
  forallb (fun ov =>
    let ps := origin_of ov in
    negb (reachable_joint ps) ||
    forallb (fun ol =>
      forallb (fun lok => P (Cluster (stores_of 1 lok) true true 0) (Region ps ol 5 0)) (vectors [true; false] n))
      (voters_of ps))
    (vectors joint_role_opts n).

Lemma leave_ok_upto3 :
  forall_joint_states 1 leave_case_ok && forall_joint_states 2 leave_case_ok && forall_joint_states 3 leave_case_ok = true.
Proof. vm_cast_no_check (@eq_refl bool true). Qed.

Lemma leave_joint_ok_bounded_pf :
  forall n, (1 <= n <= 3)%nat ->
  forall ov ol lok,
    In ov (vectors joint_role_opts n) -> reachable_joint (origin_of ov) = true ->
    In ol (voters_of (origin_of ov)) -> In lok (vectors [true; false] n) ->
    let c := Cluster (stores_of 1 lok) true true 0 in
    let r := Region (origin_of ov) ol 5 0 in
    exists ss kl kr, leave_joint_op c r = Built ss kl kr /\ plan_ok (leave_goal r) r ss = true.
Proof.
  intros n Hn ov ol lok Hov Hr Hol Hlok c r.
  pose proof leave_ok_upto3 as H.
  apply andb_true_iff in H as [H H3]. apply andb_true_iff in H as [H1 H2].
  assert (Hc : leave_case_ok c r = true).
  { assert (G : forall k, forall_joint_states k leave_case_ok = true -> In ov (vectors joint_role_opts k) ->
                           In lok (vectors [true; false] k) -> leave_case_ok c r = true).
    { intros k Hk Hov' Hlok'. unfold forall_joint_states in Hk.
      rewrite forallb_forall in Hk. specialize (Hk ov Hov'). rewrite Hr in Hk. cbn [negb orb] in Hk.
      rewrite forallb_forall in Hk. specialize (Hk ol Hol).
      rewrite forallb_forall in Hk. exact (Hk lok Hlok'). }
    destruct n as [|[|[|[|n]]]]; try lia.
    - exact (G 1%nat H1 Hov Hlok).
    - exact (G 2%nat H2 Hov Hlok).
    - exact (G 3%nat H3 Hov Hlok). }
  unfold leave_case_ok in Hc. revert Hc. generalize (leave_joint_op c r) as o. generalize (leave_goal r) as g.
  intros g o Hc. clear H1 H2 H3. destruct o as [ss kl kr| |]; [|discriminate Hc|discriminate Hc].
  exists ss, kl, kr. split; [reflexivity|exact Hc].
Qed.
