(* C07 — the Gallina B-tree of model/C07_BTree.v (pkg/btree transcribed) refines the ordered-list
   specification L0 of model/C07_BTreeSpec.v.

   Representation invariant `binv lo hi h n` (lo = minItems = degree-1, hi = maxItems = 2*degree-1):
     all leaves at depth h (balanced); an internal node has len(items)+1 children; every non-root node has between
     lo and hi items; indices = idx_of (sizes of the children), i.e. indices[i] = sum of child sizes + i;
   together with `sorted (flatten n)` for the in-order walk.  Every operation's result and the abstraction of the
   new tree equal the L0 operation on the abstraction of the old tree. *)
From Coq Require Import List ZArith Bool Lia Sorting.Sorted.
From PDV Require Import lib.C07_List model.C07_BTreeSpec model.C07_BTree proof.C07_BTreeOrder proof.C07_BTree.
Import ListNotations.

Section Refine.
  Context {A : Type} (ltb : A -> A -> bool).
  Hypothesis lt_irrefl : forall a, ltb a a = false.
  Hypothesis lt_trans : forall a b c, ltb a b = true -> ltb b c = true -> ltb a c = true.
  Hypothesis lt_negtrans : forall a b c, ltb a b = false -> ltb b c = false -> ltb a c = false.

  Local Notation node := (C07_BTree.node A).
  Local Notation lt := (lt ltb).
  Local Notation eqv := (eqv ltb).
  Local Notation all_lt := (all_lt ltb).
  Local Notation lt_all := (lt_all ltb).
  Local Notation sorted := (sorted ltb).
  Local Notation le_x := (le_x ltb).

  (* Three ways of weaving items and the walks of children, all files on the B-tree are written in them:
       inter I C = c0 i0 c1 i1 .. cn      the local fix of `flatten`, under a name (one child more than items);
       zipl I C  = c0 i0 c1 i1 ..         every child followed by its item (what lies left of a cut);
       zipr I C  = i0 c0 i1 c1 ..         every item followed by its child (what lies right of a cut). *)
  Fixpoint inter (its : list A) (cs : list node) {struct cs} : list A :=
    match cs with
    | [] => []
    | c :: cs' => match its with
                  | [] => flatten c
                  | i :: its' => flatten c ++ i :: inter its' cs'
                  end
    end.
  Fixpoint zipl (its : list A) (cs : list node) : list A :=
    match its, cs with i :: its', c :: cs' => flatten c ++ i :: zipl its' cs' | _, _ => [] end.
  Fixpoint zipr (its : list A) (cs : list node) : list A :=
    match its, cs with i :: its', c :: cs' => i :: flatten c ++ zipr its' cs' | _, _ => [] end.

  Lemma flatten_leaf (its : list A) idx : flatten (Node its [] idx) = its.
  Proof. reflexivity. Qed.
  Lemma flatten_node (its : list A) c cs idx : flatten (Node its (c :: cs) idx) = inter its (c :: cs).
  Proof. reflexivity. Qed.

  Lemma inter_step i its c c' cs : inter (i :: its) (c :: c' :: cs) = flatten c ++ i :: inter its (c' :: cs).
  Proof. reflexivity. Qed.

  Lemma inter_app I1 I2 C1 C2 : length C1 = length I1 -> C2 <> [] ->
    inter (I1 ++ I2) (C1 ++ C2) = zipl I1 C1 ++ inter I2 C2.
  Proof.
    revert C1. induction I1 as [|i I1 IH]; intros [|c C1] L NE; try discriminate; [reflexivity|].
    change (inter ((i :: I1) ++ I2) ((c :: C1) ++ C2)) with (flatten c ++ i :: inter (I1 ++ I2) (C1 ++ C2)).
    cbn in L. rewrite IH by (auto; lia). cbn [zipl]. rewrite <- app_assoc. reflexivity.
  Qed.
  Lemma inter_cons I c C : length C = length I -> inter I (c :: C) = flatten c ++ zipr I C.
  Proof.
    revert c C. induction I as [|i I IH]; intros c [|c' C] L; try discriminate.
    - cbn. symmetry; apply app_nil_r.
    - rewrite inter_step.
      cbn in L. rewrite IH by lia. reflexivity.
  Qed.

  Lemma flatten_inter its ch idx : ch <> [] -> flatten (Node its ch idx) = inter its ch.
  Proof. destruct ch; [contradiction|reflexivity]. Qed.

  Lemma mid_nonempty {X} (l1 : list X) x l2 : l1 ++ x :: l2 <> [].
  Proof. destruct l1; discriminate. Qed.

  Lemma flatten_at_child (I1 I2 : list A) C1 c C2 idx : length C1 = length I1 -> length C2 = length I2 ->
    flatten (Node (I1 ++ I2) (C1 ++ c :: C2) idx) = zipl I1 C1 ++ flatten c ++ zipr I2 C2.
  Proof.
    intros L1 L2. rewrite flatten_inter by apply mid_nonempty.
    rewrite inter_app by (auto; discriminate). rewrite inter_cons by exact L2. reflexivity.
  Qed.

  Lemma flatten_at_item (I1 : list A) x I2 C1 cl C2 idx : length C1 = length I1 -> length C2 = S (length I2) ->
    flatten (Node (I1 ++ x :: I2) (C1 ++ cl :: C2) idx) = zipl I1 C1 ++ flatten cl ++ x :: inter I2 C2.
  Proof.
    intros L1 L2. rewrite flatten_inter by apply mid_nonempty.
    rewrite inter_app by (auto; discriminate). cbn [inter]. reflexivity.
  Qed.

  Lemma nth_error_split {X} (l : list X) i x : nth_error l i = Some x ->
    exists l1 l2, l = l1 ++ x :: l2 /\ length l1 = i.
  Proof. intros H. apply nth_error_split in H as (l1 & l2 & E & L). eauto. Qed.

  Lemma search_first_spec its x : sorted its ->
    exists I1 I2, its = I1 ++ I2 /\ length I1 = search_first ltb its x /\
                  (forall y, In y I1 -> ltb x y = false) /\ lt_all x I2.
  Proof.
    induction its as [|y r IH]; intros S; cbn [search_first].
    - exists [], []. repeat split; auto; intros z [].
    - destruct (ltb x y) eqn:E.
      + exists [], (y :: r). repeat split; auto; [intros z []|].
        apply sorted_cons_inv in S as [_ F]. apply lt_all_cons. split; [exact E|]. eapply lt_all_trans; eauto.
      + apply sorted_cons_inv in S as [S _]. destruct (IH S) as (I1 & I2 & E1 & L & H1 & H2).
        exists (y :: I1), I2. repeat split; [cbn; congruence|cbn; congruence| |exact H2].
        intros z [<-|Hz]; auto.
  Qed.

  Inductive find_res (its : list A) (x : A) : nat * bool -> Prop :=
  | find_no I1 I2 : its = I1 ++ I2 -> all_lt I1 x -> lt_all x I2 -> find_res its x (length I1, false)
  | find_yes I1 y I2 : its = I1 ++ y :: I2 -> all_lt I1 x -> eqv x y -> lt_all x I2 -> find_res its x (length I1, true).

  Lemma items_find_spec its x : sorted its -> find_res its x (items_find ltb its x).
  Proof.
    intros Hs. destruct (search_first_spec its x Hs) as (I1 & I2 & E & L & H1 & H2).
    unfold items_find. rewrite <- L.
    destruct (@exists_last_or_nil _ I1) as [->|(l & a & ->)].
    - cbn. apply (find_no its x [] I2); auto. intros z [].
    - rewrite app_length. cbn [length]. replace (length l + 1)%nat with (S (length l)) by lia.
      subst its. rewrite <- app_assoc. cbn [app]. rewrite nth_error_mid.
      assert (SL : sorted (l ++ a :: I2)) by (rewrite <- app_assoc in Hs; exact Hs).
      destruct (sorted_mid ltb _ _ _ SL) as (LA & AQ & _ & _).
      destruct (ltb a x) eqn:E; cbn [negb].
      + replace (S (length l)) with (length (l ++ [a])) by (rewrite app_length; cbn; lia).
        replace (l ++ a :: I2) with ((l ++ [a]) ++ I2) by (rewrite <- app_assoc; reflexivity).
        apply (find_no _ x (l ++ [a]) I2); [reflexivity| |exact H2].
        apply all_lt_app. split; [apply (all_lt_trans ltb lt_trans l a x LA E)|]. apply all_lt_cons. split; [exact E|apply all_lt_nil].
      + assert (EQ : eqv x a) by (split; [apply H1, in_or_app; right; left; reflexivity|exact E]).
        apply (find_yes _ x l a I2); [reflexivity| |exact EQ|exact H2]. intros z Hz. apply (lt_eqv_r ltb lt_negtrans z a x); [apply LA, Hz|apply eqv_sym, EQ].
  Qed.

  Definition fsize (n : node) : Z := Z.of_nat (length (flatten n)).

  Variables (lo hi : nat).      (* minItems, maxItems; what is assumed of them is introduced where the first proof needs it *)

  Inductive binv : nat -> node -> Prop :=
  | binv_leaf its : binv 0 (Node its [] [])
  | binv_node h its ch :
      length ch = S (length its) ->
      Forall (binv h) ch ->
      Forall (fun c => lo <= length (n_its c) <= hi)%nat ch ->
      binv (S h) (Node its ch (idx_of (map fsize ch))).

  Lemma zipl_length I C : length C = length I ->
    Z.of_nat (length (zipl I C)) = (fold_right Z.add 0 (map fsize C) + Z.of_nat (length I))%Z.
  Proof.
    revert C. induction I as [|i I IH]; intros [|c C] L; try discriminate; [reflexivity|].
    cbn [zipl map fold_right length]. rewrite app_length. cbn [length]. cbn in L.
    rewrite Nat2Z.inj_add, !Nat2Z.inj_succ, IH by lia. unfold fsize. lia.
  Qed.
  Lemma zipr_length I C : length C = length I ->
    Z.of_nat (length (zipr I C)) = (fold_right Z.add 0 (map fsize C) + Z.of_nat (length I))%Z.
  Proof.
    revert C. induction I as [|i I IH]; intros [|c C] L; try discriminate; [reflexivity|].
    cbn [zipr map fold_right length]. rewrite app_length. cbn in L.
    rewrite Nat2Z.inj_succ, Nat2Z.inj_add, !Nat2Z.inj_succ, IH by lia. unfold fsize. lia.
  Qed.

  Lemma last_idx_from acc ss d : ss <> [] ->
    last (idx_from acc ss) d = (acc + fold_right Z.add 0 ss + Z.of_nat (length ss) - 1)%Z.
  Proof.
    revert acc. induction ss as [|s r IH]; intros acc NE; [contradiction|]. cbn [idx_from].
    destruct r as [|s2 r2]; [cbn; lia|].
    change (last ((acc + s)%Z :: idx_from (acc + s + 1) (s2 :: r2)) d) with (last (idx_from (acc + s + 1) (s2 :: r2)) d).
    rewrite IH by discriminate. cbn [fold_right length]. lia.
  Qed.

  Lemma fold_add_app (a b : list Z) : fold_right Z.add 0%Z (a ++ b) = (fold_right Z.add 0 a + fold_right Z.add 0 b)%Z.
  Proof. induction a as [|x a IH]; cbn; [reflexivity|]. rewrite IH. lia. Qed.

  Lemma flatten_size its c cs idx : length (c :: cs) = S (length its) ->
    fsize (Node its (c :: cs) idx) = (fold_right Z.add 0 (map fsize (c :: cs)) + Z.of_nat (length its))%Z.
  Proof.
    intros L. unfold fsize at 1. rewrite flatten_node, inter_cons by (cbn in L; lia).
    rewrite app_length, Nat2Z.inj_add, zipr_length by (cbn in L; lia). cbn [map fold_right]. unfold fsize. lia.
  Qed.

  Lemma nlen_binv h n : binv h n -> nlen n = fsize n.
  Proof.
    intros B. destruct B as [its|h its ch L F1 F2]; [reflexivity|].
    destruct ch as [|c cs]; [discriminate|]. rewrite (flatten_size _ _ _ _ L).
    unfold nlen. cbn [n_idx n_its].
    destruct (idx_of (map fsize (c :: cs))) as [|z zs] eqn:E; [discriminate|]. rewrite <- E. unfold idx_of.
    rewrite last_idx_from by discriminate. rewrite map_length. cbn [length] in *. lia.
  Qed.

  Lemma height_binv h n : binv h n -> height n = S h.
  Proof.
    revert n. induction h as [|h IH]; intros n B; inversion B as [its|h' its ch L F1 F2]; subst; [reflexivity|].
    cbn [height]. f_equal. destruct ch as [|c cs]; [discriminate|].
    assert (G : forall l, l <> [] -> Forall (binv h) l -> fold_right (fun c0 hh => Nat.max (height c0) hh) O l = S h).
    { induction l as [|a l IHl]; intros NE F; [contradiction|]. inversion F; subst. cbn.
      rewrite (IH a) by assumption. destruct l as [|b l']; [cbn; lia|]. rewrite IHl by (auto; discriminate). lia. }
    apply G; [discriminate|exact F1].
  Qed.

  Lemma zipl_snoc I a C c : length C = length I -> zipl (I ++ [a]) (C ++ [c]) = zipl I C ++ flatten c ++ [a].
  Proof.
    revert C. induction I as [|i I IH]; intros [|c0 C] L; try discriminate; [reflexivity|].
    cbn [app zipl]. cbn in L. rewrite IH by lia. rewrite <- app_assoc. reflexivity.
  Qed.

  Lemma zipl_all_lt I C x rest : length C = length I -> sorted (zipl I C ++ rest) -> all_lt I x -> all_lt (zipl I C) x.
  Proof.
    intros L Hs HI. destruct (exists_last_or_nil I) as [->|(I' & a & ->)]; [destruct C; [intros y []|discriminate]|].
    destruct (exists_last_or_nil C) as [->|(C' & c & ->)]; [rewrite app_length in L; cbn in L; lia|].
    rewrite !app_length in L. cbn in L. rewrite zipl_snoc in * by lia.
    assert (Ha : lt a x) by (apply HI, in_or_app; right; left; reflexivity).
    rewrite <- !app_assoc in Hs. cbn [app] in Hs. rewrite app_assoc in Hs.
    destruct (sorted_mid ltb _ _ _ Hs) as (LA & _ & _ & _).
    rewrite app_assoc. apply all_lt_app. split; [eapply all_lt_trans; eauto|]. apply all_lt_cons. split; [exact Ha|apply all_lt_nil].
  Qed.

  Lemma zipr_lt_all I C x pre : length C = length I -> sorted (pre ++ zipr I C) -> lt_all x I -> lt_all x (zipr I C).
  Proof.
    intros L Hs HI. destruct I as [|b I']; [destruct C; [intros y []|discriminate]|].
    destruct C as [|c C']; [discriminate|]. cbn [zipr] in *.
    assert (Hb : lt x b) by (apply HI; left; reflexivity).
    destruct (sorted_mid ltb _ _ _ Hs) as (_ & BQ & _ & _).
    apply lt_all_cons. split; [exact Hb|]. eapply lt_all_trans; eauto.
  Qed.

  Lemma inter_lt_all I C x pre : length C = S (length I) -> sorted (pre ++ x :: inter I C) -> lt_all x (inter I C).
  Proof. intros L Hs. destruct (sorted_mid ltb _ _ _ Hs) as (_ & Q & _ & _). exact Q. Qed.

  Lemma node_items_sorted its ch idx : length ch = S (length its) -> sorted (flatten (Node its ch idx)) -> sorted its.
  Proof.
    intros L Hs. destruct ch as [|c cs]; [discriminate|]. revert Hs. rewrite flatten_node. revert c cs L.
    induction its as [|i its IHi]; intros c cs L Hs; [apply sorted_nil|].
    destruct cs as [|c' cs']; [discriminate|]. rewrite inter_step in Hs.
    destruct (sorted_mid ltb _ _ _ Hs) as (_ & Q & _ & S2). apply sorted_cons; [apply (IHi c' cs'); [cbn in *; lia|exact S2]|].
    intros z Hz. apply Q. clear -Hz L. revert c' cs' L. induction its as [|j its IHj]; intros c' cs' L; [destruct Hz|].
    destruct cs' as [|c'' cs'']; [discriminate|].
    rewrite inter_step.
    apply in_or_app. right. destruct Hz as [<-|Hz]; [left; reflexivity|right; apply IHj; [exact Hz|cbn in *; lia]].
  Qed.

  Lemma all_lt_eqv P x y : all_lt P y -> eqv x y -> all_lt P x.
  Proof. intros H E z Hz. apply (lt_eqv_r ltb lt_negtrans z y x); [apply H, Hz|apply eqv_sym, E]. Qed.
  Lemma lt_all_eqv x y Q : eqv x y -> lt_all y Q -> lt_all x Q.
  Proof. intros E H z Hz. apply (lt_eqv_l ltb lt_negtrans x y z E), H, Hz. Qed.

  Lemma cut_children (I1 I2 : list A) (ch : list node) : length ch = S (length (I1 ++ I2)) ->
    exists C1 c C2, ch = C1 ++ c :: C2 /\ length C1 = length I1 /\ length C2 = length I2.
  Proof.
    intros L. rewrite app_length in L. destruct (split_at ch (length I1)) as (C1 & R & -> & L1); [lia|].
    rewrite app_length in L. destruct R as [|c C2]; [cbn in L; lia|]. exists C1, c, C2. cbn in L. repeat split; lia.
  Qed.

  Lemma cut_bounds I1 I2 C1 c C2 x : length C1 = length I1 -> length C2 = length I2 ->
    sorted (zipl I1 C1 ++ flatten c ++ zipr I2 C2) -> all_lt I1 x -> lt_all x I2 ->
    all_lt (zipl I1 C1) x /\ lt_all x (zipr I2 C2).
  Proof.
    intros L1 L2 Hs H1 H2. split; [eapply zipl_all_lt; eauto|rewrite app_assoc in Hs; eapply zipr_lt_all; eauto].
  Qed.

  Lemma cut_child_sorted I1 I2 C1 c C2 : sorted (zipl I1 C1 ++ flatten c ++ zipr I2 C2) -> sorted (flatten c).
  Proof. intros Hs. apply sorted_app in Hs as (_ & Hs & _). apply sorted_app in Hs as (Hs & _ & _). exact Hs. Qed.

  (* what items.find returns in an internal node, as a cut of the node and order facts about the walk around it *)
  Inductive node_pos (x : A) (its : list A) (ch : list node) : nat * bool -> Prop :=
  | pos_down I1 I2 C1 c C2 : its = I1 ++ I2 -> ch = C1 ++ c :: C2 -> length C1 = length I1 -> length C2 = length I2 ->
      all_lt (zipl I1 C1) x -> lt_all x (zipr I2 C2) -> node_pos x its ch (length I1, false)
  | pos_here I1 y I2 C1 cl C2 : its = I1 ++ y :: I2 -> ch = C1 ++ cl :: C2 -> length C1 = length I1 -> length C2 = S (length I2) ->
      eqv x y -> all_lt (zipl I1 C1 ++ flatten cl) x -> lt_all x (inter I2 C2) -> node_pos x its ch (length I1, true).

  Lemma node_find x its ch idx : length ch = S (length its) -> sorted (flatten (Node its ch idx)) ->
    node_pos x its ch (items_find ltb its x).
  Proof.
    intros L Hs. pose proof (node_items_sorted _ _ _ L Hs) as Hi.
    destruct (items_find_spec its x Hi) as [I1 I2 E H1 H2|I1 y I2 E H1 EQ H2]; subst its.
    - destruct (cut_children I1 I2 ch L) as (C1 & c & C2 & -> & L1 & L2).
      rewrite (flatten_at_child I1 I2 C1 c C2 idx L1 L2) in Hs.
      destruct (cut_bounds _ _ _ _ _ x L1 L2 Hs H1 H2). eapply pos_down; eauto.
    - destruct (cut_children I1 (y :: I2) ch L) as (C1 & cl & C2 & -> & L1 & L2). cbn in L2.
      rewrite (flatten_at_item I1 y I2 C1 cl C2 idx L1 L2), app_assoc in Hs.
      destruct (sorted_mid ltb _ _ _ Hs) as (PY & YQ & _ & _).
      eapply pos_here; eauto; [eapply all_lt_eqv; eauto|eapply lt_all_eqv; eauto].
  Qed.

  Lemma idx_prev I1 C1 c C2 p : length C1 = length I1 -> length I1 = S p ->
    (nth p (idx_of (map fsize (C1 ++ c :: C2))) 0 + 1)%Z = Z.of_nat (length (zipl I1 C1)).
  Proof.
    intros L1 LP. rewrite map_app. unfold idx_of. rewrite idx_from_app.
    rewrite (idx_from_nth_pred 0 (map fsize C1) _ p) by (rewrite map_length; lia).
    rewrite zipl_length, map_length by exact L1. lia.
  Qed.
  Lemma idx_at I1 C1 cl C2 : length C1 = length I1 ->
    nth (length I1) (idx_of (map fsize (C1 ++ cl :: C2))) 0%Z = Z.of_nat (length (zipl I1 C1 ++ flatten cl)).
  Proof.
    intros L1. rewrite map_app. cbn [map]. unfold idx_of. rewrite <- L1, <- (map_length fsize C1), idx_from_nth_prefix.
    rewrite app_length, Nat2Z.inj_add, zipl_length, !map_length by exact L1. unfold fsize. lia.
  Qed.

  Lemma l0_get_gt Q x : lt_all x Q -> l0_get ltb x Q = None.
  Proof.
    intros H. destruct Q as [|q Q]; [reflexivity|]. cbn.
    rewrite (lt_asym ltb lt_irrefl lt_trans _ _ (H q (or_introl eq_refl))), (H q (or_introl eq_refl)). reflexivity.
  Qed.
  Lemma l0_get_hit P y Q x : all_lt P x -> eqv x y -> l0_get ltb x (P ++ y :: Q) = Some y.
  Proof. intros HP [E1 E2]. rewrite (l0_get_below ltb _ _ _ HP). cbn. rewrite E2, E1. reflexivity. Qed.
  Lemma l0_rank_hit P y Q x : all_lt P x -> eqv x y -> l0_rank ltb x (P ++ y :: Q) = length P.
  Proof. intros HP [E1 E2]. rewrite (l0_rank_below ltb _ _ _ HP). cbn. rewrite E2. lia. Qed.
  Lemma l0_rank_gt Q x : lt_all x Q -> l0_rank ltb x Q = O.
  Proof.
    intros H. destruct Q as [|q Q]; [reflexivity|]. cbn.
    rewrite (lt_asym ltb lt_irrefl lt_trans _ _ (H q (or_introl eq_refl))). reflexivity.
  Qed.
  Lemma none_lt_of_lt_all x Q : lt_all x Q -> none_lt ltb Q x.
  Proof. intros H y Hy. apply (lt_asym ltb lt_irrefl lt_trans), H, Hy. Qed.

  Theorem get_with_index_spec x : forall h n fuel, binv h n -> sorted (flatten n) -> (h < fuel)%nat ->
    get_with_index ltb fuel n x = (l0_get ltb x (flatten n), Z.of_nat (l0_rank ltb x (flatten n))).
  Proof.
    induction h as [|h IH]; intros n fuel B Hs Hf; (destruct fuel as [|f]; [lia|]);
      inversion B as [its|h' its ch L F1 F2]; subst; cbn [get_with_index n_its n_ch n_idx].
    - rewrite flatten_leaf in *. destruct (items_find_spec its x Hs) as [I1 I2 E H1 H2|I1 y I2 E H1 EQ H2]; subst its.
      + destruct (nth_error [] (length I1)) eqn:N; [destruct (length I1); discriminate|].
        rewrite (l0_get_below ltb _ _ _ H1), (l0_get_gt _ _ H2), (l0_rank_below ltb _ _ _ H1), (l0_rank_gt _ _ H2), Nat.add_0_r.
        reflexivity.
      + rewrite nth_error_mid. rewrite (l0_get_hit _ _ _ _ H1 EQ), (l0_rank_hit _ _ _ _ H1 EQ). reflexivity.
    - destruct (node_find x its ch _ L Hs) as [I1 I2 C1 c C2 -> -> L1 L2 HP HQ|I1 y I2 C1 cl C2 -> -> L1 L2 EQ HP HQ].
      + rewrite (flatten_at_child I1 I2 C1 c C2 _ L1 L2) in *. apply Forall_mid in F1 as (_ & Bc & _).
        rewrite <- L1 at 1. rewrite nth_error_mid, (IH c f Bc (cut_child_sorted _ _ _ _ _ Hs)) by lia.
        rewrite (l0_get_below ltb _ _ _ HP), (l0_get_above ltb lt_irrefl lt_trans _ _ _ HQ), (l0_rank_below ltb _ _ _ HP).
        rewrite (l0_rank_above ltb _ _ _ (none_lt_of_lt_all _ _ HQ)) by (apply sorted_app in Hs; tauto). f_equal.
        destruct (length I1) as [|p] eqn:LP.
        * destruct I1; [|discriminate]. destruct C1; [|discriminate]. reflexivity.
        * rewrite <- LP in L1. rewrite Nat2Z.inj_add, <- (idx_prev I1 C1 c C2 p L1 LP). lia.
      + rewrite (flatten_at_item I1 y I2 C1 cl C2 _ L1 L2), app_assoc in *.
        rewrite nth_error_mid, (l0_get_hit _ _ _ _ HP EQ), (l0_rank_hit _ _ _ _ HP EQ). f_equal.
        destruct (idx_of (map fsize (C1 ++ cl :: C2))) as [|z zs] eqn:EI; [destruct C1; discriminate|].
        rewrite <- EI. apply idx_at, L1.
  Qed.

  Lemma get_fst x fuel : forall n, get ltb fuel n x = fst (get_with_index ltb fuel n x).
  Proof.
    induction fuel as [|f IH]; intros n; [reflexivity|]. cbn [get get_with_index].
    destruct (items_find ltb (n_its n) x) as [i [|]]; [reflexivity|].
    destruct (nth_error (n_ch n) i) as [c|]; [|reflexivity]. rewrite IH. destruct (get_with_index ltb f c x). reflexivity.
  Qed.

  Corollary get_spec x h n fuel : binv h n -> sorted (flatten n) -> (h < fuel)%nat ->
    get ltb fuel n x = l0_get ltb x (flatten n).
  Proof. intros B Hs Hf. rewrite get_fst, (get_with_index_spec x h n fuel B Hs Hf). reflexivity. Qed.

  Lemma inter_length its cs : length cs = S (length its) ->
    Z.of_nat (length (inter its cs)) = (fold_right Z.add 0 (map fsize cs) + Z.of_nat (length its))%Z.
  Proof.
    intros L. destruct cs as [|c cs]; [discriminate|]. cbn in L.
    rewrite inter_cons by lia. rewrite app_length, Nat2Z.inj_add, zipr_length by lia. cbn [map fold_right]. unfold fsize. lia.
  Qed.

  (* position k of the walk is item i, or lies in child i, for i = sort.SearchInts(indices, k) (acc = offset of the node) *)
  Lemma inter_nth its cs acc k : length cs = S (length its) -> (0 <= k < Z.of_nat (length (inter its cs)))%Z ->
    let idx := idx_from acc (map fsize cs) in
    let i := search_ints idx (k + acc) in
    if (nth i idx 0%Z =? k + acc)%Z
    then nth_error (inter its cs) (Z.to_nat k) = nth_error its i
    else exists c, nth_error cs i = Some c /\
         nth_error (inter its cs) (Z.to_nat k) =
         nth_error (flatten c) (Z.to_nat (k + acc - match i with O => acc | S p => nth p idx 0%Z + 1 end)).
  Proof.
    revert its acc k. induction cs as [|c cs IH]; intros its acc k L K; [discriminate|].
    cbn [map idx_from search_ints]. cbn zeta.
    destruct (Z.leb_spec (k + acc) (acc + fsize c)) as [LE|GT].
    - cbn [nth]. destruct (Z.eqb_spec (acc + fsize c) (k + acc)) as [E|NE].
      + destruct its as [|i0 its']; cbn [inter] in *.
        * unfold fsize in E. lia.
        * rewrite nth_error_app2 by (unfold fsize in E; lia).
          replace (Z.to_nat k - length (flatten c))%nat with O by (unfold fsize in E; lia). reflexivity.
      + exists c. split; [reflexivity|]. replace (k + acc - acc)%Z with k by lia.
        destruct its as [|i0 its']; cbn [inter]; [reflexivity|].
        apply nth_error_app1. unfold fsize in *. lia.
    - destruct its as [|i0 its'].
      + cbn [inter] in K. unfold fsize in GT. lia.
      + destruct cs as [|c2 cs2]; [discriminate|].
        rewrite inter_step in *.
        cbn in L. rewrite app_length in K. cbn [length] in K.
        assert (K' : (0 <= k - fsize c - 1 < Z.of_nat (length (inter its' (c2 :: cs2))))%Z) by (unfold fsize in *; lia).
        specialize (IH its' (acc + fsize c + 1)%Z (k - fsize c - 1)%Z ltac:(cbn; lia) K'). cbn zeta in IH.
        replace (k - fsize c - 1 + (acc + fsize c + 1))%Z with (k + acc)%Z in IH by lia.
        set (i' := search_ints (idx_from (acc + fsize c + 1) (map fsize (c2 :: cs2))) (k + acc)) in *.
        cbn [nth].
        assert (NE : nth_error (flatten c ++ i0 :: inter its' (c2 :: cs2)) (Z.to_nat k)
                     = nth_error (inter its' (c2 :: cs2)) (Z.to_nat (k - fsize c - 1))).
        { rewrite nth_error_app2 by (unfold fsize in *; lia).
          replace (Z.to_nat k - length (flatten c))%nat with (S (Z.to_nat (k - fsize c - 1))) by (unfold fsize in *; lia). reflexivity. }
        rewrite NE.
        destruct (nth i' (idx_from (acc + fsize c + 1) (map fsize (c2 :: cs2))) 0%Z =? k + acc)%Z; [exact IH|].
        destruct IH as (c' & Hc' & E'). exists c'. split; [exact Hc'|]. rewrite E'. f_equal. f_equal.
        destruct i' as [|p]; cbn [nth]; lia.
  Qed.

  Lemma search_ints_before s kk q : search_ints s kk = S q -> (nth q s 0%Z < kk)%Z.
  Proof.
    revert q. induction s as [|x s IHs]; intros q Hq; [discriminate|]. cbn [search_ints] in Hq.
    destruct (kk <=? x)%Z eqn:LE; [discriminate|]. apply Z.leb_gt in LE.
    injection Hq as Hq. destruct q as [|q']; cbn [nth]; [exact LE|]. apply IHs. exact Hq.
  Qed.

  Theorem get_at_spec : forall h n fuel k, binv h n -> (h < fuel)%nat -> (0 <= k)%Z ->
    get_at fuel n k = nth_error (flatten n) (Z.to_nat k).
  Proof.
    induction h as [|h IH]; intros n fuel k B Hf K0; (destruct fuel as [|f]; [lia|]);
      pose proof (nlen_binv _ _ B) as NL; inversion B as [its|h' its ch L F1 F2]; subst; cbn [get_at]; rewrite NL.
    - change (fsize (Node its [] [])) with (Z.of_nat (length its)). rewrite flatten_leaf. cbn [n_ch n_its].
      destruct (Z.leb_spec (Z.of_nat (length its)) k) as [GE|LT]; cbn [orb].
      + symmetry. apply nth_error_None. lia.
      + replace (k <? 0)%Z with false by (symmetry; apply Z.ltb_ge; lia). reflexivity.
    - destruct ch as [|c cs]; [discriminate|]. cbn [n_ch n_its n_idx].
      replace (fsize (Node its (c :: cs) (idx_of (map fsize (c :: cs))))) with (Z.of_nat (length (inter its (c :: cs)))) by reflexivity.
      rewrite flatten_node.
      destruct (Z.leb_spec (Z.of_nat (length (inter its (c :: cs)))) k) as [GE|LT]; cbn [orb].
      + symmetry. apply nth_error_None. lia.
      + replace (k <? 0)%Z with false by (symmetry; apply Z.ltb_ge; lia).
        pose proof (inter_nth its (c :: cs) 0%Z k L ltac:(lia)) as H. cbn zeta in H. rewrite Z.add_0_r in H.
        fold (idx_of (map fsize (c :: cs))) in H.
        set (idx := idx_of (map fsize (c :: cs))) in *. set (i := search_ints idx k) in *.
        destruct (nth i idx 0%Z =? k)%Z; [symmetry; exact H|].
        destruct H as (c' & Hc' & E). rewrite Hc', E.
        assert (OFF : (0 <= match i with O => k | S p => k - nth p idx 0%Z - 1 end)%Z).
        { destruct i as [|p] eqn:EI; [lia|]. pose proof (search_ints_before idx k p EI). lia. }
        replace (k - match i with O => 0 | S p => nth p idx 0%Z + 1 end)%Z with (match i with O => k | S p => k - nth p idx 0%Z - 1 end)%Z
          by (destruct i; lia).
        apply IH; [eapply Forall_nth_error; eauto|lia|exact OFF].
  Qed.

  Hypothesis lo_pos : (1 <= lo)%nat.

  Lemma flatten_nonempty h n : binv h n -> n_its n <> [] -> flatten n <> [].
  Proof.
    intros B NE. inversion B as [its|h' its ch L F1 F2]; subst; cbn [n_its] in NE; [exact NE|].
    destruct ch as [|c cs]; [discriminate|]. rewrite flatten_node. destruct its as [|i its']; [contradiction|].
    destruct cs as [|c2 cs2]; [discriminate|].
    rewrite inter_step. destruct (flatten c); discriminate.
  Qed.

  Lemma child_nonempty h c : binv h c -> (lo <= length (n_its c) <= hi)%nat -> flatten c <> [].
  Proof. intros B Hb. apply (flatten_nonempty h c B). destruct (n_its c); [cbn in Hb; lia|discriminate]. Qed.

  Theorem node_min_spec : forall h n fuel, binv h n -> (h < fuel)%nat -> node_min fuel n = hd_error (flatten n).
  Proof.
    induction h as [|h IH]; intros n fuel B Hf; (destruct fuel as [|f]; [lia|]);
      inversion B as [its|h' its ch L F1 F2]; subst; cbn [node_min n_ch n_its]; [reflexivity|].
    destruct ch as [|c cs]; [discriminate|]. inversion F1; subst. inversion F2; subst. rewrite (IH c f) by (auto; lia).
    rewrite flatten_node. destruct its as [|i its']; cbn [inter]; [reflexivity|].
    pose proof (child_nonempty h c ltac:(assumption) ltac:(assumption)) as NE.
    destruct cs as [|c2 cs2]; [discriminate|].
    change (inter (i :: its') (c :: c2 :: cs2)) with (flatten c ++ i :: inter its' (c2 :: cs2)).
    destruct (flatten c); [contradiction|reflexivity].
  Qed.

  Lemma inter_last its cs c : length cs = length its -> flatten c <> [] ->
    last_opt (inter its (cs ++ [c])) = last_opt (flatten c).
  Proof.
    revert cs. induction its as [|i its IH]; intros [|c0 cs] L NE; try discriminate; [reflexivity|].
    cbn in L. cbn [app]. destruct (cs ++ [c]) as [|c1 r] eqn:E; [destruct cs; discriminate|].
    rewrite inter_step. rewrite <- E.
    rewrite last_opt_app by discriminate. change (i :: inter its (cs ++ [c])) with ([i] ++ inter its (cs ++ [c])).
    assert (NI : inter its (cs ++ [c]) <> []).
    { intros Z. specialize (IH cs ltac:(lia) NE). rewrite Z in IH. cbn in IH. unfold last_opt in IH.
      destruct (rev (flatten c)) eqn:R; [|discriminate]. apply NE. rewrite <- (rev_involutive (flatten c)), R. reflexivity. }
    rewrite last_opt_app by exact NI. apply IH; [lia|exact NE].
  Qed.

  Theorem node_max_spec : forall h n fuel, binv h n -> (h < fuel)%nat -> node_max fuel n = last_opt (flatten n).
  Proof.
    induction h as [|h IH]; intros n fuel B Hf; (destruct fuel as [|f]; [lia|]);
      inversion B as [its|h' its ch L F1 F2]; subst; cbn [node_max n_ch n_its]; [reflexivity|].
    destruct (exists_last_or_nil ch) as [->|(cs & c & ->)]; [discriminate|].
    rewrite last_opt_snoc. apply Forall_app in F1 as [_ F1]. apply Forall_app in F2 as [_ F2]. inversion F1; subst. inversion F2; subst.
    rewrite (IH c f) by (auto; lia). rewrite app_length in L. cbn in L.
    destruct (cs ++ [c]) as [|c1 r] eqn:E; [destruct cs; discriminate|]. rewrite flatten_node, <- E.
    symmetry. apply inter_last; [lia|]. eapply child_nonempty; eauto.
  Qed.

  Lemma child_sorted its ch idx c : length ch = S (length its) -> In c ch ->
    sorted (flatten (Node its ch idx)) -> sorted (flatten c).
  Proof.
    intros L Hc Hs. apply in_split in Hc as (C1 & C2 & ->). rewrite app_length in L. cbn in L.
    destruct (split_at its (length C1)) as (I1 & I2 & -> & L1); [lia|].
    rewrite (flatten_at_child I1 I2 C1 c C2 idx) in Hs by (rewrite ?app_length in *; lia).
    apply sorted_app in Hs as (_ & Hs & _). apply sorted_app in Hs as (Hs & _ & _). exact Hs.
  Qed.

  (* inter with `rec` in place of `flatten`: what the ascending loop of `iterate` produces *)
  Fixpoint ainter (rec : node -> list A) (J : list A) (R : list node) {struct R} : list A :=
    match R with
    | [] => []
    | c :: R' => match J with [] => rec c | j :: J' => rec c ++ j :: ainter rec J' R' end
    end.

  Lemma asc_loop_node rec (J : list A) : forall (I1 : list A) (C1 R : list node), length C1 = length I1 -> length R = S (length J) ->
    asc_loop rec (I1 ++ J) (C1 ++ R) (length J) (length I1) = ainter rec J R.
  Proof.
    induction J as [|j J IH]; intros I1 C1 R L1 L2; cbn [length asc_loop].
    - destruct R as [|c [|c2 R2]]; try discriminate. rewrite last_opt_snoc. reflexivity.
    - destruct R as [|c R']; [discriminate|]. cbn in L2.
      rewrite <- L1 at 1. rewrite nth_error_mid, nth_error_mid.
      change (ainter rec (j :: J) (c :: R')) with (rec c ++ j :: ainter rec J R'). f_equal. f_equal.
      rewrite (app_cons_snoc I1), (app_cons_snoc C1), <- (length_snoc I1 j).
      apply IH; [rewrite !length_snoc; lia|lia].
  Qed.

  Lemma asc_loop_leaf rec (J : list A) : forall (I1 : list A), asc_loop rec (I1 ++ J) [] (length J) (length I1) = J.
  Proof.
    induction J as [|j J IH]; intros I1; cbn [length asc_loop]; [reflexivity|].
    rewrite nth_error_mid. destruct (nth_error [] (length I1)) eqn:N; [destruct (length I1); discriminate|]. cbn [app]. f_equal.
    rewrite (app_cons_snoc I1), <- (length_snoc I1 j). apply IH.
  Qed.

  Lemma ainter_rest rec J c C2 : length C2 = length J -> (forall c', In c' C2 -> rec c' = flatten c') ->
    ainter rec J (c :: C2) = rec c ++ zipr J C2.
  Proof.
    revert c C2. induction J as [|j J IH]; intros c [|c2 C2] L H; try discriminate; [cbn; symmetry; apply app_nil_r|].
    change (ainter rec (j :: J) (c :: c2 :: C2)) with (rec c ++ j :: ainter rec J (c2 :: C2)). cbn [zipr].
    f_equal. f_equal. cbn in L. rewrite IH; [|lia|intros c' Hc'; apply H; right; exact Hc'].
    rewrite (H c2 (or_introl eq_refl)). reflexivity.
  Qed.

  Lemma l0_ascend_above C Q x : none_lt ltb Q x -> l0_ascend_ge ltb x (C ++ Q) = l0_ascend_ge ltb x C ++ Q.
  Proof.
    intros H. induction C as [|c C IH]; cbn [app l0_ascend_ge]; [apply l0_ascend_ge_none, H|].
    destruct (ltb c x); [exact IH|reflexivity].
  Qed.

  Lemma zipr_in_child J C c z : In c C -> In z (flatten c) -> length C = length J -> In z (zipr J C).
  Proof.
    revert C. induction J as [|j J IH]; intros [|c0 C] Hc Hz L; try discriminate; [destruct Hc|].
    cbn [zipr]. cbn in L. right. apply in_or_app. destruct Hc as [<-|Hc]; [left; exact Hz|right; apply IH; auto].
  Qed.

  Theorem ascend_spec x : forall h n fuel, binv h n -> sorted (flatten n) -> (h < fuel)%nat ->
    ascend_from ltb fuel n (Some x) = l0_ascend_ge ltb x (flatten n).
  Proof.
    induction h as [|h IH]; intros n fuel B Hs Hf; (destruct fuel as [|f]; [lia|]);
      inversion B as [its|h' its ch L F1 F2]; subst; cbn [ascend_from n_its n_ch].
    - rewrite flatten_leaf in *.
      assert (G : exists I1 J, its = I1 ++ J /\ fst (items_find ltb its x) = length I1 /\ all_lt I1 x /\ none_lt ltb J x).
      { destruct (items_find_spec its x Hs) as [I1 I2 E H1 H2|I1 y I2 E H1 EQ H2].
        - exists I1, I2. repeat split; auto. apply none_lt_of_lt_all, H2.
        - exists I1, (y :: I2). repeat split; auto. intros z [<-|Hz]; [apply EQ|apply none_lt_of_lt_all in H2; apply H2, Hz]. }
      destruct G as (I1 & J & -> & -> & H1 & HJ).
      rewrite app_length. replace (length I1 + length J - length I1)%nat with (length J) by lia.
      rewrite asc_loop_leaf. rewrite (l0_ascend_below ltb _ _ _ H1). symmetry. apply l0_ascend_ge_none, HJ.
    - assert (G : exists I1 J C1 c C2, its = I1 ++ J /\ ch = C1 ++ c :: C2 /\ fst (items_find ltb its x) = length I1 /\
                  length C1 = length I1 /\ length C2 = length J /\ all_lt (zipl I1 C1) x /\ none_lt ltb (zipr J C2) x).
      { destruct (node_find x its ch _ L Hs) as [I1 I2 C1 c C2 E1 E2 L1 L2 HP HQ|I1 y I2 C1 c C2 E1 E2 L1 L2 EQ HP HQ].
        - exists I1, I2, C1, c, C2. repeat (split; [assumption || reflexivity|]). apply none_lt_of_lt_all, HQ.
        - destruct C2 as [|c2 C2']; [discriminate|]. cbn in L2. rewrite inter_cons in HQ by lia.
          exists I1, (y :: I2), C1, c, (c2 :: C2'). repeat (split; [assumption || reflexivity || (cbn; lia)|]). split.
          + intros z Hz. apply HP, in_or_app. left; exact Hz.
          + cbn [zipr]. intros z [<-|Hz]; [apply EQ|apply none_lt_of_lt_all in HQ; apply HQ, Hz]. }
      destruct G as (I1 & J & C1 & c & C2 & -> & -> & -> & L1 & L2 & HP & HQ).
      rewrite app_length. replace (length I1 + length J - length I1)%nat with (length J) by lia.
      rewrite asc_loop_node by (cbn; lia).
      pose proof (flatten_at_child I1 J C1 c C2 (idx_of (map fsize (C1 ++ c :: C2))) L1 L2) as FL.
      rewrite FL in *.
      rewrite (l0_ascend_below ltb _ _ _ HP), (l0_ascend_above _ _ _ HQ).
      assert (RC : forall c', In c' (c :: C2) -> ascend_from ltb f c' (Some x) = l0_ascend_ge ltb x (flatten c')).
      { intros c' Hc'. apply IH; [|eapply child_sorted; [exact L|apply in_or_app; right; exact Hc'|rewrite FL; exact Hs]|lia].
        rewrite Forall_forall in F1. apply F1, in_or_app. right; exact Hc'. }
      rewrite ainter_rest; [rewrite (RC c (or_introl eq_refl)); reflexivity|exact L2|].
      intros c' Hc'. rewrite (RC c' (or_intror Hc')). apply l0_ascend_ge_none.
      intros z Hz. apply HQ. eapply zipr_in_child; eauto.
  Qed.

  (* when something at or below x has already been visited (hit), nothing equivalent to x is left *)
  Definition hit_ok (x : A) (hit : bool) (L : list A) : Prop :=
    hit = true -> forall y, In y L -> ltb x y = false -> ltb y x = true.
  Definition nonempty {X} (l : list X) : bool := match l with [] => false | _ => true end.

  Lemma zipr_snoc I i C c : length C = length I -> zipr (I ++ [i]) (C ++ [c]) = zipr I C ++ i :: flatten c.
  Proof.
    revert C. induction I as [|j I IH]; intros [|c0 C] L; try discriminate; [cbn; rewrite app_nil_r; reflexivity|].
    cbn [app zipr]. cbn in L. rewrite IH by lia. rewrite <- app_assoc. reflexivity.
  Qed.
  Lemma zipr_app I J C R : length C = length I -> zipr (I ++ J) (C ++ R) = zipr I C ++ zipr J R.
  Proof.
    revert C. induction I as [|j I IH]; intros [|c0 C] L; try discriminate; [reflexivity|].
    cbn [app zipr]. cbn in L. rewrite IH by lia. rewrite <- app_assoc. reflexivity.
  Qed.

  Lemma strictly_below x a y : ltb x a = false -> lt y a -> ltb y x = true.
  Proof.
    intros H1 H2. destruct (ltb y x) eqn:E; [reflexivity|]. pose proof (lt_negtrans _ _ _ E H1) as C. unfold C07_BTreeOrder.lt in H2. congruence.
  Qed.

  Lemma filter_le_above x L : lt_all x L -> filter (le_x x) L = [].
  Proof. intros H. apply filter_false_nil. intros y Hy. unfold le_x. rewrite (H y Hy). reflexivity. Qed.

  (* the number of rounds of the descending loop: the items up to and including the one equivalent to x *)
  Lemma find_rounds its x : sorted its ->
    exists Ik J, its = Ik ++ J /\ (let '(fi, found) := items_find ltb its x in if found then S fi else fi) = length Ik /\ lt_all x J.
  Proof.
    intros Hs. destruct (items_find_spec its x Hs) as [I1 I2 E H1 H2|I1 y I2 E H1 EQ H2].
    - exists I1, I2. auto.
    - exists (I1 ++ [y]), I2. rewrite length_snoc, <- app_cons_snoc. auto.
  Qed.

  Lemma desc_loop_leaf rec x : forall Ik J hit, hit_ok x hit Ik -> sorted Ik ->
    desc_loop ltb rec x (Ik ++ J) [] (length Ik) hit =
      (rev (filter (le_x x) Ik), hit || nonempty (filter (le_x x) Ik)).
  Proof.
    induction Ik as [|a I' IH] using rev_ind; intros J hit HO Hs; [cbn; rewrite orb_false_r; reflexivity|].
    rewrite length_snoc. cbn [desc_loop].
    rewrite <- app_assoc. cbn [app]. rewrite nth_error_mid.
    destruct (sorted_mid ltb _ _ _ Hs) as (LA & _ & Hs' & _).
    rewrite filter_app. cbn [filter]. replace (le_x x a) with (negb (ltb x a)) by reflexivity.
    destruct (ltb x a) eqn:E; cbn [negb].
    - rewrite (lt_asym ltb lt_irrefl lt_trans _ _ E). cbn [negb andb]. rewrite orb_true_r. rewrite app_nil_r.
      apply IH; [|exact Hs']. intros Ht y Hy. apply HO; [exact Ht|apply in_or_app; left; exact Hy].
    - assert (NS : negb (ltb a x) && (hit || false) = false).
      { rewrite orb_false_r. destruct hit; [|apply andb_false_r].
        rewrite (HO eq_refl a ltac:(apply in_or_app; right; left; reflexivity) E). reflexivity. }
      rewrite NS. destruct (nth_error [] (S (length I'))) eqn:N; [discriminate|].
      rewrite (IH (a :: J) true); [|intros _ y Hy _; apply (strictly_below x a y E (LA y Hy))|exact Hs'].
      cbn [app orb]. rewrite rev_app_distr. cbn [rev app]. f_equal. symmetry.
      destruct (filter (le_x x) I' ++ [a]) eqn:Z; [destruct (filter (le_x x) I'); discriminate|apply orb_true_r].
  Qed.

  Lemma desc_loop_node rec x c0 : forall Ik Ck J R hit, length Ck = length Ik ->
    (forall c h', In c Ck -> hit_ok x h' (flatten c) -> fst (rec c h') = rev (filter (le_x x) (flatten c))) ->
    sorted (zipr Ik Ck) -> hit_ok x hit (zipr Ik Ck) ->
    desc_loop ltb rec x (Ik ++ J) (c0 :: Ck ++ R) (length Ik) hit =
      (rev (filter (le_x x) (zipr Ik Ck)), hit || nonempty (filter (le_x x) (zipr Ik Ck))).
  Proof.
    induction Ik as [|a I' IH] using rev_ind; intros Ck J R hit L HR Hs HO.
    { destruct Ck; [|discriminate]. cbn. rewrite orb_false_r. reflexivity. }
    destruct (exists_last_or_nil Ck) as [->|(C' & c & ->)]; [rewrite app_length in L; cbn in L; lia|].
    rewrite !app_length in L. cbn [length] in L.
    rewrite length_snoc. cbn [desc_loop].
    rewrite <- !app_assoc. cbn [app]. rewrite nth_error_mid.
    replace (nth_error (c0 :: C' ++ c :: R) (S (length I'))) with (Some c)
      by (cbn [nth_error]; replace (length I') with (length C') by lia; symmetry; apply nth_error_mid).
    rewrite zipr_snoc in * by lia.
    destruct (sorted_mid ltb _ _ _ Hs) as (LA & AQ & Hs' & Hsc).
    rewrite filter_app. cbn [filter]. replace (le_x x a) with (negb (ltb x a)) by reflexivity.
    destruct (ltb x a) eqn:E; cbn [negb].
    - rewrite (lt_asym ltb lt_irrefl lt_trans _ _ E). cbn [negb andb]. rewrite orb_true_r.
      rewrite (filter_le_above x (flatten c)) by (eapply lt_all_trans; eauto). rewrite app_nil_r.
      apply IH; [lia| |exact Hs'|].
      + intros c' h' Hc'. apply HR. apply in_or_app. left; exact Hc'.
      + intros Ht y Hy. apply HO; [exact Ht|apply in_or_app; left; exact Hy].
    - assert (NS : negb (ltb a x) && (hit || false) = false).
      { rewrite orb_false_r. destruct hit; [|apply andb_false_r].
        rewrite (HO eq_refl a ltac:(apply in_or_app; right; left; reflexivity) E). reflexivity. }
      rewrite NS.
      assert (HC : fst (rec c hit) = rev (filter (le_x x) (flatten c))).
      { apply HR; [apply in_or_app; right; left; reflexivity|]. intros Ht y Hy. apply HO; [exact Ht|].
        apply in_or_app. right. right. exact Hy. }
      destruct (rec c hit) as [sub hh]. cbn [fst] in HC. subst sub.
      rewrite (IH C' (a :: J) (c :: R) true); [|lia| |exact Hs'|].
      + cbn [orb]. rewrite rev_app_distr. cbn [rev]. rewrite <- app_assoc. cbn [app]. f_equal. symmetry.
        destruct (filter (le_x x) (zipr I' C') ++ a :: filter (le_x x) (flatten c)) eqn:Z;
          [destruct (filter (le_x x) (zipr I' C')); discriminate|apply orb_true_r].
      + intros c' h' Hc'. apply HR. apply in_or_app. left; exact Hc'.
      + intros _ y Hy _. apply (strictly_below x a y E (LA y Hy)).
  Qed.

  Theorem descend_spec x : forall h n fuel hit, binv h n -> sorted (flatten n) -> (h < fuel)%nat ->
    hit_ok x hit (flatten n) ->
    descend_from ltb fuel n x hit =
      (rev (filter (le_x x) (flatten n)), hit || nonempty (filter (le_x x) (flatten n))).
  Proof.
    induction h as [|h IH]; intros n fuel hit B Hs Hf HO; (destruct fuel as [|f]; [lia|]);
      inversion B as [its|h' its ch L F1 F2]; subst; cbn [descend_from n_its n_ch].
    - rewrite flatten_leaf in *.
      destruct (find_rounds its x Hs) as (Ik & J & -> & EK & HJ). destruct (items_find ltb (Ik ++ J) x) as [fi found]. rewrite EK.
      apply sorted_app in Hs as (Hs1 & _ & _).
      rewrite desc_loop_leaf; [|intros Ht y Hy; apply HO; [exact Ht|apply in_or_app; left; exact Hy]|exact Hs1].
      rewrite filter_app, (filter_le_above x J HJ), app_nil_r. reflexivity.
    - pose proof (node_items_sorted _ _ _ L Hs) as Hi.
      destruct (find_rounds its x Hi) as (Ik & J & -> & EK & HJ). destruct (items_find ltb (Ik ++ J) x) as [fi found]. rewrite EK.
      destruct ch as [|c0 Cs]; [discriminate|]. cbn in L. rewrite app_length in L.
      destruct (split_at Cs (length Ik)) as (Ck & R & -> & L1); [lia|].
      assert (L2 : length R = length J) by (rewrite app_length in L; lia).
      assert (LL : length (c0 :: Ck ++ R) = S (length (Ik ++ J))) by (cbn; rewrite !app_length; lia).
      assert (RC : forall c h', In c (c0 :: Ck) -> hit_ok x h' (flatten c) ->
                   descend_from ltb f c x h' = (rev (filter (le_x x) (flatten c)), h' || nonempty (filter (le_x x) (flatten c)))).
      { intros c h' Hc Hk.
        assert (Hc' : In c (c0 :: Ck ++ R)) by (destruct Hc as [<-|Hc]; [left; reflexivity|right; apply in_or_app; left; exact Hc]).
        apply IH; [|eapply child_sorted; eauto|lia|exact Hk]. rewrite Forall_forall in F1. apply F1, Hc'. }
      assert (FL : flatten (Node (Ik ++ J) (c0 :: Ck ++ R) (idx_of (map fsize (c0 :: Ck ++ R))))
                   = flatten c0 ++ zipr Ik Ck ++ zipr J R).
      { rewrite flatten_node, inter_cons by (rewrite !app_length; lia). rewrite zipr_app by exact L1. reflexivity. }
      rewrite FL in *.
      assert (HG : lt_all x (zipr J R)).
      { rewrite app_assoc in Hs. eapply zipr_lt_all; eauto. }
      apply sorted_app in Hs as (Hs0 & HsW & C0W). apply sorted_app in HsW as (HsW & _ & _).
      rewrite (desc_loop_node _ x c0 Ik Ck J R hit L1); [| |exact HsW|].
      + assert (HO1 : hit_ok x (hit || nonempty (filter (le_x x) (zipr Ik Ck))) (flatten c0)).
        { intros Ht y Hy E. apply orb_true_iff in Ht as [Ht|Ht].
          - apply HO; [exact Ht|apply in_or_app; left; exact Hy|exact E].
          - destruct (filter (le_x x) (zipr Ik Ck)) as [|e r] eqn:Z; [discriminate|].
            assert (He : In e (filter (le_x x) (zipr Ik Ck))) by (rewrite Z; left; reflexivity).
            apply filter_In in He as [He LE]. unfold le_x in LE. apply negb_true_iff in LE.
            apply (strictly_below x e y LE). apply C0W; [exact Hy|apply in_or_app; left; exact He]. }
        rewrite (RC c0 _ (or_introl eq_refl) HO1).
        rewrite !filter_app, (filter_le_above x _ HG), app_nil_r, rev_app_distr. f_equal.
        rewrite <- orb_assoc. f_equal.
        destruct (filter (le_x x) (flatten c0)), (filter (le_x x) (zipr Ik Ck)); reflexivity.
      + intros c h' Hc Hk. rewrite (RC c h' (or_intror Hc) Hk). reflexivity.
      + intros Ht y Hy. apply HO; [exact Ht|]. apply in_or_app. right. apply in_or_app. left; exact Hy.
  Qed.

  Corollary descend_le_spec x h n fuel : binv h n -> sorted (flatten n) -> (h < fuel)%nat ->
    fst (descend_from ltb fuel n x false) = l0_descend_le ltb x (flatten n).
  Proof.
    intros B Hs Hf. rewrite (descend_spec x h n fuel false B Hs Hf) by (intros Ht; discriminate).
    cbn [fst]. symmetry. apply (l0_descend_filter ltb lt_trans), Hs.
  Qed.

  Hypothesis hi_def : hi = (2 * lo + 1)%nat.      (* maxItems = 2*degree-1, minItems = degree-1 *)

  Lemma half_hi : Nat.div hi 2 = lo.
  Proof. rewrite hi_def. replace (2 * lo + 1)%nat with (1 + lo * 2)%nat by lia. rewrite Nat.div_add by lia. reflexivity. Qed.

  Lemma l0_insert_length x L : length (fst (l0_insert ltb x L)) =
    (length L + match snd (l0_insert ltb x L) with None => 1 | Some _ => 0 end)%nat.
  Proof.
    induction L as [|a L IH]; cbn [l0_insert]; [reflexivity|].
    destruct (ltb x a); [cbn; lia|]. destruct (ltb a x); [|cbn; lia].
    destruct (l0_insert ltb x L) as [L' o]. cbn [fst snd length] in *. lia.
  Qed.

  Lemma l0_insert_sorted x L : sorted L -> sorted (fst (l0_insert ltb x L)).
  Proof.
    induction L as [|a L IH]; intros Hs; cbn [l0_insert]; [apply sorted_one|].
    apply sorted_cons_inv in Hs as [Hs' F].
    destruct (ltb x a) eqn:E1; cbn [fst].
    - apply sorted_cons; [apply sorted_cons; assumption|]. apply lt_all_cons. split; [exact E1|]. eapply lt_all_trans; eauto.
    - destruct (ltb a x) eqn:E2.
      + specialize (IH Hs'). destruct (l0_insert ltb x L) as [L' o] eqn:EL. cbn [fst] in *.
        apply sorted_cons; [exact IH|].
        (* everything in L' is x or an element of L *)
        assert (G : forall y, In y L' -> y = x \/ In y L).
        { clear -EL. revert L' o EL. induction L as [|b L IHL]; intros L' o EL y Hy; cbn [l0_insert] in EL.
          - inversion EL; subst. destruct Hy as [<-|[]]. left; reflexivity.
          - destruct (ltb x b).
            + inversion EL; subst. destruct Hy as [<-|Hy]; [left; reflexivity|right; exact Hy].
            + destruct (ltb b x).
              * destruct (l0_insert ltb x L) as [L2 o2] eqn:E2. inversion EL; subst.
                destruct Hy as [<-|Hy]; [right; left; reflexivity|]. destruct (IHL _ _ eq_refl y Hy) as [->|H]; [left; reflexivity|right; right; exact H].
              * inversion EL; subst. destruct Hy as [<-|Hy]; [left; reflexivity|right; right; exact Hy]. }
        intros y Hy. destruct (G y Hy) as [->|H]; [exact E2|apply F, H].
      + apply sorted_cons; [exact Hs'|]. intros y Hy. apply (lt_eqv_l ltb lt_negtrans x a y); [split; assumption|apply F, Hy].
  Qed.

  Lemma map_nlen_fsize h (cs : list node) : Forall (binv h) cs -> map nlen cs = map fsize cs.
  Proof.
    intros F. apply map_ext_in. intros c Hc. rewrite Forall_forall in F. eapply nlen_binv; eauto.
  Qed.

  Lemma node_split_spec h c : binv h c -> length (n_its c) = hi ->
    exists m l r, node_split c lo = Some (m, l, r) /\ flatten c = flatten l ++ m :: flatten r /\
                  binv h l /\ binv h r /\ length (n_its l) = lo /\ length (n_its r) = lo.
  Proof.
    intros B LH. unfold node_split.
    destruct (split_at (n_its c) lo) as (I1 & R & EI & LI); [lia|].
    destruct R as [|m I2]; [rewrite EI, app_length in LH; cbn in LH; lia|].
    assert (LI2 : length I2 = lo) by (rewrite EI, app_length in LH; cbn in LH; lia).
    rewrite EI. rewrite <- LI in *. rewrite nth_error_mid, firstn_app_l, skipn_app_S. exists m. eexists. eexists. split; [reflexivity|].
    inversion B as [its|h' its ch L F1 F2]; subst; cbn [n_its n_ch n_idx] in *.
    - subst its. cbn. repeat split; auto using binv_leaf.
    - subst its. rewrite app_length in L. cbn [length] in L.
      destruct (split_at ch (S (length I1))) as (C1 & C2 & -> & LC); [lia|].
      assert (LC2 : length C2 = S (length I2)) by (rewrite app_length in L; lia).
      rewrite <- LC, firstn_app_l, skipn_app_l.
      apply Forall_app in F1 as [F1a F1b]. apply Forall_app in F2 as [F2a F2b].
      unfold idx_of. rewrite map_app, idx_from_app, <- (map_length fsize C1), idx_firstn. fold (idx_of (map fsize C1)).
      unfold init_size. rewrite (map_nlen_fsize _ _ F1b).
      destruct (exists_last_or_nil C1) as [->|(C1' & cl & ->)]; [discriminate|].
      rewrite length_snoc in LC.
      split; [|split; [|split; [|split; reflexivity || exact LI2]]].
      + rewrite <- app_assoc. cbn [app].
        rewrite (flatten_at_item I1 m I2 C1' cl C2 _ ltac:(lia) LC2).
        destruct C2 as [|cr C2']; [discriminate|]. cbn in LC2.
        destruct (C1' ++ [cl]) as [|c0 cs] eqn:EC; [destruct C1'; discriminate|].
        rewrite flatten_node, <- EC. replace I1 with (I1 ++ []) at 2 by apply app_nil_r.
        rewrite inter_app by (auto; try lia; discriminate). cbn [inter]. rewrite flatten_node.
        rewrite <- app_assoc. reflexivity.
      + apply binv_node; [rewrite length_snoc; lia|exact F1a|exact F2a].
      + apply binv_node; [lia|exact F1b|exact F2b].
  Qed.

  Lemma l0_insert_one_new x : l0_insert ltb x [] = ([x], None).
  Proof. reflexivity. Qed.
  Lemma l0_insert_one_eqv x y : eqv x y -> l0_insert ltb x [y] = ([x], Some y).
  Proof. intros [E1 E2]. cbn. rewrite E1, E2. reflexivity. Qed.

  Lemma l0_insert_replace P y Q x : all_lt P x -> eqv x y -> lt_all x Q ->
    l0_insert ltb x (P ++ y :: Q) = (P ++ x :: Q, Some y).
  Proof.
    intros HP EQ HQ. change (P ++ y :: Q) with (P ++ [y] ++ Q). change (P ++ x :: Q) with (P ++ [x] ++ Q).
    apply (l0_insert_comp ltb lt_irrefl lt_trans); [exact HP|exact HQ|apply l0_insert_one_eqv, EQ].
  Qed.

  Lemma binv_replace_child h I1 I2 C1 c C2 c' : length C1 = length I1 -> length C2 = length I2 ->
    Forall (binv h) (C1 ++ c :: C2) -> Forall (fun c0 => lo <= length (n_its c0) <= hi)%nat (C1 ++ c :: C2) ->
    binv h c' -> (lo <= length (n_its c') <= hi)%nat ->
    binv (S h) (Node (I1 ++ I2) (C1 ++ c' :: C2) (idx_of (map fsize (C1 ++ c' :: C2)))).
  Proof.
    intros L1 L2 F1 F2 B' Hb. apply Forall_mid in F1 as (Fa & _ & Fb). apply Forall_mid in F2 as (Ga & _ & Gb).
    apply binv_node; [rewrite !app_length; cbn; lia|apply Forall_mid; auto|apply Forall_mid; auto].
  Qed.

  (* the walk of child number |C1| grows or shrinks by d: addAt(|C1|, d) *)
  Lemma idx_after C1 c C2 c' d : Z.of_nat (length (flatten c')) = (Z.of_nat (length (flatten c)) + d)%Z ->
    ix_add_at (length C1) d (idx_of (map fsize (C1 ++ c :: C2))) = idx_of (map fsize (C1 ++ c' :: C2)).
  Proof.
    intros HL. rewrite !map_app. cbn [map]. unfold idx_of. rewrite <- (map_length fsize C1), ix_add_at_spec.
    unfold fsize. rewrite HL. reflexivity.
  Qed.
  Lemma idx_same C1 c C2 c' : length (flatten c') = length (flatten c) ->
    idx_of (map fsize (C1 ++ c :: C2)) = idx_of (map fsize (C1 ++ c' :: C2)).
  Proof. intros HL. rewrite !map_app. cbn [map]. unfold fsize. rewrite HL. reflexivity. Qed.

  Lemma insert_down x h f I1 I2 C1 c C2 :
    (forall n fuel, binv h n -> sorted (flatten n) -> (h < fuel)%nat -> (length (n_its n) < hi)%nat ->
       exists n' out, insert ltb fuel n x hi = Some (n', out) /\ binv h n' /\
                      l0_insert ltb x (flatten n) = (flatten n', out) /\
                      (length (n_its n) <= length (n_its n') <= hi)%nat) ->
    length C1 = length I1 -> length C2 = length I2 ->
    Forall (binv h) (C1 ++ c :: C2) -> Forall (fun c0 => lo <= length (n_its c0) <= hi)%nat (C1 ++ c :: C2) ->
    sorted (zipl I1 C1 ++ flatten c ++ zipr I2 C2) -> all_lt (zipl I1 C1) x -> lt_all x (zipr I2 C2) ->
    (h < f)%nat -> (length (n_its c) < hi)%nat ->
    exists c' out, insert ltb f c x hi = Some (c', out) /\
      binv (S h) (Node (I1 ++ I2) (C1 ++ c' :: C2)
                       (match out with None => ix_add_at (length C1) 1 (idx_of (map fsize (C1 ++ c :: C2)))
                                     | Some _ => idx_of (map fsize (C1 ++ c :: C2)) end)) /\
      l0_insert ltb x (zipl I1 C1 ++ flatten c ++ zipr I2 C2) = (flatten (Node (I1 ++ I2) (C1 ++ c' :: C2) []), out).
  Proof.
    intros IH L1 L2 F1 F2 Hs HP HQ Hf Hc.
    pose proof F1 as (_ & Bc & _)%Forall_mid. pose proof F2 as (_ & Hb & _)%Forall_mid.
    destruct (IH c f Bc (cut_child_sorted _ _ _ _ _ Hs) Hf Hc) as (c' & out & E & B' & EL & Hb').
    exists c', out. split; [exact E|]. split.
    - pose proof (l0_insert_length x (flatten c)) as LEN. rewrite EL in LEN. cbn [fst snd] in LEN.
      replace (match out with None => _ | Some _ => _ end) with (idx_of (map fsize (C1 ++ c' :: C2)));
        [apply (binv_replace_child h I1 I2 C1 c C2 c'); auto; lia|].
      destruct out; [apply idx_same; lia|symmetry; apply idx_after; lia].
    - rewrite (flatten_at_child I1 I2 C1 c' C2 [] L1 L2). apply (l0_insert_comp ltb lt_irrefl lt_trans); assumption.
  Qed.

  Lemma maybe_split_notfull (I1 I2 : list A) C1 c C2 idx : length C1 = length I1 -> (length (n_its c) < hi)%nat ->
    maybe_split_child (Node (I1 ++ I2) (C1 ++ c :: C2) idx) (length I1) hi = Some (Node (I1 ++ I2) (C1 ++ c :: C2) idx, false).
  Proof.
    intros L1 Hc. unfold maybe_split_child. cbn [n_ch]. rewrite <- L1, nth_error_mid.
    replace (Nat.ltb (length (n_its c)) hi) with true by (symmetry; apply Nat.ltb_lt; exact Hc). reflexivity.
  Qed.

  Lemma maybe_split_full h (I1 I2 : list A) C1 c C2 : length C1 = length I1 -> length C2 = length I2 ->
    binv h c -> length (n_its c) = hi ->
    exists m l r,
      maybe_split_child (Node (I1 ++ I2) (C1 ++ c :: C2) (idx_of (map fsize (C1 ++ c :: C2)))) (length I1) hi
        = Some (Node (I1 ++ m :: I2) (C1 ++ l :: r :: C2) (idx_of (map fsize (C1 ++ l :: r :: C2))), true) /\
      flatten c = flatten l ++ m :: flatten r /\ binv h l /\ binv h r /\
      length (n_its l) = lo /\ length (n_its r) = lo.
  Proof.
    intros L1 L2 Bc Hc. destruct (node_split_spec h c Bc Hc) as (m & l & r & ES & FL & Bl & Br & Ll & Lr).
    exists m, l, r. split; [|auto]. unfold maybe_split_child. cbn [n_ch n_its n_idx].
    replace (nth_error (C1 ++ c :: C2) (length I1)) with (Some c) by (rewrite <- L1; symmetry; apply nth_error_mid).
    replace (Nat.ltb (length (n_its c)) hi) with false by (symmetry; apply Nat.ltb_ge; lia).
    rewrite half_hi, ES, insert_nth_mid, <- L1, replace_nth_mid, insert_nth_mid_S. f_equal. f_equal. f_equal.
    rewrite (nlen_binv _ _ Br). rewrite !map_app. cbn [map]. rewrite <- (map_length fsize C1).
    rewrite ix_split_spec. f_equal. f_equal. f_equal.
    unfold fsize. rewrite FL, app_length. cbn [length]. lia.
  Qed.

  Theorem insert_spec x : forall h n fuel, binv h n -> sorted (flatten n) -> (h < fuel)%nat -> (length (n_its n) < hi)%nat ->
    exists n' out, insert ltb fuel n x hi = Some (n', out) /\ binv h n' /\
                   l0_insert ltb x (flatten n) = (flatten n', out) /\
                   (length (n_its n) <= length (n_its n') <= hi)%nat.
  Proof.
    induction h as [|h IH]; intros n fuel B Hs Hf Hlen; (destruct fuel as [|f]; [lia|]);
      inversion B as [its|h' its ch L F1 F2]; subst; cbn [insert n_its n_ch n_idx] in *.
    - rewrite flatten_leaf in *. destruct (items_find_spec its x Hs) as [I1 I2 E H1 H2|I1 y I2 E H1 EQ H2]; subst its; cbn [negb].
      + exists (Node (I1 ++ x :: I2) [] []), None. rewrite insert_nth_mid. split; [reflexivity|]. split; [apply binv_leaf|].
        rewrite flatten_leaf. split.
        * apply (l0_insert_comp ltb lt_irrefl lt_trans I1 [] I2 x [x] None H1 H2 (l0_insert_one_new x)).
        * cbn [n_its]. rewrite !app_length in *. cbn [length]. lia.
      + exists (Node (I1 ++ x :: I2) [] []), (Some y). rewrite replace_nth_mid, nth_error_mid. split; [reflexivity|]. split; [apply binv_leaf|].
        rewrite flatten_leaf. split; [apply l0_insert_replace; assumption|].
        cbn [n_its]. rewrite !app_length in *. cbn [length] in *. lia.
    - destruct (node_find x its ch _ L Hs) as [I1 I2 C1 c C2 -> -> L1 L2 HP HQ|I1 y I2 C1 cl C2 -> -> L1 L2 EQ HP HQ];
        (destruct (C1 ++ _ :: C2) as [|c00 cs00] eqn:ECH; [destruct C1; discriminate|]); rewrite <- ECH in *; clear ECH c00 cs00.
      + (* not in this node: descend *)
        rewrite (flatten_at_child I1 I2 C1 c C2 _ L1 L2) in *.
        pose proof F1 as (_ & Bc & _)%Forall_mid. pose proof F2 as (_ & Hb & _)%Forall_mid.
        destruct (Nat.lt_ge_cases (length (n_its c)) hi) as [NF|FULL].
        * rewrite maybe_split_notfull by assumption. cbn [n_ch n_its n_idx].
          destruct (insert_down x h f I1 I2 C1 c C2 IH L1 L2 F1 F2 Hs HP HQ ltac:(lia) NF) as (c' & out & E & B' & EL).
          rewrite <- L1, nth_error_mid, E, replace_nth_mid.
          eexists. exists out. split; [reflexivity|]. split; [exact B'|]. split; [exact EL|cbn [n_its]; lia].
        * destruct (maybe_split_full h I1 I2 C1 c C2 L1 L2 Bc ltac:(lia)) as (m & l & r & EM & FC & Bl & Br & Ll & Lr).
          rewrite EM. cbn [n_its n_ch n_idx]. rewrite nth_error_mid.
          rewrite FC, <- !app_assoc in Hs |- *. cbn [app] in Hs |- *.
          apply Forall_mid in F1 as (F1a & _ & F1b). apply Forall_mid in F2 as (F2a & _ & F2b).
          assert (F1' : Forall (binv h) (C1 ++ l :: r :: C2)) by (apply Forall_mid2; auto).
          assert (F2' : Forall (fun c0 => lo <= length (n_its c0) <= hi)%nat (C1 ++ l :: r :: C2))
            by (apply Forall_mid2; repeat split; auto; lia).
          (* m sits between l and r *)
          pose proof Hs as Hm. rewrite app_assoc in Hm. destruct (sorted_mid ltb _ _ _ Hm) as (HM1 & HM2 & _ & _).
          destruct (ltb x m) eqn:XM; [|destruct (ltb m x) eqn:MX].
          -- (* first half *)
             destruct (insert_down x h f I1 (m :: I2) C1 l (r :: C2) IH L1 ltac:(cbn; lia) F1' F2' Hs HP) as (c' & out & E & B' & EL);
               [cbn [zipr]; apply lt_all_cons; split; [exact XM|eapply lt_all_trans; eauto]|lia|lia|].
             rewrite <- L1, nth_error_mid, E, replace_nth_mid.
             eexists. exists out. split; [reflexivity|]. split; [exact B'|]. split; [exact EL|].
             cbn [n_its]. rewrite !app_length in *. cbn [length]. lia.
          -- (* second half *)
             rewrite <- L1, nth_error_mid_S.
             destruct (insert_down x h f (I1 ++ [m]) I2 (C1 ++ [l]) r C2 IH ltac:(rewrite !length_snoc; lia) L2) as (c' & out & E & B' & EL);
               try assumption; try lia; try (rewrite <- app_cons_snoc; assumption).
             ++ rewrite zipl_snoc, <- !app_assoc by exact L1. exact Hs.
             ++ rewrite zipl_snoc, app_assoc by exact L1. apply all_lt_app. split; [eapply all_lt_trans; eauto|].
                apply all_lt_cons. split; [exact MX|apply all_lt_nil].
             ++ rewrite E, replace_nth_mid_S. rewrite length_snoc, <- !app_cons_snoc in B'.
                eexists. exists out. split; [reflexivity|]. split; [exact B'|]. split.
                ** rewrite zipl_snoc, <- !app_assoc in EL by exact L1. exact EL.
                ** cbn [n_its]. rewrite !app_length in *. cbn [length]. lia.
          -- (* the median is equivalent to x: replaced in place *)
             assert (EQ : eqv x m) by (split; assumption). rewrite replace_nth_mid.
             eexists. exists (Some m). split; [reflexivity|]. split; [|split].
             ++ apply binv_node; [rewrite !app_length in *; cbn [length] in *; lia|exact F1'|exact F2'].
             ++ rewrite (flatten_at_item I1 x I2 C1 l (r :: C2) _ L1 ltac:(cbn; lia)), inter_cons by exact L2.
                rewrite !(app_assoc (zipl I1 C1)).
                apply l0_insert_replace; [eapply all_lt_eqv; eauto|exact EQ|eapply lt_all_eqv; eauto].
             ++ cbn [n_its]. rewrite !app_length in *. cbn [length]. lia.
      + (* found in this node: replaced in place *)
        rewrite replace_nth_mid, nth_error_mid.
        rewrite (flatten_at_item I1 y I2 C1 cl C2 _ L1 L2), app_assoc in *.
        eexists. exists (Some y). split; [reflexivity|]. split; [|split].
        * apply binv_node; [rewrite !app_length in *; cbn [length] in *; lia|exact F1|exact F2].
        * rewrite (flatten_at_item I1 x I2 C1 cl C2 _ L1 L2), app_assoc. apply l0_insert_replace; assumption.
        * cbn [n_its]. rewrite !app_length in *. cbn [length] in *. lia.
  Qed.

  Lemma idx_shift (a : list Z) s1 s2 b d :
    upd_nth (length a) (fun v => v - d)%Z (idx_of (a ++ s1 :: s2 :: b)) = idx_of (a ++ (s1 - d)%Z :: (s2 + d)%Z :: b).
  Proof.
    unfold idx_of. rewrite !idx_from_app. cbn [idx_from]. rewrite <- (idx_from_length 0 a) at 1. rewrite upd_nth_mid.
    f_equal. f_equal; [lia|]. f_equal; [lia|]. f_equal. lia.
  Qed.

  (* d elements of the walk of child number |C1| move to its right neighbour (to the left one for d < 0) *)
  Lemma idx_move C1 a b C2 a' b' f d : (forall v, f v = (v - d)%Z) -> fsize a' = (fsize a - d)%Z -> fsize b' = (fsize b + d)%Z ->
    upd_nth (length C1) f (idx_of (map fsize (C1 ++ a :: b :: C2))) = idx_of (map fsize (C1 ++ a' :: b' :: C2)).
  Proof.
    intros Hf Ha Hb. rewrite (upd_nth_ext _ _ _ _ Hf), !map_app. cbn [map].
    rewrite <- (map_length fsize C1), idx_shift, Ha, Hb. reflexivity.
  Qed.

  Lemma inter_snoc I i C c : length C = S (length I) ->
    inter (I ++ [i]) (C ++ [c]) = inter I C ++ i :: flatten c.
  Proof.
    revert C. induction I as [|j I IH]; intros C L.
    - destruct C as [|c0 [|c1 C']]; try discriminate. cbn. reflexivity.
    - destruct C as [|c0 C']; [discriminate|]. cbn in L. destruct C' as [|c1 C'']; [discriminate|].
      change (inter ((j :: I) ++ [i]) ((c0 :: c1 :: C'') ++ [c])) with (flatten c0 ++ j :: inter (I ++ [i]) ((c1 :: C'') ++ [c])).
      rewrite IH by (cbn in L |- *; lia). rewrite inter_step.
      rewrite <- app_assoc. reflexivity.
  Qed.

  Lemma flatten_at_sep (I1 : list A) sep I2 C1 cl cr C2 idx : length C1 = length I1 -> length C2 = length I2 ->
    flatten (Node (I1 ++ sep :: I2) (C1 ++ cl :: cr :: C2) idx) = zipl I1 C1 ++ flatten cl ++ sep :: flatten cr ++ zipr I2 C2.
  Proof.
    intros L1 L2. rewrite (flatten_at_item I1 sep I2 C1 cl (cr :: C2) idx L1 ltac:(cbn; lia)).
    rewrite inter_cons by exact L2. reflexivity.
  Qed.

  Lemma binv_two h (I1 I2 : list A) C1 cl cr C2 cl' cr' (sep' : A) :
    length C1 = length I1 -> length C2 = length I2 ->
    Forall (binv h) (C1 ++ cl :: cr :: C2) -> Forall (fun c0 => lo <= length (n_its c0) <= hi)%nat (C1 ++ cl :: cr :: C2) ->
    binv h cl' -> binv h cr' -> (lo <= length (n_its cl') <= hi)%nat -> (lo <= length (n_its cr') <= hi)%nat ->
    binv (S h) (Node (I1 ++ sep' :: I2) (C1 ++ cl' :: cr' :: C2) (idx_of (map fsize (C1 ++ cl' :: cr' :: C2)))).
  Proof.
    intros L1 L2 F1 F2 Bl Br Hl Hr. apply Forall_mid2 in F1 as (Fa & _ & _ & Fb). apply Forall_mid2 in F2 as (Ga & _ & _ & Gb).
    apply binv_node; [rewrite !app_length; cbn; lia|apply Forall_mid2; auto|apply Forall_mid2; auto].
  Qed.

  Lemma fsize_of_flatten (n1 : node) (L1 : list A) : flatten n1 = L1 -> fsize n1 = Z.of_nat (length L1).
  Proof. intros E. unfold fsize. rewrite E. reflexivity. Qed.

  Lemma steal_left_spec h (I1 : list A) sep I2 C1 lft c C2 :
    length C1 = length I1 -> length C2 = length I2 ->
    Forall (binv h) (C1 ++ lft :: c :: C2) -> Forall (fun c0 => lo <= length (n_its c0) <= hi)%nat (C1 ++ lft :: c :: C2) ->
    (lo < length (n_its lft))%nat -> length (n_its c) = lo ->
    exists stolen lft' c',
      grow_child (Node (I1 ++ sep :: I2) (C1 ++ lft :: c :: C2) (idx_of (map fsize (C1 ++ lft :: c :: C2)))) (S (length I1)) lo
        = Some (Node (I1 ++ stolen :: I2) (C1 ++ lft' :: c' :: C2) (idx_of (map fsize (C1 ++ lft' :: c' :: C2)))) /\
      (exists M, flatten lft = flatten lft' ++ stolen :: M /\ flatten c' = M ++ sep :: flatten c) /\
      binv h lft' /\ binv h c' /\ (lo <= length (n_its lft') <= hi)%nat /\ length (n_its c') = S lo.
  Proof.
    intros L1 L2 F1 F2 Big Small.
    pose proof F1 as (_ & Bl & Bc & _)%Forall_mid2. pose proof F2 as (_ & Hl & _ & _)%Forall_mid2.
    unfold grow_child. cbn [n_its n_ch n_idx].
    rewrite (nth_error_at C1 lft _ _ L1), (nth_error_at_S C1 lft c C2 _ L1), nth_error_mid.
    replace (Nat.ltb lo (length (n_its lft))) with true by (symmetry; apply Nat.ltb_lt; exact Big).
    destruct (exists_last_or_nil (n_its lft)) as [E|(LI & stolen & ELI)]; [rewrite E in Big; cbn in Big; lia|].
    unfold last_opt at 1. rewrite ELI, rev_app_distr. cbn [rev app]. rewrite removelast_last.
    rewrite replace_nth_mid.
    rewrite ELI in Big, Hl. rewrite app_length in Big, Hl. cbn [length] in Big, Hl.
    inversion Bl as [lits|h' lits lch LL LF1 LF2]; subst; cbn [n_its n_ch n_idx] in *.
    - (* leaves *)
      inversion Bc as [cits|]; subst. cbn [n_its n_ch n_idx] in *. try subst lits.
      rewrite (replace_nth_two C1 _ _ C2 _ _ _ L1). exists stolen, (Node LI [] []), (Node (sep :: cits) [] []). split; [|split; [|split; [|split; [|split]]]].
      + f_equal. f_equal. rewrite <- L1. apply (idx_move _ _ _ _ _ _ _ 1%Z); [reflexivity|..]; unfold fsize; cbn; rewrite ?app_length; cbn; lia.
      + exists []. cbn. split; reflexivity.
      + apply binv_leaf.
      + apply binv_leaf.
      + cbn. lia.
      + cbn. lia.
    - (* internal nodes: the last child of the left sibling moves over as well *)
      inversion Bc as [|h'' cits cch CL CF1 CF2]; subst. cbn [n_its n_ch n_idx] in *. try subst lits.
      destruct (exists_last_or_nil lch) as [->|(LC & moved & ->)]; [discriminate|].
      rewrite !app_length in LL. cbn [length] in LL.
      assert (LCne : LC <> []) by (destruct LC; [cbn in LL; lia|discriminate]).
      assert (CCne : cch <> []) by (destruct cch; [discriminate|discriminate]).
      apply Forall_app in LF1 as [LF1a LF1b]. apply Forall_app in LF2 as [LF2a LF2b]. inversion LF1b; subst. inversion LF2b; subst.
      set (lft' := Node LI LC (idx_of (map fsize LC))).
      set (c' := Node (sep :: cits) (moved :: cch) (idx_of (map fsize (moved :: cch)))).
      assert (FLl : flatten (Node (LI ++ [stolen]) (LC ++ [moved]) (idx_of (map fsize (LC ++ [moved])))) = flatten lft' ++ stolen :: flatten moved).
      { rewrite flatten_inter by (destruct LC; discriminate). rewrite inter_snoc by lia. unfold lft'. rewrite flatten_inter by exact LCne. reflexivity. }
      assert (FLc : flatten c' = flatten moved ++ sep :: flatten (Node cits cch (idx_of (map fsize cch)))).
      { unfold c'. rewrite flatten_node. rewrite (flatten_inter cits cch _ CCne).
        destruct cch as [|c1 cr]; [contradiction|]. reflexivity. }
      destruct (LC ++ [moved]) as [|l0 lr] eqn:ELC; [destruct LC; discriminate|]. rewrite <- ELC in *. clear ELC l0 lr.
      unfold last_opt. rewrite rev_app_distr. cbn [rev app]. rewrite removelast_last.
      replace (ix_pop (idx_of (map fsize (LC ++ [moved])))) with (fsize moved, idx_of (map fsize LC))
        by (rewrite map_app; cbn [map]; symmetry; apply ix_pop_spec).
      rewrite (replace_nth_two C1 _ _ C2 _ _ _ L1).
      exists stolen, lft', c'. split; [|split; [|split; [|split; [|split]]]].
      + f_equal. unfold lft', c'. f_equal.
        * f_equal. f_equal. f_equal. f_equal. cbn [map]. exact (ix_insert_at_spec [] (map fsize cch) (fsize moved)).
        * rewrite upd_nth_twice. fold lft'. fold c'.
          set (lftN := Node (LI ++ [stolen]) (LC ++ [moved]) (idx_of (map fsize (LC ++ [moved])))) in *.
          set (cN := Node cits cch (idx_of (map fsize cch))) in *.
          rewrite <- L1. apply (idx_move _ _ _ _ _ _ _ (1 + fsize moved)%Z); [intros v; lia|..];
            rewrite ?(fsize_of_flatten _ _ FLl), ?(fsize_of_flatten _ _ FLc); unfold fsize; rewrite !app_length; cbn [length]; lia.
      + exists (flatten moved). split; [exact FLl|exact FLc].
      + unfold lft'. apply binv_node; [lia|exact LF1a|exact LF2a].
      + unfold c'. apply binv_node; [cbn; lia|constructor; assumption|constructor; assumption].
      + unfold lft'. cbn. lia.
      + unfold c'. cbn. lia.
  Qed.

  Lemma steal_right_spec h (I1 : list A) sep I2 C1 c rgt C2 :
    length C1 = length I1 -> length C2 = length I2 ->
    Forall (binv h) (C1 ++ c :: rgt :: C2) -> Forall (fun c0 => lo <= length (n_its c0) <= hi)%nat (C1 ++ c :: rgt :: C2) ->
    (match length I1 with
     | O => false
     | S p => match nth_error (C1 ++ c :: rgt :: C2) p with Some l => Nat.ltb lo (length (n_its l)) | None => false end
     end) = false ->
    (lo < length (n_its rgt))%nat -> length (n_its c) = lo ->
    exists stolen c' rgt',
      grow_child (Node (I1 ++ sep :: I2) (C1 ++ c :: rgt :: C2) (idx_of (map fsize (C1 ++ c :: rgt :: C2)))) (length I1) lo
        = Some (Node (I1 ++ stolen :: I2) (C1 ++ c' :: rgt' :: C2) (idx_of (map fsize (C1 ++ c' :: rgt' :: C2)))) /\
      (exists M, flatten rgt = M ++ stolen :: flatten rgt' /\ flatten c' = flatten c ++ sep :: M) /\
      binv h c' /\ binv h rgt' /\ length (n_its c') = S lo /\ (lo <= length (n_its rgt') <= hi)%nat.
  Proof.
    intros L1 L2 F1 F2 LB Big Small.
    pose proof F1 as (_ & Bc & Br & _)%Forall_mid2. pose proof F2 as (_ & _ & Hr & _)%Forall_mid2.
    unfold grow_child. cbn [n_its n_ch n_idx].
    rewrite LB, (nth_error_at C1 c _ _ L1), (nth_error_at_S C1 c rgt C2 _ L1), nth_error_mid.
    replace (Nat.ltb (length I1) (length (I1 ++ sep :: I2))) with true by (symmetry; apply Nat.ltb_lt; rewrite app_length; cbn; lia).
    replace (Nat.ltb lo (length (n_its rgt))) with true by (symmetry; apply Nat.ltb_lt; exact Big). cbn [andb].
    destruct (n_its rgt) as [|stolen RI] eqn:ERI; [cbn in Big; lia|]. cbn [length] in Big, Hr.
    rewrite replace_nth_mid.
    inversion Br as [rits|h' rits rch RL RF1 RF2]; subst; cbn [n_its n_ch n_idx] in *.
    - (* leaves *)
      inversion Bc as [cits|]; subst. cbn [n_its n_ch n_idx] in *. try subst rits.
      rewrite (replace_nth_two C1 _ _ C2 _ _ _ L1). exists stolen, (Node (cits ++ [sep]) [] []), (Node RI [] []). split; [|split; [|split; [|split; [|split]]]].
      + f_equal. f_equal. rewrite <- L1. apply (idx_move _ _ _ _ _ _ _ (-1)%Z); [intros v; lia|..];
          unfold fsize; rewrite !flatten_leaf, ?app_length; cbn [length]; lia.
      + exists []. cbn. split; reflexivity.
      + apply binv_leaf.
      + apply binv_leaf.
      + cbn. rewrite app_length. cbn. lia.
      + cbn. lia.
    - (* internal nodes: the first child of the right sibling moves over as well *)
      inversion Bc as [|h'' cits cch CL CF1 CF2]; subst. cbn [n_its n_ch n_idx] in *. try subst rits.
      destruct rch as [|moved RC]; [discriminate|]. cbn [length] in RL.
      assert (RCne : RC <> []) by (destruct RC; [cbn in RL; lia|discriminate]).
      assert (CCne : cch <> []) by (destruct cch; [discriminate|discriminate]).
      inversion RF1; subst. inversion RF2; subst.
      set (c' := Node (cits ++ [sep]) (cch ++ [moved]) (idx_of (map fsize (cch ++ [moved])))).
      set (rgt' := Node RI RC (idx_of (map fsize RC))).
      assert (FLr : flatten (Node (stolen :: RI) (moved :: RC) (idx_of (map fsize (moved :: RC)))) = flatten moved ++ stolen :: flatten rgt').
      { rewrite flatten_node. unfold rgt'. rewrite (flatten_inter RI RC _ RCne). destruct RC; [contradiction|]. reflexivity. }
      assert (FLc : flatten c' = flatten (Node cits cch (idx_of (map fsize cch))) ++ sep :: flatten moved).
      { unfold c'. rewrite flatten_inter by (destruct cch; discriminate). rewrite inter_snoc by lia. rewrite (flatten_inter cits cch _ CCne). reflexivity. }
      replace (ix_remove_at 0 (idx_of (map fsize (moved :: RC)))) with (fsize moved, idx_of (map fsize RC))
        by (cbn [map]; symmetry; apply (ix_remove_at_spec [] (fsize moved) (map fsize RC))).
      rewrite (replace_nth_two C1 _ _ C2 _ _ _ L1).
      exists stolen, c', rgt'. split; [|split; [|split; [|split; [|split]]]].
      + f_equal. unfold c', rgt'. f_equal.
        * f_equal. f_equal. f_equal. rewrite map_app. cbn [map]. apply ix_push_spec.
        * rewrite upd_nth_twice. fold c'. fold rgt'.
          set (rgtN := Node (stolen :: RI) (moved :: RC) (idx_of (map fsize (moved :: RC)))) in *.
          set (cN := Node cits cch (idx_of (map fsize cch))) in *.
          rewrite <- L1. apply (idx_move _ _ _ _ _ _ _ (- (1 + fsize moved))%Z); [intros v; lia|..];
            rewrite ?(fsize_of_flatten _ _ FLr), ?(fsize_of_flatten _ _ FLc); unfold fsize; rewrite !app_length; cbn [length]; lia.
      + exists (flatten moved). split; [exact FLr|exact FLc].
      + unfold c'. apply binv_node; [rewrite !app_length; cbn; lia|apply Forall_app; split; [exact CF1|constructor; [assumption|constructor]]|
                                    apply Forall_app; split; [exact CF2|constructor; [assumption|constructor]]].
      + unfold rgt'. apply binv_node; [lia|assumption|assumption].
      + unfold c'. cbn. rewrite app_length. cbn. lia.
      + unfold rgt'. cbn. lia.
  Qed.

  Lemma fold_push h RC : Forall (binv h) RC -> forall a,
    fold_left (fun s nn => ix_push (nlen nn) s) RC (idx_of a) = idx_of (a ++ map fsize RC).
  Proof.
    induction RC as [|c RC IH]; intros F a; cbn [fold_left map]; [rewrite app_nil_r; reflexivity|].
    inversion F; subst. rewrite (nlen_binv _ _ ltac:(eassumption)), ix_push_spec, IH by assumption. rewrite <- app_assoc. reflexivity.
  Qed.

  Lemma inter_merge LI sep RI LC RC : length LC = S (length LI) -> RC <> [] ->
    inter (LI ++ sep :: RI) (LC ++ RC) = inter LI LC ++ sep :: inter RI RC.
  Proof.
    intros L NE. destruct (exists_last_or_nil LC) as [->|(LC0 & lcl & ->)]; [discriminate|].
    rewrite app_length in L. cbn in L. rewrite <- app_assoc. cbn [app].
    rewrite inter_app by (lia || discriminate).
    replace LI with (LI ++ []) at 2 by apply app_nil_r. rewrite inter_app by (lia || discriminate).
    cbn [inter]. destruct RC as [|r0 RC']; [contradiction|]. rewrite <- app_assoc. reflexivity.
  Qed.

  (* The three boolean premises are the tests of growChildAndRemove as the model writes them: the left sibling of child i is
     not big (`i > 0 && len(children[i-1].items) > minItems` fails), the right one is not big either, and
     `if i >= len(n.items) { i-- }` leaves |I1|, the position of the separator that goes down. *)
  Lemma merge_spec_node h (I1 : list A) sep I2 C1 cl cr C2 i :
    length C1 = length I1 -> length C2 = length I2 ->
    Forall (binv h) (C1 ++ cl :: cr :: C2) -> Forall (fun c0 => lo <= length (n_its c0) <= hi)%nat (C1 ++ cl :: cr :: C2) ->
    length (n_its cl) = lo -> length (n_its cr) = lo ->
    (match i with
     | O => false
     | S p => match nth_error (C1 ++ cl :: cr :: C2) p with Some l => Nat.ltb lo (length (n_its l)) | None => false end
     end) = false ->
    (Nat.ltb i (length (I1 ++ sep :: I2)) &&
     match nth_error (C1 ++ cl :: cr :: C2) (S i) with Some r => Nat.ltb lo (length (n_its r)) | None => false end) = false ->
    (if Nat.leb (length (I1 ++ sep :: I2)) i then Nat.pred i else i) = length I1 ->
    exists merged,
      grow_child (Node (I1 ++ sep :: I2) (C1 ++ cl :: cr :: C2) (idx_of (map fsize (C1 ++ cl :: cr :: C2)))) i lo
        = Some (Node (I1 ++ I2) (C1 ++ merged :: C2) (idx_of (map fsize (C1 ++ merged :: C2)))) /\
      flatten merged = flatten cl ++ sep :: flatten cr /\ binv h merged /\ length (n_its merged) = hi.
  Proof.
    intros L1 L2 F1 F2 Sl Sr LB RB EI.
    pose proof F1 as (_ & Bl & Br & _)%Forall_mid2.
    unfold grow_child. cbn [n_its n_ch n_idx].
    rewrite LB, RB, EI, (nth_error_at C1 cl _ _ L1), (nth_error_at_S C1 cl cr C2 _ L1), nth_error_mid, remove_nth_mid.
    set (merged := Node (n_its cl ++ sep :: n_its cr) (n_ch cl ++ n_ch cr)
                        (fold_left (fun s nn => ix_push (nlen nn) s) (n_ch cr) (n_idx cl))).
    assert (RM : remove_nth (S (length I1)) (replace_nth (length I1) merged (C1 ++ cl :: cr :: C2)) = C1 ++ merged :: C2).
    { rewrite <- L1, replace_nth_mid, remove_nth_mid_S. reflexivity. }
    rewrite RM.
    assert (MS : flatten merged = flatten cl ++ sep :: flatten cr /\ binv h merged /\
                 merged = Node (n_its cl ++ sep :: n_its cr) (n_ch cl ++ n_ch cr) (idx_of (map fsize (n_ch cl ++ n_ch cr)))).
    { inversion Bl as [lits|h' lits lch LL LF1 LF2]; subst; cbn [n_its n_ch n_idx] in *.
      - inversion Br as [rits|]; subst. unfold merged. cbn. split; [reflexivity|]. split; [apply binv_leaf|reflexivity].
      - inversion Br as [|h'' rits rch RL RF1 RF2]; subst. cbn [n_its n_ch n_idx] in *.
        assert (EIDX : fold_left (fun s nn => ix_push (nlen nn) s) rch (idx_of (map fsize lch)) = idx_of (map fsize (lch ++ rch))).
        { rewrite (fold_push _ _ RF1), map_app. reflexivity. }
        unfold merged. cbn [n_its n_ch n_idx]. rewrite EIDX. split; [|split; [|reflexivity]].
        + rewrite flatten_inter by (destruct lch; discriminate). rewrite inter_merge by (auto; destruct rch; discriminate).
          rewrite !flatten_inter by (destruct lch, rch; discriminate). reflexivity.
        + apply binv_node; [rewrite !app_length; cbn [length]; lia|apply Forall_app; split; assumption|apply Forall_app; split; assumption]. }
    destruct MS as (FM & BM & EM).
    exists merged. split; [|split; [exact FM|split; [exact BM|]]].
    - f_equal. f_equal. rewrite !map_app. cbn [map]. rewrite <- L1, <- (map_length fsize C1), ix_merge_spec. f_equal. f_equal. f_equal.
      rewrite (fsize_of_flatten _ _ FM). unfold fsize. rewrite app_length. cbn [length]. lia.
    - unfold merged. cbn [n_its]. rewrite app_length. cbn [length]. lia.
  Qed.

  (* the result of items.find is determined by the order facts *)
  Lemma search_first_app J1 J2 x : (forall y, In y J1 -> ltb x y = false) -> lt_all x J2 ->
    search_first ltb (J1 ++ J2) x = length J1.
  Proof.
    intros H1 H2. induction J1 as [|a J1 IH]; cbn [app search_first length].
    - destruct J2 as [|b J2]; [reflexivity|]. cbn. rewrite (H2 b (or_introl eq_refl)). reflexivity.
    - rewrite (H1 a (or_introl eq_refl)), IH; [reflexivity|]. intros y Hy; apply H1; right; exact Hy.
  Qed.

  Lemma items_find_no J1 J2 x : all_lt J1 x -> lt_all x J2 -> items_find ltb (J1 ++ J2) x = (length J1, false).
  Proof.
    intros H1 H2. unfold items_find.
    rewrite search_first_app; [|intros y Hy; apply (lt_asym ltb lt_irrefl lt_trans), H1, Hy|exact H2].
    destruct (exists_last_or_nil J1) as [->|(J & a & ->)]; [reflexivity|].
    rewrite length_snoc, <- app_assoc. cbn [app]. rewrite nth_error_mid.
    rewrite (H1 a) by (apply in_or_app; right; left; reflexivity). reflexivity.
  Qed.

  Lemma items_find_yes J1 y J2 x : all_lt J1 x -> eqv x y -> lt_all x J2 ->
    items_find ltb (J1 ++ y :: J2) x = (length J1, true).
  Proof.
    intros H1 [E1 E2] H2. unfold items_find. rewrite app_cons_snoc.
    rewrite search_first_app; [|intros z Hz; apply in_app_or in Hz as [Hz|[<-|[]]]; [apply (lt_asym ltb lt_irrefl lt_trans), H1, Hz|exact E1]|exact H2].
    rewrite length_snoc, <- app_cons_snoc, nth_error_mid, E2. reflexivity.
  Qed.

  Local Notation to_remove := (@to_remove A).

  Definition sel_int (its : list A) (typ : to_remove) : nat * bool :=
    match typ with
    | RemoveMax => (length its, false)
    | RemoveMin => (O, false)
    | RemoveItem x => items_find ltb its x
    end.

  (* what `typ` removes from the in-order walk *)
  Definition rem_spec (typ : to_remove) (L L' : list A) (out : option A) : Prop :=
    match typ with
    | RemoveItem x => l0_delete ltb x L = (L', out)
    | RemoveMax => match out with Some e => L = L' ++ [e] | None => False end
    | RemoveMin => match out with Some e => L = e :: L' | None => False end
    end.

  (* the selection of `typ` in a node, as order facts about the in-order walk around child number |J1| *)
  Definition fsel (typ : to_remove) (P Q : list A) (J2 : list A) (found : bool) : Prop :=
    match typ with
    | RemoveItem x =>
        all_lt P x /\
        if found then exists y J2', J2 = y :: J2' /\ eqv x y
        else lt_all x Q
    | RemoveMax => Q = [] /\ J2 = [] /\ found = false
    | RemoveMin => P = [] /\ found = false
    end.

  Lemma rem_comp typ P C Q J2 C' out : fsel typ P Q J2 false -> rem_spec typ C C' out ->
    rem_spec typ (P ++ C ++ Q) (P ++ C' ++ Q) out.
  Proof.
    destruct typ as [x| |]; cbn [fsel rem_spec].
    - intros [HP HQ] E. apply (l0_delete_comp ltb lt_irrefl lt_trans); assumption.
    - intros [-> _] E. destruct out as [e|]; [|contradiction]. subst C. reflexivity.
    - intros [-> _] E. destruct out as [e|]; [|contradiction]. subst C. rewrite (app_nil_r (C' ++ [e])), (app_nil_r C'), <- app_assoc. reflexivity.
  Qed.

  Lemma l0_delete_hit P y Q x : all_lt P x -> eqv x y -> lt_all x Q -> l0_delete ltb x (P ++ y :: Q) = (P ++ Q, Some y).
  Proof.
    intros HP [E1 E2] HQ. change (P ++ y :: Q) with (P ++ [y] ++ Q). change (P ++ Q) with (P ++ [] ++ Q).
    apply (l0_delete_comp ltb lt_irrefl lt_trans); auto. cbn. rewrite E2, E1. reflexivity.
  Qed.

  Lemma rem_length typ L L' out : rem_spec typ L L' out ->
    length L = (length L' + match out with Some _ => 1 | None => 0 end)%nat.
  Proof.
    destruct typ as [x| |]; cbn [rem_spec].
    - revert L' out. induction L as [|a L IH]; intros L' out E; cbn [l0_delete] in E.
      + inversion E; subst. reflexivity.
      + destruct (ltb a x).
        * destruct (l0_delete ltb x L) as [L2 o2] eqn:E2. inversion E; subst. cbn [length]. rewrite (IH _ _ eq_refl). lia.
        * destruct (ltb x a); inversion E; subst; cbn [length]; lia.
    - destruct out; [|contradiction]. intros ->. cbn. lia.
    - destruct out; [|contradiction]. intros ->. rewrite app_length. cbn. lia.
  Qed.

  (* `remove` of the model on an internal node, its `sel` computation read as sel_int; by unfolding *)
  Lemma remove_internal f N typ : n_ch N <> [] ->
    remove ltb (S f) N typ lo =
    let '(i, found) := sel_int (n_its N) typ in
    match nth_error (n_ch N) i with
    | None => None
    | Some child =>
        if Nat.leb (length (n_its child)) lo then
          match grow_child N i lo with None => None | Some n' => remove ltb f n' typ lo end
        else if found then
          match nth_error (n_its N) i, remove ltb f child RemoveMax lo with
          | Some out, Some (child', Some pred) =>
              Some (Node (replace_nth i pred (n_its N)) (replace_nth i child' (n_ch N)) (ix_add_at i (-1) (n_idx N)), Some out)
          | _, _ => None
          end
        else
          match remove ltb f child typ lo with
          | None => None
          | Some (child', out) =>
              Some (Node (n_its N) (replace_nth i child' (n_ch N))
                         (match out with Some _ => ix_add_at i (-1) (n_idx N) | None => n_idx N end), out)
          end
    end.
  Proof.
    intros NE. destruct N as [its ch idx]. cbn [n_ch n_its n_idx] in *. destruct ch as [|c0 cs]; [contradiction|].
    destruct typ as [x| |]; cbn [remove sel_int n_its n_ch n_idx]; [destruct (items_find ltb its x) as [i found]|..]; reflexivity.
  Qed.

  Lemma remove_leaf f its typ : sorted its -> its <> [] ->
    exists its' out, remove ltb (S f) (Node its [] []) typ lo = Some (Node its' [] [], out) /\ rem_spec typ its its' out.
  Proof.
    intros Hs NE. destruct typ as [x| |]; cbn [remove n_its n_ch n_idx rem_spec].
    - destruct (items_find_spec its x Hs) as [I1 I2 E H1 H2|I1 y I2 E H1 EQ H2]; subst its.
      + exists (I1 ++ I2), None. split; [reflexivity|].
        change (I1 ++ I2) with (I1 ++ [] ++ I2). apply (l0_delete_comp ltb lt_irrefl lt_trans); auto.
      + exists (I1 ++ I2), (Some y). rewrite remove_nth_mid, nth_error_mid. split; [reflexivity|apply l0_delete_hit; assumption].
    - destruct its as [|e I']; [contradiction|]. exists I', (Some e). split; reflexivity.
    - destruct (exists_last_or_nil its) as [->|(I' & e & ->)]; [contradiction|].
      exists I', (Some e). rewrite last_opt_snoc, removelast_last. split; reflexivity.
  Qed.

  Definition rem_post (typ : to_remove) (h : nat) (n n' : node) (out : option A) : Prop :=
    binv h n' /\ rem_spec typ (flatten n) (flatten n') out /\
    (length (n_its n) - 1 <= length (n_its n') <= length (n_its n))%nat.

  Definition rem_ih (h : nat) : Prop :=
    forall typ n fuel, binv h n -> sorted (flatten n) -> (2 * h + 2 <= fuel)%nat -> n_its n <> [] ->
      exists n' out, remove ltb fuel n typ lo = Some (n', out) /\ rem_post typ h n n' out.

  Lemma in_zipl a J C : In a J -> length C = length J -> In a (zipl J C).
  Proof.
    revert C. induction J as [|j J IH]; intros [|c C] Ha L; try discriminate; [destruct Ha|].
    cbn [zipl]. cbn in L. apply in_or_app. right. destruct Ha as [<-|Ha]; [left; reflexivity|right; apply IH; [exact Ha|lia]].
  Qed.
  Lemma in_zipr a J C : In a J -> length C = length J -> In a (zipr J C).
  Proof.
    revert C. induction J as [|j J IH]; intros [|c C] Ha L; try discriminate; [destruct Ha|].
    cbn [zipr]. cbn in L. destruct Ha as [<-|Ha]; [left; reflexivity|right; apply in_or_app; right; apply IH; [exact Ha|lia]].
  Qed.

  Lemma zipl_nil J C : length C = length J -> zipl J C = [] -> J = [].
  Proof.
    destruct J as [|j J]; [reflexivity|]. destruct C as [|c C]; [discriminate|]. cbn [zipl]. intros _ H.
    destruct (flatten c); discriminate.
  Qed.

  Lemma fsel_sel typ (J1 J2 : list A) (C1 C2 : list node) found :
    length C1 = length J1 -> length C2 = length J2 ->
    sorted (J1 ++ J2) -> fsel typ (zipl J1 C1) (zipr J2 C2) J2 found ->
    sel_int (J1 ++ J2) typ = (length J1, found).
  Proof.
    intros L1 L2 Hs F. destruct typ as [x| |]; cbn [fsel sel_int] in *.
    - destruct F as [HP F]. assert (H1 : all_lt J1 x) by (intros a Ha; apply HP, in_zipl; auto).
      destruct found.
      + destruct F as (y & J2' & -> & EQ). apply items_find_yes; [exact H1|exact EQ|].
        destruct (sorted_mid ltb _ _ _ Hs) as (_ & YQ & _ & _). eapply lt_all_eqv; eauto.
      + apply items_find_no; [exact H1|]. intros a Ha. apply F, in_zipr; auto.
    - destruct F as [HP ->]. rewrite (zipl_nil _ _ L1 HP). reflexivity.
    - destruct F as (_ & -> & ->). rewrite app_nil_r. reflexivity.
  Qed.

  (* removal below child number |J1|, which has more than minItems items; L is the walk of the node *)
  Lemma remove_big typ h f (J1 J2 : list A) C1 c C2 found L K :
    rem_ih h -> (K - 1 <= length (J1 ++ J2) <= K)%nat -> length C1 = length J1 -> length C2 = length J2 ->
    Forall (binv h) (C1 ++ c :: C2) -> Forall (fun c0 => lo <= length (n_its c0) <= hi)%nat (C1 ++ c :: C2) ->
    zipl J1 C1 ++ flatten c ++ zipr J2 C2 = L -> sorted L ->
    fsel typ (zipl J1 C1) (zipr J2 C2) J2 found -> (lo < length (n_its c))%nat -> (2 * h + 2 <= f)%nat ->
    exists n' out,
      remove ltb (S f) (Node (J1 ++ J2) (C1 ++ c :: C2) (idx_of (map fsize (C1 ++ c :: C2)))) typ lo = Some (n', out) /\
      binv (S h) n' /\ rem_spec typ L (flatten n') out /\ (K - 1 <= length (n_its n') <= K)%nat.
  Proof.
    intros IH HK L1 L2 F1 F2 EL Hs FS Big Hf. subst L.
    pose proof F1 as (_ & Bc & _)%Forall_mid. pose proof F2 as (_ & Hb & _)%Forall_mid.
    assert (NEc : n_its c <> []) by (destruct (n_its c); [cbn in Big; lia|discriminate]).
    assert (Hi : sorted (J1 ++ J2)).
    { apply (node_items_sorted _ (C1 ++ c :: C2) []); [rewrite !app_length; cbn; lia|].
      rewrite (flatten_at_child J1 J2 C1 c C2 _ L1 L2). exact Hs. }
    rewrite remove_internal by (cbn; apply mid_nonempty). cbn [n_its n_ch n_idx].
    rewrite (fsel_sel typ J1 J2 C1 C2 found L1 L2 Hi FS), <- L1, nth_error_mid.
    replace (Nat.leb (length (n_its c)) lo) with false by (symmetry; apply Nat.leb_gt; exact Big).
    pose proof (cut_child_sorted _ _ _ _ _ Hs) as Sc.
    destruct found.
    - (* the item is in this node: replaced by its predecessor, the largest item of the child to its left *)
      destruct typ as [x| |]; cbn [fsel] in FS; [|destruct FS as [_ FS]; discriminate|destruct FS as (_ & _ & FS); discriminate].
      destruct FS as [HP (y & J2' & -> & EQ)]. rewrite L1, nth_error_mid.
      destruct (IH RemoveMax c f Bc Sc Hf NEc) as (c' & out & E & B' & RS & Hlen). rewrite E.
      cbn [rem_spec] in RS. destruct out as [pred|]; [|contradiction].
      rewrite replace_nth_mid, <- L1, replace_nth_mid.
      eexists. exists (Some y). split; [reflexivity|].
      destruct C2 as [|cr C2']; [discriminate|]. cbn [length] in L2. cbn [zipr] in Hs |- *.
      rewrite (idx_after C1 c (cr :: C2') c') by (rewrite RS, app_length; cbn; lia).
      split; [|split].
      + apply (binv_replace_child h J1 (pred :: J2') C1 c (cr :: C2') c'); auto. lia.
      + cbn [rem_spec]. rewrite (flatten_at_child J1 (pred :: J2') C1 c' (cr :: C2') _ L1 ltac:(cbn; lia)). cbn [zipr].
        rewrite RS, <- !app_assoc in Hs |- *. cbn [app] in Hs |- *.
        assert (AM : forall R, zipl J1 C1 ++ flatten c' ++ pred :: R = (zipl J1 C1 ++ flatten c' ++ [pred]) ++ R)
          by (intros R; rewrite <- !app_assoc; reflexivity).
        rewrite (AM (y :: _)) in Hs |- *. rewrite (AM (flatten cr ++ _)).
        destruct (sorted_mid ltb _ _ _ Hs) as (A1 & A2 & _ & _).
        apply l0_delete_hit; [eapply all_lt_eqv; eauto|exact EQ|eapply lt_all_eqv; eauto].
      + cbn [n_its]. rewrite !app_length in *. exact HK.
    - (* descend *)
      destruct (IH typ c f Bc Sc Hf NEc) as (c' & out & E & B' & RS & Hlen). rewrite E, replace_nth_mid.
      eexists. exists out. split; [reflexivity|].
      pose proof (rem_length _ _ _ _ RS) as LEN.
      replace (match out with Some _ => _ | None => _ end) with (idx_of (map fsize (C1 ++ c' :: C2)))
        by (destruct out; [symmetry; apply idx_after; lia|apply idx_same; lia]).
      split; [|split].
      + apply (binv_replace_child h J1 J2 C1 c C2 c'); auto. lia.
      + rewrite (flatten_at_child J1 J2 C1 c' C2 _ L1 L2). eapply rem_comp; eassumption.
      + exact HK.
  Qed.

  Lemma fsel_init typ (its : list A) ch idx : length ch = S (length its) -> its <> [] ->
    sorted (flatten (Node its ch idx)) ->
    exists J1 J2 C1 c C2 found, its = J1 ++ J2 /\ ch = C1 ++ c :: C2 /\ length C1 = length J1 /\ length C2 = length J2 /\
      fsel typ (zipl J1 C1) (zipr J2 C2) J2 found.
  Proof.
    intros L NE Hs. destruct typ as [x| |].
    - destruct (node_find x its ch idx L Hs) as [I1 I2 C1 c C2 E1 E2 L1 L2 HP HQ|I1 y I2 C1 c C2 E1 E2 L1 L2 EQ HP HQ].
      + exists I1, I2, C1, c, C2, false. cbn [fsel]. auto 10.
      + exists I1, (y :: I2), C1, c, C2, true. cbn [fsel]. repeat (split; [assumption|]). split.
        * intros z Hz. apply HP, in_or_app. left; exact Hz.
        * exists y, I2. split; [reflexivity|exact EQ].
    - destruct (cut_children [] its ch L) as (C1 & c & C2 & -> & L1 & L2). destruct C1; [|discriminate].
      exists [], its, [], c, C2, false. cbn [fsel zipl]. auto 10.
    - destruct (cut_children its [] ch ltac:(rewrite app_nil_r; exact L)) as (C1 & c & C2 & -> & L1 & L2). destruct C2; [|discriminate].
      exists its, [], C1, c, [], false. cbn [fsel zipr]. rewrite app_nil_r. auto 10.
  Qed.

  Lemma fsel_prefix typ (P R Q J2 : list A) found : fsel typ (P ++ R) Q J2 found -> fsel typ P Q J2 found.
  Proof.
    destruct typ as [x| |]; cbn [fsel].
    - intros [HP H]. split; [|exact H]. intros y Hy. apply HP, in_or_app. left; exact Hy.
    - intros [E H]. apply app_eq_nil in E as [-> _]. split; [reflexivity|exact H].
    - auto.
  Qed.

  (* the separator `sep` right of the child moves away (into the child, or is replaced by a later item):
     whatever was selected, the repeated search selects the same child and does not find the item in the node *)
  Lemma fsel_suffix typ (P R Q' I2 J2' : list A) sep found :
    fsel typ P (sep :: R ++ Q') (sep :: I2) found -> lt_all sep Q' ->
    (forall a, In a J2' -> In a Q') ->
    fsel typ P Q' J2' false.
  Proof.
    destruct typ as [x| |]; cbn [fsel].
    - intros [HP H] HS _. split; [exact HP|]. destruct found.
      + destruct H as (y & J2'' & E & EQ). inversion E; subst. eapply lt_all_eqv; eauto.
      + intros y Hy. apply H. right. apply in_or_app. right; exact Hy.
    - intros [-> _] _ _. auto.
    - intros [E _]. discriminate.
  Qed.
  Lemma remove_node typ h fuel its ch :
    rem_ih h -> length ch = S (length its) -> its <> [] ->
    Forall (binv h) ch -> Forall (fun c0 => lo <= length (n_its c0) <= hi)%nat ch ->
    sorted (flatten (Node its ch (idx_of (map fsize ch)))) -> (2 * S h + 2 <= fuel)%nat ->
    exists n' out, remove ltb fuel (Node its ch (idx_of (map fsize ch))) typ lo = Some (n', out) /\
      rem_post typ (S h) (Node its ch (idx_of (map fsize ch))) n' out.
  Proof.
    intros IH L NE F1 F2 Hs Hf. destruct fuel as [|f]; [lia|].
    destruct (fsel_init typ its ch _ L NE Hs) as (J1 & J2 & C1 & c & C2 & found & -> & -> & L1 & L2 & FS).
    pose proof F2 as (_ & Hb & _)%Forall_mid.
    pose proof (node_items_sorted _ _ _ L Hs) as Hi.
    unfold rem_post. cbn [n_its].
    rewrite (flatten_at_child J1 J2 C1 c C2 _ L1 L2) in *.
    destruct (Nat.ltb_spec lo (length (n_its c))) as [Big|Small].
    { apply (remove_big typ h f J1 J2 C1 c C2 found _ _ IH); auto; lia. }
    assert (Ec : length (n_its c) = lo) by lia. clear Small Hb.
    destruct f as [|f]; [lia|].
    rewrite remove_internal by (cbn; apply mid_nonempty). cbn [n_its n_ch n_idx].
    rewrite (fsel_sel typ J1 J2 C1 C2 found L1 L2 Hi FS), (nth_error_at C1 c C2 _ L1).
    replace (Nat.leb (length (n_its c)) lo) with true by (symmetry; apply Nat.leb_le; lia).
    (* whatever the restructuring, the search is repeated on a node whose selected child has minItems + 1 items or more *)
    destruct (match length J1 with
              | O => false
              | S p => match nth_error (C1 ++ c :: C2) p with Some l => Nat.ltb lo (length (n_its l)) | None => false end
              end) eqn:LB.
    - (* steal from the left sibling *)
      destruct (exists_last_or_nil J1) as [->|(I1 & sep & ->)]; [discriminate LB|].
      destruct (exists_last_or_nil C1) as [->|(C1' & lft & ->)]; [rewrite length_snoc in L1; discriminate|].
      rewrite !length_snoc in L1. injection L1 as L1'.
      rewrite length_snoc in LB |- *. rewrite <- !app_assoc in *. cbn [app] in *.
      rewrite (nth_error_at C1' lft _ _ L1') in LB. apply Nat.ltb_lt in LB.
      destruct (steal_left_spec h I1 sep J2 C1' lft c C2 L1' L2 F1 F2 LB Ec)
        as (stolen & lft' & c' & EG & (M & EM1 & EM2) & B1 & B2 & Hb1 & Hb2).
      rewrite EG. apply Forall_mid2 in F1 as (Fa & _ & _ & Fb). apply Forall_mid2 in F2 as (Ga & _ & _ & Gb).
      rewrite (zipl_snoc I1 sep C1' lft L1') in *.
      rewrite (app_cons_snoc I1 stolen), (app_cons_snoc C1' lft').
      apply (remove_big typ h f (I1 ++ [stolen]) J2 (C1' ++ [lft']) c' C2 found _ _ IH); try assumption; try lia.
      + (* item count *) rewrite !app_length. cbn. lia.
      + (* lengths of the cut *) rewrite !length_snoc. lia.
      + (* children: invariant *) rewrite <- app_cons_snoc. apply Forall_mid2; auto.
      + (* children: bounds *) rewrite <- app_cons_snoc. apply Forall_mid2; repeat split; auto; lia.
      + (* same walk *) rewrite (zipl_snoc I1 stolen C1' lft' L1'), EM1, EM2. rewrite <- !app_assoc. cbn [app]. rewrite <- ?app_assoc. reflexivity.
      + (* same selection *) rewrite (zipl_snoc I1 stolen C1' lft' L1'). rewrite EM1 in FS.
        replace (zipl I1 C1' ++ (flatten lft' ++ stolen :: M) ++ [sep])
          with ((zipl I1 C1' ++ flatten lft' ++ [stolen]) ++ (M ++ [sep])) in FS by (rewrite <- !app_assoc; cbn [app]; rewrite <- ?app_assoc; reflexivity).
        eapply fsel_prefix; eauto.
    - destruct J2 as [|sep I2].
      + (* the last child: merged into its left sibling *)
        destruct C2; [|discriminate].
        destruct (exists_last_or_nil J1) as [->|(I1 & sep & ->)]; [exfalso; apply NE; reflexivity|].
        destruct (exists_last_or_nil C1) as [->|(C1' & lft & ->)]; [rewrite length_snoc in L1; discriminate|].
        rewrite !length_snoc in L1. injection L1 as L1'.
        rewrite length_snoc in LB |- *. rewrite <- !app_assoc in *. cbn [app] in *.
        rewrite (nth_error_at C1' lft _ _ L1') in LB. apply Nat.ltb_ge in LB.
        pose proof F2 as (_ & Hbl & _)%Forall_mid2.
        destruct (merge_spec_node h I1 sep [] C1' lft c [] (S (length I1)) L1' eq_refl F1 F2 ltac:(lia) Ec) as (merged & EG & EM & Bm & Lm).
        { rewrite (nth_error_at C1' lft _ _ L1'). apply Nat.ltb_ge. lia. }
        { apply andb_false_iff. left. apply Nat.ltb_ge. rewrite length_snoc. lia. }
        { rewrite length_snoc, Nat.leb_refl. reflexivity. }
        rewrite EG. apply Forall_mid2 in F1 as (Fa & _ & _ & Fb). apply Forall_mid2 in F2 as (Ga & _ & _ & Gb).
        rewrite (zipl_snoc I1 sep C1' lft L1') in *.
        apply (remove_big typ h f I1 [] C1' merged [] found _ _ IH); try assumption; try reflexivity; try lia.
        * (* item count *) rewrite !app_length. cbn. lia.
        * (* children: invariant *) apply Forall_mid; auto.
        * (* children: bounds *) apply Forall_mid; repeat split; auto; lia.
        * (* same walk *) rewrite EM. rewrite <- !app_assoc. cbn [app]. reflexivity.
        * (* same selection *) eapply fsel_prefix; eauto.
      + destruct C2 as [|rgt C2']; [discriminate|]. injection L2 as L2'.
        assert (HSEP : lt_all sep (flatten rgt ++ zipr I2 C2')).
        { cbn [zipr] in Hs. rewrite app_assoc in Hs. apply (sorted_mid ltb) in Hs as (_ & H & _ & _). exact H. }
        pose proof F2 as (_ & _ & Hbr & _)%Forall_mid2.
        destruct (Nat.ltb lo (length (n_its rgt))) eqn:RB.
        * (* steal from the right sibling *)
          apply Nat.ltb_lt in RB.
          destruct (steal_right_spec h J1 sep I2 C1 c rgt C2' L1 L2' F1 F2 LB RB Ec)
            as (stolen & c' & rgt' & EG & (M & EM1 & EM2) & B1 & B2 & Hb1 & Hb2).
          rewrite EG. apply Forall_mid2 in F1 as (Fa & _ & _ & Fb). apply Forall_mid2 in F2 as (Ga & _ & _ & Gb).
          apply (remove_big typ h f J1 (stolen :: I2) C1 c' (rgt' :: C2') false _ _ IH); try assumption; try lia.
          -- (* item count *) rewrite !app_length. cbn. lia.
          -- (* lengths of the cut *) cbn; lia.
          -- (* children: invariant *) apply Forall_mid2; auto.
          -- (* children: bounds *) apply Forall_mid2; repeat split; auto; lia.
          -- (* same walk *) cbn [zipr]. rewrite EM1, EM2. rewrite <- !app_assoc. cbn [app]. rewrite <- ?app_assoc. reflexivity.
          -- (* same selection *) cbn [zipr] in FS |- *. rewrite EM1 in FS, HSEP. rewrite <- !app_assoc in FS, HSEP. cbn [app] in FS, HSEP.
             apply (fsel_suffix typ (zipl J1 C1) M (stolen :: flatten rgt' ++ zipr I2 C2') I2 (stolen :: I2) sep found FS).
             ++ intros a Ha. apply HSEP, in_or_app. right; exact Ha.
             ++ intros a [<-|Ha]; [left; reflexivity|right; apply in_or_app; right; apply in_zipr; auto].
        * (* merge with the right sibling *)
          apply Nat.ltb_ge in RB.
          destruct (merge_spec_node h J1 sep I2 C1 c rgt C2' (length J1) L1 L2' F1 F2 Ec ltac:(lia) LB) as (merged & EG & EM & Bm & Lm).
          { apply andb_false_iff. right. rewrite (nth_error_at_S C1 c rgt C2' _ L1). apply Nat.ltb_ge. lia. }
          { replace (Nat.leb (length (J1 ++ sep :: I2)) (length J1)) with false by (symmetry; apply Nat.leb_gt; rewrite app_length; cbn; lia).
            reflexivity. }
          rewrite EG. apply Forall_mid2 in F1 as (Fa & _ & _ & Fb). apply Forall_mid2 in F2 as (Ga & _ & _ & Gb).
          apply (remove_big typ h f J1 I2 C1 merged C2' false _ _ IH); try assumption; try lia.
          -- (* item count *) rewrite !app_length. cbn. lia.
          -- (* children: invariant *) apply Forall_mid; auto.
          -- (* children: bounds *) apply Forall_mid; repeat split; auto; lia.
          -- (* same walk *) cbn [zipr]. rewrite EM. rewrite <- !app_assoc. cbn [app]. reflexivity.
          -- (* same selection *) cbn [zipr] in FS.
             apply (fsel_suffix typ (zipl J1 C1) (flatten rgt) (zipr I2 C2') I2 I2 sep found FS).
             ++ intros a Ha. apply HSEP, in_or_app. right; exact Ha.
             ++ intros a Ha. apply in_zipr; auto.
  Qed.
  Theorem remove_spec : forall h, rem_ih h.
  Proof.
    induction h as [|h IH]; intros typ n fuel B Hs Hf NE.
    - inversion B; subst. destruct fuel as [|f]; [lia|]. cbn [flatten] in Hs. cbn [n_its] in NE.
      destruct (remove_leaf f its typ Hs NE) as (its' & out & E & RS).
      exists (Node its' [] []), out. split; [exact E|]. split; [apply binv_leaf|]. split; [exact RS|].
      pose proof (rem_length _ _ _ _ RS) as LEN. cbn [n_its]. destruct out; lia.
    - inversion B as [|h0 its ch L F1 F2]; subst. cbn [n_its] in NE.
      apply (remove_node typ h fuel its ch IH L NE F1 F2 Hs Hf).
  Qed.

  Lemma l0_delete_sorted x L : sorted L -> sorted (fst (l0_delete ltb x L)).
  Proof.
    induction L as [|a L IH]; intros Hs; cbn [l0_delete]; [exact Hs|].
    apply sorted_cons_inv in Hs as [Hs' F].
    destruct (ltb a x).
    - specialize (IH Hs'). destruct (l0_delete ltb x L) as [L' o] eqn:E. cbn [fst] in *. apply sorted_cons; [exact IH|].
      intros y Hy. apply F. clear - E Hy. revert L' o E Hy. induction L as [|b L IHL]; cbn [l0_delete]; intros L' o E Hy.
      + inversion E; subst. destruct Hy.
      + destruct (ltb b x).
        * destruct (l0_delete ltb x L) as [L2 o2]. inversion E; subst. destruct Hy as [<-|Hy]; [left; reflexivity|right; eapply IHL; eauto].
        * destruct (ltb x b); inversion E; subst; [exact Hy|right; exact Hy].
    - destruct (ltb x a); cbn [fst]; [apply sorted_cons; assumption|exact Hs'].
  Qed.

  Lemma rem_sorted typ L L' out : rem_spec typ L L' out -> sorted L -> sorted L'.
  Proof.
    destruct typ as [x| |]; cbn [rem_spec].
    - intros E Hs. pose proof (l0_delete_sorted x L Hs) as H. rewrite E in H. exact H.
    - destruct out as [e|]; [|contradiction]. intros -> Hs. apply sorted_cons_inv in Hs as [Hs _]. exact Hs.
    - destruct out as [e|]; [|contradiction]. intros -> Hs. apply sorted_app in Hs as (Hs & _ & _). exact Hs.
  Qed.
End Refine.