(* C13 — proofs about model/C13_Rules.v.  The sweep of buildRuleList emits one range per distinct boundary
   key, in ascending order, each with the configured rules covering its start key in compareRule order: an
   index of the rule set [indexes].  An index is unique, buildRuleList computes it, and the three lookups
   are exact on any index.  prepareRulesForApply is the override specification.  ruleConfig.adjust is
   idempotent, and an update that returns an error changes nothing that is served. *)
From Coq Require Import Permutation Sorting.Sorted.
From PDV Require Import lib.Base lib.C12_Order lib.C13_Map gen.Gen_C13 model.C13_Rules.
Local Open Scope list_scope.

Lemma good_N : good N.compare.
Proof.
  constructor.
  - intros; apply N.compare_antisym.
  - intros a b d x H1 H2. destruct x.
    + apply N.compare_eq in H1, H2. subst. apply N.compare_refl.
    + rewrite N.compare_lt_iff in *. lia.
    + rewrite N.compare_gt_iff in *. lia.
  - intros a b d H. apply N.compare_eq in H. subst. reflexivity.
Qed.

Lemma good_key : good key_cmp.
Proof. apply good_lexlist, good_N. Qed.

Lemma key_cmp_eq a : forall b, key_cmp a b = Eq -> a = b.
Proof.
  unfold key_cmp. induction a as [|x a IH]; intros [|y b] H; cbn in H; try discriminate; [reflexivity|].
  apply lexc_eq in H as [H1 H2]. apply N.compare_eq in H1. f_equal; auto.
Qed.
Lemma key_cmp_refl a : key_cmp a a = Eq.
Proof. apply (g_refl _ good_key). Qed.

Lemma good_pair : good pair_cmp.
Proof.
  unfold pair_cmp.
  apply (good_lex (fun a b : id * id => key_cmp (fst a) (fst b)) (fun a b => key_cmp (snd a) (snd b))).
  - apply (good_pull (@fst id id) key_cmp good_key).
  - apply (good_pull (@snd id id) key_cmp good_key).
Qed.
Lemma pair_cmp_eq a b : pair_cmp a b = Eq -> a = b.
Proof.
  intros H. apply lexc_eq in H as [H1 H2]. apply key_cmp_eq in H1, H2. destruct a, b; cbn in *; congruence.
Qed.

Lemma key_eqb_eq a b : key_eqb a b = true <-> a = b.
Proof. exact (keqb_eq key_cmp good_key key_cmp_eq a b). Qed.
Lemma key_eqb_refl k : key_eqb k k = true.
Proof. apply key_eqb_eq. reflexivity. Qed.
Lemma key_eqb_sym a b : key_eqb a b = key_eqb b a.
Proof. exact (keqb_sym key_cmp good_key key_cmp_eq a b). Qed.
Lemma pair_eqb_eq a b : pair_eqb a b = true <-> a = b.
Proof. exact (keqb_eq pair_cmp good_pair pair_cmp_eq a b). Qed.
Lemma pair_eqb_refl k : pair_eqb k k = true.
Proof. apply pair_eqb_eq. reflexivity. Qed.
Lemma pair_eqb_sym a b : pair_eqb a b = pair_eqb b a.
Proof. exact (keqb_sym pair_cmp good_pair pair_cmp_eq a b). Qed.
Lemma keqb_pair a b : keqb pair_cmp a b = pair_eqb a b.
Proof. reflexivity. Qed.

Definition key_le (a b : key) : Prop := key_cmp a b <> Gt.
Definition key_lt (a b : key) : Prop := key_cmp a b = Lt.

Lemma key_gtb_lt a b : key_gtb a b = true <-> key_lt b a.
Proof.
  unfold key_gtb, key_lt. rewrite (g_anti _ good_key a b). destruct (key_cmp a b); cbn; split; congruence.
Qed.
Lemma key_ltb_lt a b : key_ltb a b = true <-> key_lt a b.
Proof. unfold key_ltb, key_lt. destruct (key_cmp a b); split; congruence. Qed.

Lemma key_lt_trans a b c : key_lt a b -> key_lt b c -> key_lt a c.
Proof. unfold key_lt. intros. eapply (g_trans _ good_key); eauto. Qed.
Lemma key_lt_irrefl a : ~ key_lt a a.
Proof. unfold key_lt. rewrite key_cmp_refl. discriminate. Qed.
Lemma key_le_cases a b : key_le a b -> a = b \/ key_lt a b.
Proof.
  unfold key_le, key_lt. destruct (key_cmp a b) eqn:E; intros H; try congruence; [left; apply key_cmp_eq; exact E|right; reflexivity].
Qed.
Lemma key_lt_le a b : key_lt a b -> key_le a b.
Proof. unfold key_lt, key_le. congruence. Qed.
Lemma key_le_lt_trans a b c : key_le a b -> key_lt b c -> key_lt a c.
Proof. intros H1 H2. destruct (key_le_cases _ _ H1) as [->|H]; [exact H2|eapply key_lt_trans; eauto]. Qed.
Lemma key_lt_le_trans a b c : key_lt a b -> key_le b c -> key_lt a c.
Proof. intros H1 H2. destruct (key_le_cases _ _ H2) as [<-|H]; [exact H1|eapply key_lt_trans; eauto]. Qed.
Lemma key_le_trans a b c : key_le a b -> key_le b c -> key_le a c.
Proof.
  intros H1 H2. destruct (key_le_cases _ _ H1) as [->|H]; [exact H2|apply key_lt_le; eapply key_lt_le_trans; eauto].
Qed.
Lemma key_le_refl a : key_le a a.
Proof. unfold key_le. rewrite key_cmp_refl. discriminate. Qed.
Lemma key_not_lt_le a b : ~ key_lt a b <-> key_le b a.
Proof.
  unfold key_lt, key_le. rewrite (g_anti _ good_key a b). destruct (key_cmp a b); cbn; split; congruence.
Qed.
Lemma key_total a b : key_lt a b \/ a = b \/ key_lt b a.
Proof.
  unfold key_lt. destruct (key_cmp a b) eqn:E; [right; left; apply key_cmp_eq; exact E|left; reflexivity|].
  right; right. apply (g_gt_lt _ good_key); exact E.
Qed.
Lemma nil_least k : key_le [] k.
Proof. unfold key_le, key_cmp. destruct k; cbn; discriminate. Qed.

Lemma good_compare_rule : good compare_rule.
Proof.
  unfold compare_rule.
  apply (good_lex (fun a b => Z.compare (group_index a) (group_index b))
                  (fun a b => lexc (key_cmp (r_gid a) (r_gid b)) (lexc (Z.compare (r_index a) (r_index b)) (key_cmp (r_id a) (r_id b))))).
  - apply (good_pull group_index Z.compare good_Z).
  - apply (good_lex (fun a b => key_cmp (r_gid a) (r_gid b))
                    (fun a b => lexc (Z.compare (r_index a) (r_index b)) (key_cmp (r_id a) (r_id b)))).
    + apply (good_pull r_gid key_cmp good_key).
    + apply (good_lex (fun a b => Z.compare (r_index a) (r_index b)) (fun a b => key_cmp (r_id a) (r_id b))).
      * apply (good_pull r_index Z.compare good_Z).
      * apply (good_pull r_id key_cmp good_key).
Qed.

Lemma compare_rule_eq_key a b : compare_rule a b = Eq -> rkey a = rkey b.
Proof.
  unfold compare_rule, rkey. intros H.
  apply lexc_eq in H as [_ H]. apply lexc_eq in H as [H1 H]. apply lexc_eq in H as [_ H2].
  apply key_cmp_eq in H1, H2. congruence.
Qed.

Definition rule_lt (a b : rule) : Prop := compare_rule a b = Lt.

Lemma sorted_unique {A} (c : A -> A -> comparison) (G : good c) (l1 : list A) :
  forall l2, StronglySorted (fun a b => c a b = Lt) l1 -> StronglySorted (fun a b => c a b = Lt) l2 ->
  (forall x, In x l1 <-> In x l2) -> l1 = l2.
Proof.
  induction l1 as [|x r IH]; intros l2 S1 S2 H.
  - destruct l2 as [|y r2]; [reflexivity|]. exfalso. apply (H y). left; reflexivity.
  - destruct l2 as [|y r2]; [exfalso; apply (H x); left; reflexivity|].
    inversion S1 as [|? ? S1' F1]; inversion S2 as [|? ? S2' F2]; subst.
    assert (x = y).
    { destruct (proj1 (H x) (or_introl eq_refl)) as [E|Hin]; [congruence|].
      destruct (proj2 (H y) (or_introl eq_refl)) as [E|Hin2]; [congruence|].
      rewrite Forall_forall in F1, F2. pose proof (F1 _ Hin2) as L1. pose proof (F2 _ Hin) as L2.
      rewrite (g_anti c G y x), L2 in L1. discriminate. }
    subst y. f_equal. apply IH; [assumption|assumption|].
    rewrite Forall_forall in F1, F2.
    intros z; split; intros Hz.
    + destruct (proj1 (H z) (or_intror Hz)) as [E|Hin]; [|exact Hin].
      subst z. pose proof (F1 _ Hz) as L. rewrite (g_refl c G) in L. discriminate.
    + destruct (proj2 (H z) (or_intror Hz)) as [E|Hin]; [|exact Hin].
      subst z. pose proof (F2 _ Hz) as L. rewrite (g_refl c G) in L. discriminate.
Qed.

Lemma insert_by_In {A} (c : A -> A -> comparison) x l : forall y, In y (insert_by c x l) <-> y = x \/ In y l.
Proof.
  induction l as [|z r IH]; intros y; cbn; [intuition|].
  destruct (c x z); cbn; rewrite ?IH; intuition.
Qed.
Lemma sort_by_In {A} (c : A -> A -> comparison) l : forall y, In y (sort_by c l) <-> In y l.
Proof.
  induction l as [|x r IH]; intros y; cbn; [tauto|]. rewrite insert_by_In, IH. intuition.
Qed.
Lemma insert_by_perm {A} (c : A -> A -> comparison) x l : Permutation (insert_by c x l) (x :: l).
Proof.
  induction l as [|z r IH]; cbn; [apply Permutation_refl|].
  destruct (c x z); try apply Permutation_refl;
    (eapply Permutation_trans; [apply perm_skip; exact IH|apply perm_swap]).
Qed.
Lemma sort_by_perm {A} (c : A -> A -> comparison) l : Permutation (sort_by c l) l.
Proof.
  induction l as [|x r IH]; cbn; [constructor|].
  eapply Permutation_trans; [apply insert_by_perm|apply perm_skip; exact IH].
Qed.

Definition le_of {A} (c : A -> A -> comparison) (a b : A) : Prop := c a b <> Gt.
Lemma insert_by_sorted {A} (c : A -> A -> comparison) (G : good c) x l :
  StronglySorted (le_of c) l -> StronglySorted (le_of c) (insert_by c x l).
Proof.
  induction 1 as [|z r S IH F]; cbn; [repeat constructor|].
  rewrite Forall_forall in F.
  destruct (c x z) eqn:E.
  - constructor; [exact IH|]. rewrite Forall_forall. intros y Hy. apply insert_by_In in Hy as [->|Hy]; [|auto].
    unfold le_of. rewrite (g_anti c G x z), E. discriminate.
  - constructor; [constructor; [exact S|rewrite Forall_forall; exact F]|].
    rewrite Forall_forall. intros y [->|Hy]; unfold le_of; [congruence|].
    specialize (F _ Hy). unfold le_of in F. intros Hgt.
    (* x < z <= y *) assert (c x y = Lt).
    { destruct (c z y) eqn:Ezy; try congruence.
      - rewrite <- (g_eq_r c G z y x Ezy). exact E.
      - eapply (g_trans c G); eauto. }
    congruence.
  - constructor; [exact IH|]. rewrite Forall_forall. intros y Hy. apply insert_by_In in Hy as [->|Hy]; [|auto].
    unfold le_of. rewrite (g_anti c G x z), E. discriminate.
Qed.
Lemma sort_by_sorted {A} (c : A -> A -> comparison) (G : good c) l : StronglySorted (le_of c) (sort_by c l).
Proof. induction l as [|x r IH]; cbn; [constructor|]. apply insert_by_sorted; assumption. Qed.

Lemma insert_rule_by r sr : insert_rule r sr = insert_by compare_rule r sr.
Proof.
  induction sr as [|x rest IH]; [reflexivity|]. cbn. rewrite (g_anti _ good_compare_rule x r).
  destruct (compare_rule x r); cbn; rewrite ?IH; reflexivity.
Qed.
Lemma insert_rule_In r sr : forall y, In y (insert_rule r sr) <-> y = r \/ In y sr.
Proof. rewrite insert_rule_by. apply insert_by_In. Qed.
Lemma insert_rule_perm r sr : Permutation (insert_rule r sr) (r :: sr).
Proof. rewrite insert_rule_by. apply insert_by_perm. Qed.
Lemma insert_rule_sorted r sr :
  StronglySorted rule_lt sr -> (forall x, In x sr -> rkey x <> rkey r) -> StronglySorted rule_lt (insert_rule r sr).
Proof.
  induction 1 as [|x rest S IH F]; intros Hk; cbn; [repeat constructor|].
  rewrite Forall_forall in F.
  assert (Hx : compare_rule x r <> Eq).
  { intros E. apply compare_rule_eq_key in E. apply (Hk x); [left; reflexivity|exact E]. }
  destruct (compare_rule x r) eqn:E; try congruence.
  - (* x < r *)
    constructor; [apply IH; intros y Hy; apply Hk; right; exact Hy|].
    rewrite Forall_forall. intros y Hy. apply insert_rule_In in Hy as [->|Hy]; [exact E|auto].
  - (* x > r *)
    assert (Erx : rule_lt r x) by (apply (g_gt_lt _ good_compare_rule); exact E).
    constructor; [constructor; [exact S|rewrite Forall_forall; exact F]|].
    rewrite Forall_forall. intros y [->|Hy]; [exact Erx|].
    unfold rule_lt in *. eapply (g_trans _ good_compare_rule); [exact Erx|apply F; exact Hy].
Qed.

Lemma delete_rule_In r sr : NoDup (map rkey sr) -> forall y, In y (delete_rule r sr) <-> In y sr /\ rkey y <> rkey r.
Proof.
  induction sr as [|x rest IH]; intros Hnd y; cbn; [tauto|].
  cbn in Hnd. inversion Hnd as [|? ? Hn Hr]; subst.
  destruct (pair_eqb (rkey x) (rkey r)) eqn:E.
  - apply pair_eqb_eq in E. split.
    + intros Hy. split; [right; exact Hy|]. intros Ey. apply Hn. rewrite E, <- Ey. apply in_map; exact Hy.
    + intros [[->|Hy] Hne]; [congruence|exact Hy].
  - assert (Ne : rkey x <> rkey r) by (intros H; apply pair_eqb_eq in H; congruence).
    cbn. rewrite (IH Hr). split.
    + intros [->|[Hy Hne]]; auto.
    + intros [[->|Hy] Hne]; auto.
Qed.
Lemma delete_rule_sublist r sr : forall y, In y (delete_rule r sr) -> In y sr.
Proof.
  induction sr as [|x rest IH]; intros y; cbn; [tauto|].
  destruct (pair_eqb (rkey x) (rkey r)); cbn; [auto|]. intros [->|H]; auto.
Qed.
Lemma delete_rule_nodup r sr : NoDup (map rkey sr) -> NoDup (map rkey (delete_rule r sr)).
Proof.
  induction sr as [|x rest IH]; intros Hnd; cbn; [constructor|].
  cbn in Hnd. inversion Hnd as [|? ? Hn Hr]; subst.
  destruct (pair_eqb (rkey x) (rkey r)); [exact Hr|]. cbn. constructor; [|auto].
  intros Hin. apply Hn. apply in_map_iff in Hin as [y [E Hy]]. apply in_map_iff. exists y. split; [exact E|].
  eapply delete_rule_sublist; exact Hy.
Qed.
Lemma delete_rule_sorted r sr : StronglySorted rule_lt sr -> StronglySorted rule_lt (delete_rule r sr).
Proof.
  induction 1 as [|x rest S IH F]; cbn; [constructor|].
  destruct (pair_eqb (rkey x) (rkey r)); [exact S|]. constructor; [exact IH|].
  rewrite Forall_forall in *. intros y Hy. apply F. eapply delete_rule_sublist; exact Hy.
Qed.

Definition start_pt (r : rule) : point := Point TStart (r_start r) r.
Definition end_pt (r : rule) : point := Point TEnd (r_end r) r.
Lemma start_pt_inj x y : start_pt x = start_pt y <-> y = x.
Proof. split; [intros E; inversion E; reflexivity|intros ->; reflexivity]. Qed.
Lemma end_pt_inj x y : end_pt x = end_pt y <-> y = x.
Proof. split; [intros E; inversion E; reflexivity|intros ->; reflexivity]. Qed.
Lemma start_pt_not_end_pt x y : start_pt x <> end_pt y.
Proof. discriminate. Qed.

Definition run_points (L : list point) (sr : list rule) : list rule := fold_left (fun s p => apply_point p s) L sr.

Record wf_rules (rules : list rule) : Prop := {
  wf_nodup : NoDup (map rkey rules);
  wf_range : forall r, In r rules -> r_end r = [] \/ key_lt (r_start r) (r_end r)
}.

Lemma in_points_of rules p :
  In p (points_of rules) <->
  In (p_rule p) rules /\ (p = start_pt (p_rule p) \/ (p = end_pt (p_rule p) /\ r_end (p_rule p) <> [])).
Proof.
  unfold points_of. rewrite in_flat_map. split.
  - intros [r [Hr Hp]]. destruct Hp as [Hp|Hp].
    + subst p. cbn. split; [exact Hr|left; reflexivity].
    + destruct (r_end r) eqn:E; cbn in Hp; [destruct Hp|]. destruct Hp as [Hp|[]]. subst p. cbn.
      split; [exact Hr|right]. unfold end_pt. rewrite E. split; [reflexivity|discriminate].
  - intros [Hr [Hp|[Hp Hne]]]; exists (p_rule p); split; try exact Hr.
    + left. symmetry. exact Hp.
    + right. destruct (r_end (p_rule p)) eqn:E; [congruence|]. cbn. left. rewrite Hp at 2. unfold end_pt. rewrite E. reflexivity.
Qed.

Lemma NoDup_app_intro {A} (a b : list A) :
  NoDup a -> NoDup b -> (forall x, In x a -> In x b -> False) -> NoDup (a ++ b).
Proof.
  induction a as [|x r IH]; cbn; intros Ha Hb H; [exact Hb|].
  inversion Ha as [|? ? Hn Hr]; subst. constructor.
  - intros Hin. apply in_app_or in Hin as [Hin|Hin]; [auto|]. apply (H x); [left; reflexivity|exact Hin].
  - apply IH; [exact Hr|exact Hb|]. intros y Hy. apply H. right; exact Hy.
Qed.

Lemma points_nodup rules : NoDup (map rkey rules) -> NoDup (points_of rules).
Proof.
  induction rules as [|r rest IH]; cbn; intros H; [constructor|].
  inversion H as [|? ? Hn Hr]; subst. specialize (IH Hr).
  assert (Hnot : forall p, In p (points_of rest) -> p_rule p <> r).
  { intros p Hp E. apply in_points_of in Hp as [Hin _]. apply Hn. rewrite <- E. apply in_map; exact Hin. }
  constructor.
  - intros Hin. apply in_app_or in Hin as [Hin|Hin].
    + destruct (r_end r); cbn in Hin; [destruct Hin|]. destruct Hin as [Hin|[]]. discriminate.
    + apply (Hnot _ Hin). reflexivity.
  - apply NoDup_app_intro; [| exact IH |].
    + destruct (r_end r); cbn; repeat constructor. intros [].
    + intros p Hp Hq. destruct (r_end r); cbn in Hp; [destruct Hp|]. destruct Hp as [Hp|[]]. subst p.
      apply (Hnot _ Hq). reflexivity.
Qed.

Lemma ssorted_app_rel {A} (R : A -> A -> Prop) l1 : forall l2,
  StronglySorted R (l1 ++ l2) -> forall a b, In a l1 -> In b l2 -> R a b.
Proof.
  induction l1 as [|x r IH]; intros l2 H a b Ha Hb; [destruct Ha|].
  cbn in H. inversion H as [|? ? S F]; subst. rewrite Forall_forall in F.
  destruct Ha as [->|Ha]; [apply F; apply in_or_app; right; exact Hb|]. eapply IH; eauto.
Qed.
Lemma ssorted_app_r {A} (R : A -> A -> Prop) l1 : forall l2, StronglySorted R (l1 ++ l2) -> StronglySorted R l2.
Proof. induction l1 as [|x r IH]; intros l2 H; [exact H|]. cbn in H. inversion H; subst. apply IH; assumption. Qed.

Lemma covers_iff y k :
  covers y k = true <-> key_le (r_start y) k /\ ~ (r_end y <> [] /\ key_le (r_end y) k).
Proof.
  unfold covers. rewrite andb_true_iff, orb_true_iff, negb_true_iff.
  assert (G : key_gtb (r_start y) k = false <-> key_le (r_start y) k).
  { unfold key_gtb, key_le. destruct (key_cmp (r_start y) k); split; congruence. }
  rewrite G, key_ltb_lt. split.
  - intros [H1 [H2|H2]]; split; try exact H1.
    + destruct (r_end y); [intros [X _]; congruence|discriminate].
    + intros [_ H3]. apply key_not_lt_le in H3. contradiction.
  - intros [H1 H2]. split; [exact H1|].
    destruct (r_end y) as [|b e] eqn:E; [left; reflexivity|right].
    destruct (key_total k (b :: e)) as [H|[H|H]]; [exact H| |].
    + exfalso. apply H2. split; [discriminate|]. rewrite <- H. apply key_le_refl.
    + exfalso. apply H2. split; [discriminate|apply key_lt_le; exact H].
Qed.

(* the sweep emits a range at a point unless the next point has the same key *)
Definition emits (p : point) (rest : list point) : bool :=
  match rest with [] => true | q :: _ => negb (key_eqb (p_key p) (p_key q)) end.

Lemma sweep_cons p rest sr :
  sweep (p :: rest) sr =
  let sr' := apply_point p sr in
  if emits p rest then
    match sr' with
    | [] => inl ENoRuleForRange
    | _ => match check_apply_rules (prepare_rules_for_apply sr') with
           | Some e => inl e
           | None => match sweep rest sr' with
                     | inl e => inl e
                     | inr l => inr (Range (p_key p) sr' (prepare_rules_for_apply sr') :: l)
                     end
           end
    end
  else sweep rest sr'.
Proof. reflexivity. Qed.

Lemma emits_gt p rest :
  StronglySorted (fun a b => key_le (p_key a) (p_key b)) (p :: rest) -> emits p rest = true ->
  forall q, In q rest -> key_lt (p_key p) (p_key q).
Proof.
  intros S Em. destruct rest as [|q0 rest']; [intros ? []|]. cbn in Em. apply negb_true_iff in Em.
  inversion S as [|? ? S' F]; subst. rewrite Forall_forall in F.
  assert (Hpq : key_lt (p_key p) (p_key q0)).
  { destruct (key_le_cases _ _ (F q0 (or_introl eq_refl))) as [Heq|Hlt]; [|exact Hlt].
    apply key_eqb_eq in Heq. congruence. }
  intros z [->|Hz]; [exact Hpq|].
  inversion S' as [|? ? _ F']; subst. rewrite Forall_forall in F'.
  eapply key_lt_le_trans; [exact Hpq|apply F'; exact Hz].
Qed.
Lemma emits_not p rest : emits p rest = false -> exists q rest', rest = q :: rest' /\ p_key p = p_key q.
Proof.
  destruct rest as [|q rest']; [discriminate|]. cbn. intros H. apply negb_false_iff, key_eqb_eq in H. eauto.
Qed.

Fixpoint emit_keys (R : list point) : list key :=
  match R with
  | [] => []
  | p :: rest => if emits p rest then p_key p :: emit_keys rest else emit_keys rest
  end.

Lemma emit_keys_In R : forall k, In k (emit_keys R) <-> exists p, In p R /\ p_key p = k.
Proof.
  induction R as [|p rest IH]; intros k; [cbn; split; [tauto|intros [? [[] _]]]|].
  cbn [emit_keys]. destruct (emits p rest) eqn:Em.
  - cbn [In]. rewrite IH. split.
    + intros [<-|[x [Hx Ek]]]; [exists p; split; [left; reflexivity|reflexivity]|exists x; split; [right; exact Hx|exact Ek]].
    + intros [x [[->|Hx] Ek]]; [left; exact Ek|right; exists x; auto].
  - destruct (emits_not p rest Em) as (q & rest' & -> & Epq). rewrite IH. split.
    + intros [x [Hx Ek]]. exists x. split; [right; exact Hx|exact Ek].
    + intros [x [[->|Hx] Ek]]; [exists q; split; [left; reflexivity|congruence]|exists x; auto].
Qed.

Lemma emit_keys_sorted R :
  StronglySorted (fun a b => key_le (p_key a) (p_key b)) R -> StronglySorted key_lt (emit_keys R).
Proof.
  induction R as [|p rest IH]; intros S; [constructor|].
  pose proof S as S0. inversion S as [|? ? S' F]; subst. specialize (IH S').
  cbn [emit_keys]. destruct (emits p rest) eqn:Em; [|exact IH].
  constructor; [exact IH|]. rewrite Forall_forall. intros k Hk. apply emit_keys_In in Hk as [x [Hx <-]].
  exact (emits_gt p rest S0 Em x Hx).
Qed.

Section Sweep.
  Variables (rules : list rule) (pts : list point).
  Hypothesis Hwf : wf_rules rules.
  Hypothesis Hmem : forall p, In p pts <-> In p (points_of rules).
  Hypothesis Hnd : NoDup pts.
  Hypothesis Hsorted : StronglySorted (fun a b => key_le (p_key a) (p_key b)) pts.

  Lemma rule_of_key x y : In x rules -> In y rules -> rkey x = rkey y -> x = y.
  Proof.
    intros Hx Hy E. pose proof (wf_nodup _ Hwf) as N. clear -Hx Hy E N.
    induction rules as [|z r IH]; [destruct Hx|]. cbn in N. inversion N as [|? ? Hn Hr]; subst.
    destruct Hx as [->|Hx], Hy as [->|Hy]; auto.
    - exfalso. apply Hn. rewrite E. apply in_map; exact Hy.
    - exfalso. apply Hn. rewrite <- E. apply in_map; exact Hx.
  Qed.

  Lemma start_in_pts y : In (start_pt y) pts <-> In y rules.
  Proof.
    rewrite Hmem, in_points_of. cbn. split; [tauto|]. intros H. split; [exact H|left; reflexivity].
  Qed.
  Lemma end_in_pts y : In (end_pt y) pts <-> In y rules /\ r_end y <> [].
  Proof.
    rewrite Hmem, in_points_of. cbn. split.
    - intros [H [E|[_ Hne]]]; [discriminate|tauto].
    - intros [H Hne]. split; [exact H|right; split; [reflexivity|exact Hne]].
  Qed.

  (* the sorted-rules slice after the points L, for every prefix L of the sorted point list *)
  Record prefix_inv (L : list point) : Prop := {
    pi_nodup : NoDup (map rkey (run_points L []));
    pi_sorted : StronglySorted rule_lt (run_points L []);
    pi_mem : forall y, In y (run_points L []) <-> In (start_pt y) L /\ ~ In (end_pt y) L
  }.

  Lemma prefix_inv_holds L : forall R, L ++ R = pts -> prefix_inv L.
  Proof.
    induction L as [|p L IH] using rev_ind; intros R E.
    - constructor; cbn; [constructor|constructor|tauto].
    - rewrite <- app_assoc in E. cbn in E. specialize (IH _ E). destruct IH as [I1 I2 I3].
      assert (Erun : run_points (L ++ [p]) [] = apply_point p (run_points L [])).
      { unfold run_points. rewrite fold_left_app. reflexivity. }
      set (S := run_points L []) in *.
      assert (Hp : In p pts) by (rewrite <- E; apply in_or_app; right; left; reflexivity).
      assert (HLp : forall q, In q L -> key_le (p_key q) (p_key p)).
      { intros q Hq. rewrite <- E in Hsorted.
        apply (ssorted_app_rel (fun a b : point => key_le (p_key a) (p_key b)) L (p :: R) Hsorted q p Hq). left; reflexivity. }
      assert (HpL : ~ In p L).
      { rewrite <- E in Hnd. apply NoDup_remove_2 in Hnd. intros H. apply Hnd. apply in_or_app. left; exact H. }
      assert (HLpts : forall q, In q L -> In q pts) by (intros q Hq; rewrite <- E; apply in_or_app; left; exact Hq).
      pose proof (proj1 (Hmem p) Hp) as Hpo. apply in_points_of in Hpo as [Hr Hshape].
      assert (Hkey : forall y, In (start_pt y) L -> rkey y = rkey (p_rule p) -> y = p_rule p).
      { intros y Hy. apply rule_of_key; [apply start_in_pts, HLpts, Hy|exact Hr]. }
      set (r := p_rule p) in *. destruct Hshape as [Hs|[He Hne]].
      + (* a start point: insertRule; the end point of r cannot have come before *)
        assert (Erun' : run_points (L ++ [p]) [] = insert_rule r S).
        { rewrite Erun. unfold apply_point. rewrite Hs. reflexivity. }
        assert (Hfresh : forall x, In x S -> rkey x <> rkey r).
        { intros x Hx Ek. apply I3 in Hx as [Hx _]. apply HpL. rewrite Hs, <- (Hkey x Hx Ek). exact Hx. }
        assert (Hend : ~ In (end_pt r) L).
        { intros Hin. pose proof (HLp _ Hin) as Hle. rewrite Hs in Hle. cbn in Hle.
          destruct (wf_range _ Hwf r Hr) as [En|Hlt]; [apply HLpts, end_in_pts in Hin as [_ Hne]; congruence|].
          apply (key_lt_irrefl (r_start r)). eapply key_lt_le_trans; eauto. }
        constructor; rewrite Erun'.
        * eapply Permutation_NoDup; [apply Permutation_sym, Permutation_map, insert_rule_perm|].
          cbn. constructor; [|exact I1]. intros Hin. apply in_map_iff in Hin as [x [Ek Hx]]. apply (Hfresh x Hx Ek).
        * apply insert_rule_sorted; assumption.
        * intros y. rewrite insert_rule_In, I3, !in_app_iff, Hs. cbn [In].
          pose proof (start_pt_inj r y) as Hsame. pose proof (start_pt_not_end_pt r y) as Hdiff.
          rewrite Hs in HpL. split; [intros [->|[H1 H2]]|]; tauto.
      + (* an end point: deleteRule *)
        assert (Erun' : run_points (L ++ [p]) [] = delete_rule r S).
        { rewrite Erun. unfold apply_point. rewrite He. reflexivity. }
        constructor; rewrite Erun'.
        * apply delete_rule_nodup; exact I1.
        * apply delete_rule_sorted; exact I2.
        * intros y. rewrite (delete_rule_In r S I1), I3, !in_app_iff, He. cbn [In].
          pose proof (end_pt_inj r y) as Hsame. pose proof (not_eq_sym (start_pt_not_end_pt y r)) as Hdiff.
          pose proof (Hkey y) as Hk. split; [intros [[H1 H2] H3]|intros [[H1|[H1|[]]] H2]]; [| |tauto].
          -- split; [tauto|]. intros [H|[H|[]]]; [tauto|]. apply H3. f_equal. tauto.
          -- repeat split; [exact H1|tauto|]. intros Ek. apply H2. right; left. f_equal. symmetry. exact (Hk H1 Ek).
  Qed.

  (* where the sweep emits, all points with key <= the key of p are done and none with a greater key: the
     slice is the sorted list of the rules covering that key *)
  Lemma slice_at_emit L p rest :
    L ++ p :: rest = pts -> emits p rest = true ->
    StronglySorted rule_lt (run_points (L ++ [p]) []) /\
    (forall y, In y (run_points (L ++ [p]) []) <-> In y rules /\ covers y (p_key p) = true).
  Proof.
    intros E Em. assert (E' : (L ++ [p]) ++ rest = pts) by (rewrite <- app_assoc; exact E).
    destruct (prefix_inv_holds _ rest E') as [_ I2 I3]. split; [exact I2|].
    pose proof Hsorted as Hs. rewrite <- E in Hs.
    assert (HL : forall q, In q (L ++ [p]) -> key_le (p_key q) (p_key p)).
    { intros q Hq. apply in_app_or in Hq as [Hq|[->|[]]]; [|apply key_le_refl].
      apply (ssorted_app_rel _ L (p :: rest) Hs q p Hq). left; reflexivity. }
    assert (HR : forall q, In q rest -> key_lt (p_key p) (p_key q)).
    { apply (emits_gt p rest); [eapply ssorted_app_r; exact Hs|exact Em]. }
    assert (Hin : forall q, In q pts -> In q (L ++ [p]) \/ In q rest) by (intros q Hq; rewrite <- E' in Hq; apply in_app_or; exact Hq).
    assert (HLpts : forall q, In q (L ++ [p]) -> In q pts) by (intros q Hq; rewrite <- E'; apply in_or_app; left; exact Hq).
    intros y. rewrite I3, covers_iff. split.
    - intros [H1 H2]. pose proof (proj1 (start_in_pts y) (HLpts _ H1)) as Hy. split; [exact Hy|].
      split; [exact (HL _ H1)|]. intros [Hne Hle]. apply H2.
      destruct (Hin (end_pt y)) as [H|H]; [apply end_in_pts; tauto|exact H|].
      apply HR in H. cbn in H. exfalso. eapply key_lt_irrefl. eapply key_lt_le_trans; eauto.
    - intros [Hy [H1 H2]]. split.
      + destruct (Hin (start_pt y)) as [H|H]; [apply start_in_pts; exact Hy|exact H|].
        apply HR in H. cbn in H. exfalso. eapply key_lt_irrefl. eapply key_lt_le_trans; eauto.
      + intros H. apply H2. split; [apply (end_in_pts y), HLpts, H|exact (HL _ H)].
  Qed.

  Definition range_ok (g : range) : Prop :=
    StronglySorted rule_lt (rg_rules g) /\
    (forall y, In y (rg_rules g) <-> In y rules /\ covers y (rg_start g) = true) /\
    rg_rules g <> [] /\
    rg_apply g = prepare_rules_for_apply (rg_rules g) /\
    check_apply_rules (rg_apply g) = None.

  Lemma run_points_snoc L p : apply_point p (run_points L []) = run_points (L ++ [p]) [].
  Proof. unfold run_points. rewrite fold_left_app. reflexivity. Qed.

  Lemma sweep_gen R : forall L rl,
    L ++ R = pts -> sweep R (run_points L []) = inr rl ->
    Forall range_ok rl /\ map rg_start rl = emit_keys R.
  Proof.
    induction R as [|p rest IH]; intros L rl E H.
    - cbn in H. injection H as <-. split; [constructor|reflexivity].
    - assert (E' : (L ++ [p]) ++ rest = pts) by (rewrite <- app_assoc; exact E).
      rewrite sweep_cons, run_points_snoc in H. cbv zeta in H. cbn [emit_keys].
      destruct (emits p rest) eqn:Em; [|exact (IH _ _ E' H)].
      destruct (slice_at_emit L p rest E Em) as [I2 I3].
      destruct (run_points (L ++ [p]) []) as [|x xs] eqn:Esr; [discriminate|]. rewrite <- Esr in *.
      destruct (check_apply_rules (prepare_rules_for_apply (run_points (L ++ [p]) []))) eqn:Ec; [discriminate|].
      destruct (sweep rest (run_points (L ++ [p]) [])) as [e|l] eqn:Es; [discriminate|].
      injection H as <-. destruct (IH _ _ E' Es) as [F Ek].
      split; [|cbn [map rg_start]; rewrite Ek; reflexivity]. constructor; [|exact F].
      unfold range_ok. cbn [rg_rules rg_start rg_apply].
      split; [exact I2|]. split; [exact I3|]. split; [rewrite Esr; discriminate|]. split; [reflexivity|exact Ec].
  Qed.

  (* a boundary: a start key or a non-empty end key of a configured rule *)
  Definition boundary (k : key) : Prop :=
    exists y, In y rules /\ (k = r_start y \/ (k = r_end y /\ r_end y <> [])).

  Lemma boundary_iff_point k : boundary k <-> exists p, In p pts /\ p_key p = k.
  Proof.
    split.
    - intros [y [Hy [->|[-> Hne]]]].
      + exists (start_pt y). split; [apply start_in_pts; exact Hy|reflexivity].
      + exists (end_pt y). split; [apply end_in_pts; tauto|reflexivity].
    - intros [p [Hp <-]]. apply Hmem, in_points_of in Hp as [Hr [Hs|[He Hne]]]; exists (p_rule p); split; try exact Hr.
      + left. rewrite Hs at 1. reflexivity.
      + right. split; [rewrite He at 1; reflexivity|exact Hne].
  Qed.

  (* an index of the rule set: one range per boundary, in ascending order, each with the rules covering its start *)
  Definition indexes (rl : list range) : Prop :=
    Forall range_ok rl /\ StronglySorted key_lt (map rg_start rl) /\
    (forall k, In k (map rg_start rl) <-> boundary k) /\ boundary [].

  Theorem sweep_ranges rl :
    sweep pts [] = inr rl ->
    Forall range_ok rl /\ StronglySorted key_lt (map rg_start rl) /\ (forall k, In k (map rg_start rl) <-> boundary k).
  Proof.
    intros H. destruct (sweep_gen pts [] rl eq_refl H) as [F E]. split; [exact F|]. rewrite E. split.
    - apply emit_keys_sorted; exact Hsorted.
    - intros k. rewrite emit_keys_In, boundary_iff_point. tauto.
  Qed.

  (* a range is determined by its start key, hence an index by its rule set *)
  Lemma range_ok_unique g1 g2 : range_ok g1 -> range_ok g2 -> rg_start g1 = rg_start g2 -> g1 = g2.
  Proof.
    intros (S1 & M1 & _ & A1 & _) (S2 & M2 & _ & A2 & _) E.
    assert (R : rg_rules g1 = rg_rules g2).
    { apply (sorted_unique compare_rule good_compare_rule); [exact S1|exact S2|]. intros y. rewrite M1, M2, E. tauto. }
    destruct g1, g2; cbn in *. subst. reflexivity.
  Qed.
  Lemma ranges_unique rl1 : forall rl2,
    Forall range_ok rl1 -> Forall range_ok rl2 -> map rg_start rl1 = map rg_start rl2 -> rl1 = rl2.
  Proof.
    induction rl1 as [|g1 r1 IH]; intros [|g2 r2] F1 F2 E; try discriminate; [reflexivity|].
    inversion F1; inversion F2; subst. injection E as E0 E1. f_equal; [apply range_ok_unique|apply IH]; assumption.
  Qed.
  Theorem indexes_unique rl1 rl2 : indexes rl1 -> indexes rl2 -> rl1 = rl2.
  Proof.
    intros (O1 & S1 & K1 & _) (O2 & S2 & K2 & _). apply ranges_unique; [exact O1|exact O2|].
    apply (sorted_unique key_cmp good_key); [exact S1|exact S2|]. intros k. rewrite K1, K2. tauto.
  Qed.

  (* where an index exists the sweep does not fail: at an emission point its slice is a range of the index *)
  Lemma sweep_total rl0 : indexes rl0 -> forall R L, L ++ R = pts -> exists rl, sweep R (run_points L []) = inr rl.
  Proof.
    intros (O0 & _ & K0 & _). induction R as [|p rest IH]; intros L E; [exists []; reflexivity|].
    assert (E' : (L ++ [p]) ++ rest = pts) by (rewrite <- app_assoc; exact E).
    rewrite sweep_cons, run_points_snoc. cbv zeta. destruct (IH _ E') as [rl' Hrl'].
    destruct (emits p rest) eqn:Em; [|exists rl'; exact Hrl'].
    destruct (slice_at_emit L p rest E Em) as [I2 I3].
    assert (Hb : boundary (p_key p)).
    { apply boundary_iff_point. exists p. split; [rewrite <- E; apply in_or_app; right; left; reflexivity|reflexivity]. }
    apply K0 in Hb. apply in_map_iff in Hb as [g [Eg Hg]].
    rewrite Forall_forall in O0. destruct (O0 g Hg) as (Gs & Gm & Gne & Ga & Gc).
    assert (Esr : run_points (L ++ [p]) [] = rg_rules g).
    { apply (sorted_unique compare_rule good_compare_rule); [exact I2|exact Gs|]. intros y. rewrite I3, Gm, Eg. tauto. }
    rewrite Esr, <- Ga, Gc, <- Esr, Hrl'. destruct (run_points (L ++ [p]) []); [symmetry in Esr; contradiction|]. eexists. reflexivity.
  Qed.
End Sweep.

Lemma search_gt_spec k rl : forall before,
  exists pre f, search_gt k before rl = (rev pre ++ before, f) /\ rl = pre ++ f /\
                (forall g, In g pre -> key_le (rg_start g) k) /\
                (match f with [] => True | g :: _ => key_lt k (rg_start g) end).
Proof.
  induction rl as [|g rest IH]; intros before.
  - exists [], []. cbn. repeat split. intros g [].
  - cbn [search_gt]. destruct (key_gtb (rg_start g) k) eqn:E.
    + exists [], (g :: rest). cbn. repeat split; [intros x []|apply key_gtb_lt; exact E].
    + destruct (IH (g :: before)) as (pre & f & E1 & E2 & H1 & H2).
      exists (g :: pre), f. rewrite E1. cbn [rev]. rewrite <- app_assoc. cbn. repeat split; [congruence| |exact H2].
      intros x [<-|Hx]; [|auto].
      unfold key_le. unfold key_gtb in E. destruct (key_cmp (rg_start g) k); congruence.
Qed.

Section Lookup.
  Variables (rules : list rule) (rl : list range).
  Hypothesis Hidx : indexes rules rl.

  (* sort.Search cuts the ranges into those that start at or before k and those that start after it *)
  Lemma search_gt_split k :
    exists pre f, search_gt k [] rl = (rev pre, f) /\ rl = pre ++ f /\
                  (forall g, In g pre -> key_le (rg_start g) k) /\ (forall g, In g f -> key_lt k (rg_start g)) /\
                  StronglySorted key_lt (map rg_start f).
  Proof.
    destruct Hidx as (_ & Hasc & _). destruct (search_gt_spec k rl []) as (pre & f & E1 & E2 & H1 & H2).
    rewrite app_nil_r in E1. exists pre, f.
    assert (Sf : StronglySorted key_lt (map rg_start f)).
    { rewrite E2, map_app in Hasc. eapply ssorted_app_r; exact Hasc. }
    repeat split; try assumption.
    destruct f as [|g f']; [intros ? []|]. intros x [->|Hx]; [exact H2|]. eapply key_lt_trans; [exact H2|].
    cbn in Sf. inversion Sf as [|? ? _ F]; subst. rewrite Forall_forall in F. apply F, in_map, Hx.
  Qed.

  Lemma search_gt_after k :
    StronglySorted key_lt (map rg_start (snd (search_gt k [] rl))) /\
    (forall b, In b (map rg_start (snd (search_gt k [] rl))) <-> boundary rules b /\ key_lt k b).
  Proof.
    destruct (search_gt_split k) as (pre & f & -> & E & H1 & H2 & Sf). cbn [snd]. split; [exact Sf|].
    destruct Hidx as (_ & _ & Hbnd & _). intros b. rewrite <- Hbnd, E, map_app, in_app_iff. split.
    - intros Hb. split; [right; exact Hb|]. apply in_map_iff in Hb as [x [<- Hx]]. apply H2; exact Hx.
    - intros [[Hb|Hb] Hs]; [|exact Hb]. exfalso. apply in_map_iff in Hb as [x [<- Hx]].
      eapply key_lt_irrefl, key_lt_le_trans; [exact Hs|apply H1; exact Hx].
  Qed.

  (* ... and the last range before the cut, if there is one, is the segment of k *)
  Inductive located (k : key) : list range -> Prop :=
  | loc_below : (forall g, In g rl -> key_lt k (rg_start g)) -> located k []
  | loc_in g before :
      key_le (rg_start g) k -> range_ok rules g ->
      (forall b, boundary rules b -> key_le b (rg_start g) \/ key_lt k b) -> located k (g :: before).

  Lemma search_gt_located k : located k (fst (search_gt k [] rl)).
  Proof.
    destruct (search_gt_split k) as (pre & f & -> & E & H1 & H2 & _). cbn [fst].
    destruct Hidx as (Hok & Hasc & Hbnd & _).
    destruct pre as [|g0 pre0 _] using rev_ind; [cbn in E; subst f; apply loc_below; exact H2|].
    rewrite rev_app_distr. cbn [rev app]. rewrite <- app_assoc in E. cbn [app] in E.
    rewrite Forall_forall in Hok.
    apply loc_in; [apply H1, in_or_app; right; left; reflexivity|apply Hok; rewrite E; apply in_or_app; right; left; reflexivity|].
    intros b Hb. apply Hbnd, in_map_iff in Hb as [x [<- Hx]]. rewrite E in Hx.
    apply in_app_or in Hx as [Hx|[<-|Hx]]; [left|left; apply key_le_refl|right; apply H2; exact Hx].
    rewrite E, map_app in Hasc. apply key_lt_le.
    apply (ssorted_app_rel key_lt _ _ Hasc); [apply in_map; exact Hx|left; reflexivity].
  Qed.

  Lemma covers_same_segment k g y :
    key_le (rg_start g) k -> (forall b, boundary rules b -> key_le b (rg_start g) \/ key_lt k b) ->
    In y rules -> covers y k = covers y (rg_start g).
  Proof.
    intros Hg Hseg Hy.
    assert (Hs : boundary rules (r_start y)) by (exists y; auto).
    assert (Iff : covers y k = true <-> covers y (rg_start g) = true).
    { rewrite !covers_iff. split.
      - intros [A B]. split.
        + destruct (Hseg _ Hs) as [H|H]; [exact H|].
          exfalso. eapply key_lt_irrefl. eapply key_lt_le_trans; eauto.
        + intros [Hne Hle]. apply B. split; [exact Hne|eapply key_le_trans; eauto].
      - intros [A B]. split; [eapply key_le_trans; eauto|].
        intros [Hne Hle]. apply B. split; [exact Hne|].
        assert (He : boundary rules (r_end y)) by (exists y; auto).
        destruct (Hseg _ He) as [H|H]; [exact H|].
        exfalso. eapply key_lt_irrefl. eapply key_lt_le_trans; eauto. }
    destruct (covers y k), (covers y (rg_start g)); try reflexivity; [symmetry|]; apply Iff; reflexivity.
  Qed.

  (* GetRulesByKey: exactly the configured rules whose range contains the key, in compareRule order *)
  Theorem rules_by_key_exact k :
    StronglySorted rule_lt (get_rules_by_key rl k) /\
    (forall y, In y (get_rules_by_key rl k) <-> In y rules /\ covers y k = true).
  Proof.
    unfold get_rules_by_key. destruct (search_gt_located k) as [Hall|g before Hg (S & M & _) Hseg].
    - (* k is below every boundary: nothing covers it *)
      split; [constructor|]. intros y. split; [intros []|]. intros [Hy Hc]. apply covers_iff in Hc as [Hc _].
      destruct Hidx as (_ & _ & Hbnd & _).
      assert (Hs : boundary rules (r_start y)) by (exists y; auto).
      apply Hbnd, in_map_iff in Hs as [x [Ex Hx]]. apply Hall in Hx. rewrite Ex in Hx.
      eapply key_lt_irrefl. eapply key_lt_le_trans; eauto.
    - split; [exact S|]. intros y. rewrite M. split; intros [Hy Hc]; (split; [exact Hy|]).
      + rewrite (covers_same_segment k g y Hg Hseg Hy). exact Hc.
      + rewrite <- (covers_same_segment k g y Hg Hseg Hy). exact Hc.
  Qed.

  (* the first boundary is the empty key, so every key lies in a segment: no key is left without a valid rule set *)
  Theorem accepted_covers_every_key k :
    get_rules_by_key rl k <> [] /\ check_apply_rules (prepare_rules_for_apply (get_rules_by_key rl k)) = None.
  Proof.
    unfold get_rules_by_key. destruct (search_gt_located k) as [Hall|g before Hg (_ & _ & Hne & Ha & Hc) _].
    - exfalso. destruct Hidx as (_ & _ & Hbnd & B0). apply Hbnd, in_map_iff in B0 as [x [Ex Hx]]. apply Hall in Hx.
      rewrite Ex in Hx. eapply key_lt_irrefl. eapply key_lt_le_trans; [exact Hx|apply nil_least].
    - split; [exact Hne|]. rewrite <- Ha. exact Hc.
  Qed.

  (* GetSplitKeys: exactly the boundaries strictly inside (s, e), ascending *)
  Lemma take_split_spec e l :
    StronglySorted key_lt (map rg_start l) ->
    StronglySorted key_lt (take_split e l) /\
    (forall k, In k (take_split e l) <-> In k (map rg_start l) /\ (e = [] \/ key_lt k e)).
  Proof.
    induction l as [|g rest IH]; intros S; cbn [take_split map]; [split; [constructor|cbn; tauto]|].
    cbn in S. inversion S as [|? ? S' F]; subst. rewrite Forall_forall in F. destruct (IH S') as [I1 I2].
    destruct (is_nil e || key_ltb (rg_start g) e) eqn:C.
    - assert (C' : e = [] \/ key_lt (rg_start g) e).
      { apply orb_true_iff in C as [C|C]; [left; destruct e; [reflexivity|discriminate]|right; apply key_ltb_lt; exact C]. }
      split.
      + constructor; [exact I1|]. rewrite Forall_forall. intros k Hk. apply I2 in Hk as [Hk _]. apply F; exact Hk.
      + intros k. cbn [In]. rewrite I2. split; [intros [<-|[A B]]; auto|intros [[<-|A] B]; auto].
    - split; [constructor|]. intros k. cbn [In]. split; [intros []|]. intros [Hk B].
      apply orb_false_iff in C as [C1 C2]. destruct B as [->|B]; [discriminate|].
      assert (key_lt (rg_start g) e) by (destruct Hk as [<-|A]; [exact B|eapply key_lt_trans; [apply F; exact A|exact B]]).
      apply key_ltb_lt in H. congruence.
  Qed.

  Theorem split_keys_exact s e :
    StronglySorted key_lt (get_split_keys rl s e) /\
    (forall k, In k (get_split_keys rl s e) <-> boundary rules k /\ key_lt s k /\ (e = [] \/ key_lt k e)).
  Proof.
    unfold get_split_keys. destruct (search_gt_after s) as [Sf Hf].
    destruct (take_split_spec e _ Sf) as [T1 T2]. split; [exact T1|]. intros k. rewrite T2, Hf. tauto.
  Qed.

  (* GetRulesForApplyRegion: the override-filtered rules of the segment containing the start key,
     if no boundary lies strictly inside the region; none otherwise *)
  Theorem apply_region_exact s e :
    match get_rules_for_apply_region rl s e with
    | Some rs =>
        rs = prepare_rules_for_apply (get_rules_by_key rl s) /\ get_rules_by_key rl s <> [] /\
        check_apply_rules rs = None /\
        ~ (exists k, boundary rules k /\ key_lt s k /\ (e = [] \/ key_lt k e))
    | None =>
        get_rules_by_key rl s = [] \/ (exists k, boundary rules k /\ key_lt s k /\ (e = [] \/ key_lt k e))
    end.
  Proof.
    unfold get_rules_for_apply_region, get_rules_by_key.
    destruct (search_gt_after s) as [Sf Hf]. pose proof (search_gt_located s) as Hloc.
    destruct (search_gt s [] rl) as [before f]. cbn [fst snd] in *.
    destruct Hloc as [Hall|g before Hg (_ & _ & Hne & Ha & Hc) _]; [left; reflexivity|]. rewrite Ha in Hc.
    destruct f as [|nxt f'].
    - repeat split; [exact Ha|exact Hne|rewrite Ha; exact Hc|]. intros [k [Hk [Hs _]]]. apply (Hf k). auto.
    - destruct (is_nil e || key_gtb e (rg_start nxt)) eqn:C.
      + right. exists (rg_start nxt). rewrite <- and_assoc, <- Hf. split; [left; reflexivity|].
        apply orb_true_iff in C as [C|C]; [left; destruct e; [reflexivity|discriminate]|right; apply key_gtb_lt; exact C].
      + repeat split; [exact Ha|exact Hne|rewrite Ha; exact Hc|].
        intros [k [Hk [Hs He]]]. apply orb_false_iff in C as [C1 C2]. destruct He as [->|He]; [discriminate|].
        assert (Hle : key_le (rg_start nxt) k).
        { destruct (proj2 (Hf k) (conj Hk Hs)) as [<-|Hin]; [apply key_le_refl|]. apply key_lt_le.
          cbn in Sf. inversion Sf as [|? ? _ F]; subst. rewrite Forall_forall in F. apply F; exact Hin. }
        assert (key_lt (rg_start nxt) e) by (eapply key_le_lt_trans; eauto).
        apply key_gtb_lt in H. congruence.
  Qed.
End Lookup.

Lemma sort_points_facts rules :
  NoDup (map rkey rules) ->
  (forall p, In p (sort_points (points_of rules)) <-> In p (points_of rules)) /\
  NoDup (sort_points (points_of rules)) /\
  StronglySorted (fun a b => key_le (p_key a) (p_key b)) (sort_points (points_of rules)).
Proof.
  intros H. split; [intros p; apply sort_by_In|]. split.
  - eapply Permutation_NoDup; [apply Permutation_sym, sort_by_perm|apply points_nodup; exact H].
  - apply (sort_by_sorted (fun a b => key_cmp (p_key a) (p_key b)) (good_pull p_key key_cmp good_key)).
Qed.

(* what buildRuleList does before and after the sweep: the first sorted point must have the empty key *)
Lemma build_rule_list_sweep rules :
  build_rule_list rules =
  match sort_points (points_of rules) with
  | [] => inl ENoRuleLeft
  | p :: sp => if is_nil (p_key p) then sweep (p :: sp) [] else inl ENoRuleForRange
  end.
Proof.
  unfold build_rule_list. destruct (points_of rules) as [|p0 ps] eqn:E; [reflexivity|]. rewrite <- E. cbv zeta.
  destruct (sort_points (points_of rules)); reflexivity.
Qed.

Theorem build_indexes rules rl : wf_rules rules -> build_rule_list rules = inr rl -> indexes rules rl.
Proof.
  intros Hwf H. rewrite build_rule_list_sweep in H.
  destruct (sort_points_facts rules (wf_nodup _ Hwf)) as (A & B & C).
  destruct (sort_points (points_of rules)) as [|p sp] eqn:Es; [discriminate|].
  destruct (is_nil (p_key p)) eqn:En; [|discriminate].
  destruct (sweep_ranges rules _ Hwf A B C rl H) as (F & S & K). split; [exact F|]. split; [exact S|]. split; [exact K|].
  apply (boundary_iff_point rules _ A). exists p. split; [left; reflexivity|destruct (p_key p); [reflexivity|discriminate]].
Qed.

Theorem build_complete rules rl : wf_rules rules -> indexes rules rl -> build_rule_list rules = inr rl.
Proof.
  intros Hwf Hidx. rewrite build_rule_list_sweep.
  destruct (sort_points_facts rules (wf_nodup _ Hwf)) as (A & B & C).
  pose proof Hidx as (_ & _ & _ & B0). apply (boundary_iff_point rules _ A) in B0 as [q [Hq Kq]].
  destruct (sweep_total rules _ Hwf A B C rl Hidx (sort_points (points_of rules)) [] eq_refl) as [rl' Hs]. change (run_points [] []) with (@nil rule) in Hs.
  destruct (sort_points (points_of rules)) as [|p sp] eqn:Es; [destruct Hq|].
  assert (Kp : p_key p = []).
  { destruct Hq as [->|Hq]; [exact Kq|].
    inversion C as [|? ? _ F]; subst. rewrite Forall_forall in F. specialize (F q Hq). rewrite Kq in F.
    destruct (key_le_cases _ _ F) as [H|H]; [exact H|]. destruct (p_key p); [reflexivity|discriminate]. }
  rewrite Kp. cbn [is_nil]. rewrite Hs. f_equal.
  apply (indexes_unique rules); [|exact Hidx]. rewrite <- Es in *.
  destruct (sweep_ranges rules _ Hwf A B C rl' Hs) as (F & S & K). split; [exact F|]. split; [exact S|]. split; [exact K|].
  destruct Hidx as (_ & _ & _ & B0). exact B0.
Qed.

(* which of several points with the same key is processed first does not matter: any sorted
   arrangement of the points gives the same ranges *)
Theorem sweep_order_irrelevant rules pts1 pts2 rl1 rl2 :
  wf_rules rules ->
  (forall p, In p pts1 <-> In p (points_of rules)) -> NoDup pts1 ->
  StronglySorted (fun a b => key_le (p_key a) (p_key b)) pts1 ->
  (forall p, In p pts2 <-> In p (points_of rules)) -> NoDup pts2 ->
  StronglySorted (fun a b => key_le (p_key a) (p_key b)) pts2 ->
  sweep pts1 [] = inr rl1 -> sweep pts2 [] = inr rl2 -> rl1 = rl2.
Proof.
  intros Hwf A1 B1 C1 A2 B2 C2 H1 H2.
  destruct (sweep_ranges rules pts1 Hwf A1 B1 C1 rl1 H1) as (O1 & S1 & K1).
  destruct (sweep_ranges rules pts2 Hwf A2 B2 C2 rl2 H2) as (O2 & S2 & K2).
  apply (ranges_unique rules); [exact O1|exact O2|].
  apply (sorted_unique key_cmp good_key); [exact S1|exact S2|]. intros k. rewrite K1, K2. tauto.
Qed.

(* on lists written newest first: keep elements up to and including the first one satisfying p *)
Fixpoint take_until {A} (p : A -> bool) (m : list A) : list A :=
  match m with
  | [] => []
  | x :: r => if p x then [x] else x :: take_until p r
  end.
(* the suffix of l that starts at its last element satisfying p (l itself if there is none) *)
Definition from_last {A} (p : A -> bool) (l : list A) : list A := rev (take_until p (rev l)).

(* maximal runs of equal group id, of a list written newest first (runs and their elements newest first) *)
Fixpoint runs_rev (m : list rule) : list (list rule) :=
  match m with
  | [] => []
  | x :: r => match runs_rev r with
              | (y :: run) :: more => if key_eqb (r_gid x) (r_gid y) then (x :: y :: run) :: more
                                      else [x] :: (y :: run) :: more
              | _ => [[x]]
              end
  end.
Fixpoint last_opt {A} (l : list A) : option A :=
  match l with [] => None | [x] => Some x | _ :: r => last_opt r end.
(* the group of a run overrides: the flag the loop reads is the one of the first rule of the group *)
Definition run_overrides (run : list rule) : bool :=
  match last_opt run with Some x => group_overrides x | None => false end.

(* "drop everything before the last overriding group, and inside each remaining group everything
   before its last overriding rule" *)
Definition override_spec (rules : list rule) : list rule :=
  rev (concat (map (take_until r_override) (take_until run_overrides (runs_rev (rev rules))))).

Definition pstep (st : list rule * list rule) (ri : rule) : list rule * list rule :=
  let '(res, seg) := st in
  let '(res1, seg1) :=
    match seg with
    | rj :: _ => if negb (key_eqb (r_gid rj) (r_gid ri))
                 then ((if group_overrides ri then [] else res ++ seg), [])
                 else (res, seg)
    | [] => (res, seg)
    end in
  (res1, (if r_override ri then [] else seg1) ++ [ri]).

Lemma prepare_loop_fold rest : forall res seg,
  prepare_loop res seg rest = let '(r, s) := fold_left pstep rest (res, seg) in r ++ s.
Proof.
  induction rest as [|ri rest IH]; intros res seg; [reflexivity|].
  cbn [prepare_loop fold_left]. unfold pstep at 2.
  destruct seg as [|rj seg']; [apply IH|].
  destruct (negb (key_eqb (r_gid rj) (r_gid ri))); apply IH.
Qed.

(* state of the loop after the rules `rev m` (m newest first, non-empty) *)
Fixpoint pst (m : list rule) : list rule * list rule :=
  match m with
  | [] => ([], [])
  | [x] => ([], [x])
  | x :: r => pstep (pst r) x
  end.

Lemma fold_pstep_pst l : forall x,
  fold_left pstep l ([], [x]) = pst (rev l ++ [x]).
Proof.
  induction l as [|y l IH] using rev_ind; intros x; [reflexivity|].
  rewrite fold_left_app, IH. cbn [fold_left]. rewrite rev_app_distr. cbn [rev app].
  destruct (rev l ++ [x]) eqn:E; [destruct (rev l); discriminate|]. reflexivity.
Qed.

Lemma take_until_In {A} (p : A -> bool) l x : In x (take_until p l) -> In x l.
Proof.
  induction l as [|a l IH]; cbn; [tauto|]. destruct (p a); cbn; [tauto|]. intros [H|H]; auto.
Qed.
Lemma take_until_head {A} (p : A -> bool) a l : exists t, take_until p (a :: l) = a :: t.
Proof. cbn. destruct (p a); eauto. Qed.

(* the loop state in terms of the runs: seg is the current run cut at its last overriding rule, res the
   earlier runs, each cut likewise, back to the last overriding group *)
Lemma pst_as_runs m : m <> [] ->
  exists y run more,
    runs_rev m = (y :: run) :: more /\
    rev (snd (pst m)) = take_until r_override (y :: run) /\
    rev (fst (pst m)) = concat (map (take_until r_override) (tl (take_until run_overrides ((y :: run) :: more)))) /\
    (forall z, In z (y :: run) -> r_gid z = r_gid y).
Proof.
  induction m as [|x r IH]; [congruence|]. intros _. destruct r as [|x' r'].
  - exists x, [], []. cbn. repeat split.
    + destruct (r_override x); reflexivity.
    + destruct (group_overrides x); reflexivity.
    + intros z [<-|[]]; reflexivity.
  - destruct IH as (y & run & more & Er & Es & Eres & Hrun); [discriminate|].
    set (r := x' :: r') in *. change (pst (x :: r)) with (pstep (pst r) x). cbn [runs_rev]. fold r. rewrite Er.
    destruct (pst r) as [res seg] eqn:Ep. cbn [fst snd] in *.
    (* the head of seg (rules[j]) has the group id of the current run *)
    assert (Hhd : exists rj seg', seg = rj :: seg' /\ r_gid rj = r_gid y).
    { destruct seg as [|rj seg']; [cbn in Es; destruct (r_override y); discriminate|]. exists rj, seg'. split; [reflexivity|].
      apply Hrun, (take_until_In r_override). rewrite <- Es. apply -> in_rev. left; reflexivity. }
    destruct Hhd as (rj & seg' & Eseg & Egj). unfold pstep. rewrite Eseg.
    rewrite Egj, (key_eqb_sym (r_gid y)). destruct (key_eqb (r_gid x) (r_gid y)) eqn:Eq; cbn [negb].
    + (* same group: the run grows *)
      apply key_eqb_eq in Eq. rewrite <- Eseg. exists x, (y :: run), more. cbn [fst snd]. repeat split.
      * change (take_until r_override (x :: y :: run))
          with (if r_override x then [x] else x :: take_until r_override (y :: run)).
        destruct (r_override x); [reflexivity|]. rewrite rev_app_distr, Es. reflexivity.
      * rewrite Eres. cbn [take_until]. change (run_overrides (x :: y :: run)) with (run_overrides (y :: run)).
        destruct (run_overrides (y :: run)); reflexivity.
      * intros z [<-|Hz]; [reflexivity|]. rewrite Eq. apply Hrun; exact Hz.
    + (* a new group starts *)
      exists x, [], ((y :: run) :: more). cbn [fst snd].
      replace ((if r_override x then [] else []) ++ [x]) with [x] by (destruct (r_override x); reflexivity).
      repeat split.
      * cbn. destruct (r_override x); reflexivity.
      * change (take_until run_overrides ([x] :: (y :: run) :: more))
          with (if group_overrides x then [[x]] else [x] :: take_until run_overrides ((y :: run) :: more)).
        destruct (group_overrides x); [reflexivity|]. cbn [tl]. rewrite <- Eseg, rev_app_distr, Es, Eres.
        destruct (take_until_head run_overrides (y :: run) more) as [t ->]. reflexivity.
      * intros z [<-|[]]; reflexivity.
Qed.

Theorem prepare_eq_override_spec rules : prepare_rules_for_apply rules = override_spec rules.
Proof.
  destruct rules as [|r0 rest]; [reflexivity|].
  unfold prepare_rules_for_apply, override_spec. rewrite prepare_loop_fold, fold_pstep_pst.
  change (rev (r0 :: rest)) with (rev rest ++ [r0]). set (m := rev rest ++ [r0]).
  assert (Hne : m <> []) by (subst m; destruct (rev rest); discriminate).
  destruct (pst_as_runs m Hne) as (y & run & more & Er & Es & Eres & _).
  destruct (pst m) as [res seg]. cbn [fst snd] in *. rewrite Er.
  rewrite <- (rev_involutive (res ++ seg)). f_equal. rewrite rev_app_distr, Es, Eres.
  destruct (take_until_head run_overrides (y :: run) more) as [t ->]. reflexivity.
Qed.

Definition strip (r : rule) : rule := set_group r None.
Definition strip_rules (m : rmap) : rmap := map (fun kr => (fst kr, strip (snd kr))) m.

Lemma set_group_strip r g : set_group (strip r) g = set_group r g.
Proof. destruct r; reflexivity. Qed.
Lemma set_group_twice r a b : set_group (set_group r a) b = set_group r b.
Proof. destruct r; reflexivity. Qed.
Lemma r_gid_set_group r g : r_gid (set_group r g) = r_gid r.
Proof. destruct r; reflexivity. Qed.

Definition add_default (gs : gmap) (kr : (id * id) * rule) : gmap :=
  match gget (r_gid (snd kr)) gs with
  | Some _ => gs
  | None => mset key_cmp (r_gid (snd kr)) (default_group (r_gid (snd kr))) gs
  end.

Lemma config_adjust_unfold c :
  config_adjust c =
  let g1 := fold_left add_default (c_rules c) (filter (fun kg => negb (is_default (snd kg))) (c_groups c)) in
  Config (map (fun kr => (fst kr, set_group (snd kr) (gget (r_gid (snd kr)) g1))) (c_rules c)) g1.
Proof. reflexivity. Qed.

Lemma fold_add_default_map (f : rule -> rule) (Hf : forall r, r_gid (f r) = r_gid r) l : forall g,
  fold_left add_default (map (fun kr => (fst kr, f (snd kr))) l) g = fold_left add_default l g.
Proof.
  induction l as [|[k r] rest IH]; intros g; [reflexivity|]. cbn [map fold_left].
  unfold add_default at 2 4. cbn [fst snd]. rewrite Hf. apply IH.
Qed.

(* adjust() does not read the group pointers *)
Lemma config_adjust_via_strip c :
  config_adjust c = config_adjust (Config (strip_rules (c_rules c)) (c_groups c)).
Proof.
  rewrite !config_adjust_unfold. cbn [c_rules c_groups]. unfold strip_rules.
  rewrite (fold_add_default_map strip (fun r => r_gid_set_group r None)). cbv zeta. f_equal.
  rewrite map_map. apply map_ext. intros [k r]. cbn [fst snd]. unfold strip at 2.
  rewrite r_gid_set_group, set_group_strip. reflexivity.
Qed.

Lemma filter_non_default_add_default gs kr :
  filter (fun kg => negb (is_default (snd kg))) (add_default gs kr) =
  filter (fun kg : id * group => negb (is_default (snd kg))) gs.
Proof.
  unfold add_default. destruct (gget (r_gid (snd kr)) gs) eqn:E; [reflexivity|].
  set (gid := r_gid (snd kr)) in *. clearbody gid. unfold gget in E.
  induction gs as [|[k' g'] r IH]; cbn; [reflexivity|]. cbn in E.
  destruct (key_cmp gid k') eqn:Ec; [discriminate| |].
  - cbn. reflexivity.
  - cbn. rewrite (IH E). reflexivity.
Qed.

Lemma filter_non_default_fold_add_default l : forall gs,
  filter (fun kg => negb (is_default (snd kg))) (fold_left add_default l gs) =
  filter (fun kg : id * group => negb (is_default (snd kg))) gs.
Proof.
  induction l as [|kr rest IH]; intros gs; [reflexivity|]. cbn [fold_left].
  rewrite IH. apply filter_non_default_add_default.
Qed.

(* adjust() is idempotent: every configuration a RuleManager serves is a fixed point of it *)
Theorem config_adjust_idem c : config_adjust (config_adjust c) = config_adjust c.
Proof.
  rewrite (config_adjust_unfold c). cbv zeta.
  set (g0 := filter (fun kg => negb (is_default (snd kg))) (c_groups c)).
  set (g1 := fold_left add_default (c_rules c) g0).
  rewrite config_adjust_unfold. cbn [c_rules c_groups]. cbv zeta.
  assert (E0 : filter (fun kg => negb (is_default (snd kg))) g1 = g0).
  { subst g1. rewrite filter_non_default_fold_add_default. subst g0. apply filter_twice. }
  rewrite E0.
  rewrite (fold_add_default_map (fun r => set_group r (gget (r_gid r) g1))
             (fun r => r_gid_set_group r (gget (r_gid r) g1)) (c_rules c) g0).
  fold g1. f_equal. rewrite map_map. apply map_ext. intros [k r]. cbn [fst snd].
  rewrite r_gid_set_group, set_group_twice. reflexivity.
Qed.

Definition canonical (c : config) : Prop := config_adjust c = c.

Lemma patch_adjust_keeps c p :
  c_groups (fst (patch_adjust c p)) = c_groups c /\
  strip_rules (c_rules (fst (patch_adjust c p))) = strip_rules (c_rules c).
Proof.
  unfold patch_adjust, strip_rules. cbn [fst c_groups c_rules]. split; [reflexivity|].
  rewrite map_map. apply map_ext. intros [k r]. cbn [fst snd].
  destruct (mget pair_cmp k (m_rules p)); [reflexivity|]. cbn [fst snd]. unfold strip. rewrite set_group_twice. reflexivity.
Qed.

(* the served configuration after the error paths of tryCommitPatch (patch.adjust, then ruleConfig.adjust) *)
Lemma readjusted_is_served c p : canonical c -> config_adjust (fst (patch_adjust c p)) = c.
Proof.
  intros Hc. destruct (patch_adjust_keeps c p) as [K1 K2].
  rewrite config_adjust_via_strip, K1, K2, <- config_adjust_via_strip. exact Hc.
Qed.

(* tryCommitPatch: rejected by buildRuleList, failed in savePatch, or committed *)
Inductive commit_outcome (m : manager) (s : storage) (p : patch) (w : list wref) (f : fault)
  : manager * storage * option err * bool -> Prop :=
| co_rejected c1 p1 be :
    patch_adjust (m_conf m) p = (c1, p1) -> build_rule_list (patch_view c1 p1) = inl be ->
    commit_outcome m s p w f (Manager (config_adjust c1) (m_list m), s, Some EBuild, is_nil w)
| co_failed c1 p1 rl sa k ok :
    patch_adjust (m_conf m) p = (c1, p1) -> build_rule_list (patch_view c1 p1) = inr rl ->
    save_writes (patch_trim c1 p1) w 1 f s [] = (sa, true, k) ->
    commit_outcome m s p w f (Manager (config_adjust c1) (m_list m), sa, Some EStorage, ok)
| co_committed c1 p1 rl sa k ok :
    patch_adjust (m_conf m) p = (c1, p1) -> build_rule_list (patch_view c1 p1) = inr rl ->
    save_writes (patch_trim c1 p1) w 1 f s [] = (sa, false, k) ->
    commit_outcome m s p w f (Manager (patch_commit c1 (patch_trim c1 p1)) rl, save_all (patch_trim c1 p1) s, None, ok).

Lemma try_commit_outcome m s p w f : commit_outcome m s p w f (try_commit m s p w f).
Proof.
  unfold try_commit, save_patch. destruct (patch_adjust (m_conf m) p) as [c1 p1] eqn:Ea.
  destruct (build_rule_list (patch_view c1 p1)) as [be|rl] eqn:Eb; [eapply co_rejected; eauto|].
  destruct (save_writes (patch_trim c1 p1) w 1 f s []) as [[sa [|]] k] eqn:Es; [eapply co_failed|eapply co_committed]; eauto.
Qed.

Lemma try_commit_failed m s p w f m' s' ok :
  try_commit m s p w f = (m', s', Some EStorage, ok) ->
  exists c1 p1 rl k, patch_adjust (m_conf m) p = (c1, p1) /\ build_rule_list (patch_view c1 p1) = inr rl /\
                     save_writes (patch_trim c1 p1) w 1 f s [] = (s', true, k).
Proof.
  intros H. pose proof (try_commit_outcome m s p w f) as O. rewrite H in O.
  inversion O; subst. exists c1, p1, rl, k. auto.
Qed.
Lemma try_commit_committed m s p w f m' s' ok :
  try_commit m s p w f = (m', s', None, ok) ->
  exists c1 p1 rl, patch_adjust (m_conf m) p = (c1, p1) /\ build_rule_list (patch_view c1 p1) = inr rl /\
                   m' = Manager (patch_commit c1 (patch_trim c1 p1)) rl /\ s' = save_all (patch_trim c1 p1) s.
Proof.
  intros H. pose proof (try_commit_outcome m s p w f) as O. rewrite H in O.
  inversion O; subst. exists c1, p1, rl. auto.
Qed.

Definition write_effect (p : patch) (w : wref) : option (storage -> storage) :=
  match w with
  | WRule g i => option_map (fun v => apply_rule_write ((g, i), v)) (mget pair_cmp (g, i) (m_rules p))
  | WGroup g => option_map (fun v => apply_group_write (g, v)) (mget key_cmp g (m_groups p))
  end.
Definition fault_at (f : fault) (n : nat) : option fmode :=
  match f with Some (k, md) => if Nat.eqb k n then Some md else None | None => None end.

Lemma save_writes_cons p w rest n f s seen :
  save_writes p (w :: rest) n f s seen =
  if existsb (wref_eqb w) seen then (s, false, false) else
  match write_effect p w with
  | None => (s, false, false)
  | Some ap => match fault_at f n with
               | Some FailBefore => (s, true, is_nil rest)
               | Some FailAfter => (ap s, true, is_nil rest)
               | None => save_writes p rest (S n) f (ap s) (w :: seen)
               end
  end.
Proof.
  cbn [save_writes]. destruct (existsb (wref_eqb w) seen); [reflexivity|]. fold (write_effect p w).
  destruct (write_effect p w); [|reflexivity]. unfold fault_at.
  destruct f as [[k [|]]|]; try reflexivity; destruct (Nat.eqb k n); reflexivity.
Qed.

Lemma save_writes_inv (I : storage -> Prop) p :
  (forall w ap s, write_effect p w = Some ap -> I s -> I (ap s)) ->
  forall order n f s seen, I s -> I (fst (fst (save_writes p order n f s seen))).
Proof.
  intros Hw. induction order as [|w rest IH]; intros n f s seen Hs; [exact Hs|]. rewrite save_writes_cons.
  destruct (existsb (wref_eqb w) seen); [exact Hs|]. destruct (write_effect p w) as [ap|] eqn:Ew; [|exact Hs].
  destruct (fault_at f n) as [[|]|]; [exact Hs|exact (Hw _ _ _ Ew Hs)|apply IH; exact (Hw _ _ _ Ew Hs)].
Qed.

Lemma save_writes_no_fault p order : forall n s seen, snd (fst (save_writes p order n None s seen)) = false.
Proof.
  induction order as [|w rest IH]; intros n s seen; [reflexivity|]. rewrite save_writes_cons.
  destruct (existsb (wref_eqb w) seen); [reflexivity|]. destruct (write_effect p w); [apply IH|reflexivity].
Qed.

(* a rejected or failed update leaves the RuleManager exactly as it was: the patch was rejected and nothing
   was written, or a write failed on an injected fault *)
Theorem try_commit_error m s p w f m' s' e ok :
  canonical (m_conf m) -> try_commit m s p w f = (m', s', Some e, ok) ->
  m' = m /\ ((e = EBuild /\ s' = s) \/ (e = EStorage /\ f <> None)).
Proof.
  intros Hc H. pose proof (try_commit_outcome m s p w f) as O. rewrite H in O.
  pose proof (readjusted_is_served (m_conf m) p Hc) as R.
  inversion O as [c1 p1 be Ea|c1 p1 rl sa k ok' Ea _ Es|]; subst; rewrite Ea in R; cbn [fst] in R; rewrite R;
    (split; [destruct m; reflexivity|]); [left; auto|right]. split; [reflexivity|]. intros ->.
  pose proof (save_writes_no_fault (patch_trim c1 p1) w 1%nat s []) as NF. rewrite Es in NF. discriminate.
Qed.

Lemma try_commit_canonical m s p order f m' s' e ok :
  try_commit m s p order f = (m', s', e, ok) -> canonical (m_conf m').
Proof.
  intros H. pose proof (try_commit_outcome m s p order f) as O. rewrite H in O.
  inversion O; subst; apply config_adjust_idem.
Qed.

Lemma initialize_canonical s mr m s' : initialize s mr = (inl m, s') -> canonical (m_conf m).
Proof.
  unfold initialize. intros H. destruct (load_repairs s) as [acc s2].
  destruct (la_rules acc) as [|x rs];
    (destruct (build_rule_list _) as [e|rl]; inversion H; subst; apply config_adjust_idem).
Qed.

Lemma step_update_cases st u f w :
  (fst (step_update st u f w) = st /\
   o_res (snd (step_update st u f w)) <> ROk /\ o_res (snd (step_update st u f w)) <> RErr EStorage) \/
  exists m p m' s' e ok,
    st_live st = Some m /\ make_patch (m_conf m) u = Some p /\
    try_commit m (st_store st) p w f = (m', s', e, ok) /\
    step_update st u f w =
    (State (Some m') s',
     observe (if ok then match e with Some e => RErr e | None => ROk end else RBadOrder) (State (Some m') s')).
Proof.
  unfold step_update. destruct (st_live st) as [m|] eqn:El; [|left; repeat split; discriminate].
  destruct (make_patch (m_conf m) u) as [p|] eqn:Ep; [|left; cbn; destruct (is_nil w); repeat split; discriminate].
  destruct (try_commit m (st_store st) p w f) as [[[m' s'] e] ok] eqn:Et.
  right. exists m, p, m', s', e, ok. repeat split; assumption.
Qed.

Lemma step_update_ok st u f w st' o :
  step_update st u f w = (st', o) -> o_res o = ROk ->
  exists m p m' s' ok, st_live st = Some m /\ make_patch (m_conf m) u = Some p /\
                       try_commit m (st_store st) p w f = (m', s', None, ok) /\ st' = State (Some m') s'.
Proof.
  intros H R. destruct (step_update_cases st u f w) as [[_ [N _]]|(m & p & m' & s' & e & ok & El & Ep & Et & X)];
    rewrite H in *; [contradiction|]. inversion X; subst st' o. cbn [o_res observe] in R.
  destruct ok; [|discriminate]. destruct e; [discriminate|]. exists m, p, m', s', true. auto.
Qed.
Lemma step_update_storage_error st u f w st' o :
  step_update st u f w = (st', o) -> o_res o = RErr EStorage ->
  exists m p m' s' ok, st_live st = Some m /\ make_patch (m_conf m) u = Some p /\
                       try_commit m (st_store st) p w f = (m', s', Some EStorage, ok) /\ st' = State (Some m') s'.
Proof.
  intros H R. destruct (step_update_cases st u f w) as [[_ [_ N]]|(m & p & m' & s' & e & ok & El & Ep & Et & X)];
    rewrite H in *; [contradiction|]. inversion X; subst st' o. cbn [o_res observe] in R.
  destruct ok; [|discriminate]. destruct e as [e|]; [|discriminate]. inversion R; subst e. exists m, p, m', s', true. auto.
Qed.

Definition on_live (I : manager -> storage -> Prop) (st : state) : Prop :=
  match st_live st with Some m => I m (st_store st) | None => True end.

Lemma step_update_on_live (I : manager -> storage -> Prop) st u f w :
  (forall m p m' s' e ok, st_live st = Some m -> I m (st_store st) -> make_patch (m_conf m) u = Some p ->
     try_commit m (st_store st) p w f = (m', s', e, ok) -> I m' s') ->
  on_live I st -> on_live I (fst (step_update st u f w)).
Proof.
  intros H Hst. destruct (step_update_cases st u f w) as [[-> _]|(m & p & m' & s' & e & ok & El & Ep & Et & ->)]; [exact Hst|].
  unfold on_live in *. rewrite El in Hst. cbn. eapply H; eauto.
Qed.

Definition live_canonical : state -> Prop := on_live (fun m _ => canonical (m_conf m)).

Lemma step_canonical st o : live_canonical st -> live_canonical (fst (step st o)).
Proof.
  intros Hst. assert (Hinit : forall mr, live_canonical (fst (step st (ORestart mr)))).
  { intros mr. cbn [step]. destruct (initialize (st_store st) mr) as [[m|e] s'] eqn:Ei; cbn; [|exact I].
    eapply initialize_canonical; exact Ei. }
  assert (Hupd : forall u f w, live_canonical (fst (step_update st u f w))).
  { intros u f w. apply step_update_on_live; [|exact Hst]. intros. eapply try_commit_canonical; eauto. }
  destruct o; [apply Hinit|apply Hupd|apply Hupd|exact I|apply Hinit|exact Hst|exact Hst].
Qed.

Theorem reachable_canonical ops : live_canonical (run_state step init_state ops).
Proof. apply run_state_inv; [exact step_canonical|exact I]. Qed.

Theorem update_error_changes_nothing st u f w st' o e :
  live_canonical st -> step_update st u f w = (st', o) -> o_res o = RErr e ->
  st_live st' = st_live st /\ (e <> EStorage -> st_store st' = st_store st).
Proof.
  intros Hc H Hr.
  destruct (step_update_cases st u f w) as [[E _]|(m & p & m' & s' & e' & ok & El & Ep & Et & E)]; rewrite H in E.
  - cbn in E. subst st'. split; reflexivity.
  - inversion E; subst st' o. cbn [o_res observe st_live st_store] in *. unfold live_canonical, on_live in Hc. rewrite El in Hc.
    destruct ok; [|discriminate]. destruct e' as [e'|]; [|discriminate]. inversion Hr; subst e'.
    destruct (try_commit_error _ _ _ _ _ _ _ _ _ Hc Et) as [-> [[_ ->]|[-> _]]]; (split; [symmetry; exact El|]);
      [reflexivity|contradiction].
Qed.

Theorem covered_when_rule_starts_at_empty_key rules rl k y :
  wf_rules rules -> build_rule_list rules = inr rl -> In y rules -> r_start y = [] ->
  get_rules_by_key rl k <> [] /\ check_apply_rules (prepare_rules_for_apply (get_rules_by_key rl k)) = None.
Proof. intros Hwf H _ _. exact (accepted_covers_every_key rules rl (build_indexes rules rl Hwf H) k). Qed.
