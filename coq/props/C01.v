(* C01 — Timestamps are unique and strictly increasing in real-time order.
   Statements with short derivations; the invariant is proved in proof/C01_{Step,Ctl,Win,Rec,Main}.v, structural
   obligations in proof/C01_Skel.v.

   A label list is one history of any number of members: concurrent TSO requests with arbitrary counts
   (LGen = generateTSO under the lock, LRespond = the overflow test and the second Check()), time-window
   updates (LUpdRead/Decide/Save/Set), user resets accepted or rejected (LURBegin/Decide/Save/End),
   allocator resets (LReset), hand-overs (LElect/LValidOff/LValidOn/LOwnerGone) and wall-clock readings that are
   arbitrary inputs of the labels that read the clock (so the clock may jump in either direction and
   differ between members).  recs = every generated range, newest first; gtb = generation instant,
   Granted te = answered to the client at instant te.

   Environment hypotheses built into the labels (DESIGN.md, C01):
   E2  (C03's theorem)  a member whose Check() is true while it is inside a term owns the leader record:
       LValidOn / LOwnerGone / LElect are enabled accordingly;
   E3  (server structure) Initialize follows a successful campaign, once per campaign;
   E4  (bounded pauses) when a member wins a later campaign none of its requests or maintenance calls from
       an earlier term is still between two of its atomic sections (LElect requires `busy = false`).
   step_r = step: every storage outcome of every window save is inside the quantifier - acknowledged, failed
   before it was applied, or applied although the client saw an error (then the allocator reads its window back
   before it decides about the next save: LUpdDecide / LURDecide; LUpdAbort / LURAbort = that read failed). *)
From Coq Require Import ZArith List Lia.
From PDV Require Import lib.Base gen.Gen_C01 model.C01_Tso proof.C01_Ctl proof.C01_Win proof.C01_Rec proof.C01_Main proof.C01_Skel model.C03_Env proof.C01_EnvTie proof.C01_Suffix.
Import ListNotations.
Local Open Scope Z_scope.

Definition reach (iv gap : Z) (ls : list label) : state := exec step_r (init iv gap) ls.

(* ranges granted by anyone, at any time, are ordered by the instant they were generated: in particular two different
   granted ranges are disjoint.  The range of a response with count n ending at logical L is (P, L-n+1) .. (P, L);
   `below r1 r2` = every value of r1 is smaller than every value of r2 *)
Theorem C01_granted_ranges_disjoint_and_ordered :
  forall iv gap ls r1 r2 te1 te2, guard < iv ->
    let s := reach iv gap ls in
    In r1 (recs s) -> In r2 (recs s) -> gst r1 = Granted te1 -> gst r2 = Granted te2 ->
    (gtb r1 < gtb r2)%nat -> below r1 r2.
Proof. intros iv gap ls r1 r2 te1 te2 Hc s. apply granted_ordered. apply inv_exec. exact Hc. Qed.

(* real-time order: a request answered before another one was generated (a fortiori before it began)
   got smaller values *)
Theorem C01_realtime_order :
  forall iv gap ls r1 r2 te1 te2, guard < iv ->
    let s := reach iv gap ls in
    In r1 (recs s) -> In r2 (recs s) -> gst r1 = Granted te1 -> gst r2 = Granted te2 ->
    (te1 < gtb r2)%nat -> below r1 r2.
Proof. intros iv gap ls r1 r2 te1 te2 Hc s. apply granted_realtime. apply inv_exec. exact Hc. Qed.

(* the logical part of every granted value fits the 18-bit field (and is positive) *)
Theorem C01_logical_fits :
  forall iv gap ls r te, guard < iv ->
    let s := reach iv gap ls in
    In r (recs s) -> gst r = Granted te -> 0 < gL r - gcount r + 1 /\ gL r < 2 ^ 18.
Proof.
  intros iv gap ls r te Hc s Hr Hg. exact (granted_fits s r te (inv_exec iv gap ls Hc) Hr Hg).
Qed.

(* hence the composed 64-bit timestamp preserves the order (physical below 2^46 ms ~ year 4199) *)
Theorem C01_compose_preserves_order :
  forall p1 l1 p2 l2, 0 <= p1 < 2 ^ 46 -> 0 <= p2 < 2 ^ 46 -> 0 <= l1 < 2 ^ 18 -> 0 <= l2 < 2 ^ 18 ->
    lt_pl p1 l1 p2 l2 -> compose_ts p1 l1 < compose_ts p2 l2.
Proof.
  intros p1 l1 p2 l2 H1 H2 H3 H4 Hlt. rewrite !compose_small by assumption. unfold lt_pl in Hlt.
  change (2 ^ 18) with 262144 in *. lia.
Qed.

(* non-vacuity: two members, a hand-over, a user reset, an overflowing request that is dropped *)
Example C01_nonvacuous :
  let ls := [LElect 0; LSyncLoad 0; LSyncSave 0 5000000000 Ok; LSyncSet 0; LGen 0 3; LRespond 0 0;
             LURBegin 0 (Z.shiftl 5001 18 + 7); LURDecide 0; LUREnd 0; LGen 0 2; LRespond 0 0;
             LGen 0 300000; LRespond 0 0;
             LUpdRead 0 5002000001; LUpdDecide 0; LUpdSet 0; LGen 0 1; LRespond 0 0;
             LValidOff 0; LOwnerGone; LGen 0 1; LRespond 0 0; LReset 0;
             LElect 1; LSyncLoad 1; LSyncSave 1 4000000000 Ok; LSyncSet 1; LGen 1 1; LRespond 1 0] in
  let s := reach 3000000000 86400000 ls in
  map (fun r => (gm r, gP r, gL r, gst r)) (recs s) =
  [(1%nat, 8001, 1, Granted 28); (0%nat, 5002, 2, Dropped); (0%nat, 5002, 1, Granted 17);
   (0%nat, 5001, 300009, Dropped); (0%nat, 5001, 9, Granted 10); (0%nat, 5000, 3, Granted 5)].
Proof. vm_compute. reflexivity. Qed.

(* Interface to C03: the hand-over labels above are exactly the labels of the leadership environment
   (model/C03_Env.v), and this model accepts every one of them at the same projected state (owner of the record,
   validity flags); the only side condition is the bounded-pause hypothesis E4 at an election (nothing of the elected
   member is in flight, its leader loop is outside a term).  props/C03.v (C03_refines_leadership_environment) shows
   that every history of the election model is a run of that environment: the leadership hypothesis E2 under which
   the theorems of this file are stated is therefore a theorem about the election model, not an assumption.
   An environment label touches neither the stored window, nor a memory's timestamp, nor the granted ranges. *)
Theorem C01_accepts_leadership_environment : forall s l e',
  estep (proj s) l = Some e' ->
  (forall m, l = EElect m -> busy s m = false) ->
  exists s', step0 s (lab l) = Some s' /\ env_eq (proj s') e'.
Proof. exact env_label_accepted. Qed.

Theorem C01_leadership_labels_keep_timestamps : forall s l s',
  step0 s (lab l) = Some s' ->
  W s' = W s /\ recs s' = recs s /\
  forall j, phys (mems s' j) = phys (mems s j) /\ logical (mems s' j) = logical (mems s j) /\
            last_saved (mems s' j) = last_saved (mems s j).
Proof. exact env_label_keeps_timestamps. Qed.

(* An allocator that differentiates its logical part (a Local TSO Allocator with suffix sfx at width b; the Global one
   with sfx = 0 once dc-locations exist): the answer for raw counter value L and count n stands for the values
   differentiate (L - i) b sfx, i < n (stride 2^b), and getTS drops it unless differentiate L b sfx < maxLogical.
   That check is stricter than the raw one, and the counter moves before the check either way: a run of such an
   allocator is a run of the model with some more answers dropped (proof/C01_Suffix.v).  Order and disjointness of
   everything the model grants carry over to the differentiated values ... *)
Theorem C01_suffixed_values_ordered :
  forall iv gap ls b sfx r1 r2 te1 te2 i j, guard < iv -> 0 <= b ->
    let s := reach iv gap ls in
    In r1 (recs s) -> In r2 (recs s) -> gst r1 = Granted te1 -> gst r2 = Granted te2 ->
    (gtb r1 < gtb r2)%nat -> 0 <= i -> 0 <= j < gcount r2 ->
    lt_pl (fst (value_of b sfx r1 i)) (snd (value_of b sfx r1 i)) (fst (value_of b sfx r2 j)) (snd (value_of b sfx r2 j)).
Proof.
  intros iv gap ls b sfx r1 r2 te1 te2 i j Hc Hb s H1 H2 G1 G2 Hlt Hi Hj.
  apply values_ordered; [exact Hb| |exact Hi|exact Hj].
  eapply C01_granted_ranges_disjoint_and_ordered; eauto.
Qed.

Theorem C01_suffixed_values_distinct_within_an_answer :
  forall b sfx r i j, 0 <= b -> i < j -> snd (value_of b sfx r j) < snd (value_of b sfx r i).
Proof. exact values_distinct_within. Qed.

(* ... and the check on the differentiated value makes every value of the answer fit the 18-bit field (and positive),
   so that the composed 64-bit values keep the order (C01_compose_preserves_order) *)
Theorem C01_suffixed_logical_fits :
  forall iv gap ls b sfx r te i, guard < iv -> 0 <= b -> 0 <= sfx ->
    let s := reach iv gap ls in
    In r (recs s) -> gst r = Granted te -> passes b sfx r -> 0 <= i < gcount r ->
    0 < snd (value_of b sfx r i) + 1 /\ snd (value_of b sfx r i) < 2 ^ 18.
Proof.
  intros iv gap ls b sfx r te i Hc Hb Hs s Hr Hg Hp Hi.
  destruct (C01_logical_fits iv gap ls r te Hc Hr Hg) as [Hlo _].
  exact (values_fit b sfx r i Hb Hs Hlo Hp Hi).
Qed.

(* the suffixed check never lets through what the raw check (the model's) would drop *)
Theorem C01_suffixed_check_is_stricter :
  forall b sfx r, 0 <= b -> 0 <= sfx -> 0 <= gL r -> passes b sfx r -> gL r < 2 ^ 18.
Proof.
  intros b sfx r Hb Hs Hl H. unfold passes in H. rewrite differentiate_eq in H by exact Hb.
  assert (1 <= 2 ^ b) by (assert (0 < 2 ^ b) by (apply Z.pow_pos_nonneg; lia); lia).
  change (2 ^ 18) with max_logical. nia.
Qed.


(* ... and the client library hands exactly those values to the callers of a batch: caller k of the n callers whose requests were
   sent as one request of count n gets the (n-1-k)-th value from the top of the answer (client/client.go processTSORequests /
   finishTSORequest / addLogical, pinned in proof/C01_Skel.v), so what the theorems above say about the values of granted
   answers holds for what callers of the client receive, and two callers of one batch never share a value *)
Theorem C01_client_hands_out_the_granted_values :
  forall b sfx r k, 0 <= b ->
    client_value b sfx r k = value_of b sfx r (gcount r - 1 - k) /\
    (forall j, j < k -> snd (client_value b sfx r j) < snd (client_value b sfx r k)).
Proof.
  intros b sfx r k Hb. split; [apply client_value_is_value_of; exact Hb|].
  intros j Hjk. apply client_values_increase; assumption.
Qed.

(* the Global allocator's own width may grow over time (dc-locations joining) and must never shrink: with suffix 0, a later and
   larger raw value at an equal or larger width is larger (so are all values of a later batch, whose first raw value is above
   the earlier one). The code keeps the width when the last dc-location disappears (the plain path of GenerateTSO passes
   GetSuffixBits(): skel_gta_GenerateTSO_ok in proof/C05_Skel.v, an obligation of C05); with a width that shrinks the
   order is lost: `width_must_not_shrink` (pd before b1e0d17 answered like that). *)
Theorem C01_global_width_may_only_grow :
  forall x y b1 b2, 0 <= b1 <= b2 -> 0 <= x < y -> differentiate x b1 0 < differentiate y b2 0.
Proof.
  intros x y b1 b2 [Hb1 Hb12] [Hx Hxy]. rewrite !differentiate_eq by lia. rewrite !Z.add_0_r.
  assert (H1 : 0 < 2 ^ b1) by (apply Z.pow_pos_nonneg; lia).
  assert (H2 : 2 ^ b1 <= 2 ^ b2) by (apply Z.pow_le_mono_r; lia).
  nia.
Qed.

Example C01_suffixed_nonvacuous :
  (* width 2, suffix 1: raw 65535 passes (262141), raw 65536 does not (262145 >= 2^18) although 65536 < 2^18 *)
  let r1 := Rec 0 5000 65535 3 1 true (Granted 2) in
  let r2 := Rec 0 5000 65536 1 3 true (Granted 4) in
  passes 2 1 r1 /\ ~ passes 2 1 r2 /\ gL r2 < 2 ^ 18 /\
  map (fun i => value_of 2 1 r1 i) [0; 1; 2] = [(5000, 262141); (5000, 262137); (5000, 262133)].
Proof. unfold passes. vm_compute. repeat split; try reflexivity; intros H; discriminate H. Qed.

Print Assumptions C01_granted_ranges_disjoint_and_ordered.
Print Assumptions C01_realtime_order.
Print Assumptions C01_logical_fits.
Print Assumptions C01_compose_preserves_order.
Print Assumptions C01_accepts_leadership_environment.
Print Assumptions C01_leadership_labels_keep_timestamps.
Print Assumptions C01_suffixed_values_ordered.
Print Assumptions C01_suffixed_values_distinct_within_an_answer.
Print Assumptions C01_suffixed_logical_fits.
Print Assumptions C01_suffixed_check_is_stricter.
Print Assumptions C01_client_hands_out_the_granted_values.
Print Assumptions C01_global_width_may_only_grow.
