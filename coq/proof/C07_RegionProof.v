(* C07 — L2: RegionsInfo.  Representation invariant: the whole state is determined by the sorted,
   disjoint main list T — every sub-tree is `filter (has_role f s) T` with its exact size sum — and
   SetRegion / RemoveRegion transform T exactly as the list specification says. *)
From Coq Require Import Permutation Sorting.Sorted.
From PDV Require Import lib.Base lib.C07_Key gen.Gen_C07 model.C07_BTreeSpec model.C07_Region proof.C07_Sorted proof.C07_Tree.
Local Open Scope Z_scope.

Lemma ins_peer_perm p l : Permutation (p :: l) (ins_peer p l).
Proof.
  induction l as [|a l IH]; cbn; [reflexivity|].
  destruct (p_id p <? p_id a); [reflexivity|]. rewrite perm_swap. constructor. exact IH.
Qed.

Lemma sort_peers_perm l : Permutation l (sort_peers l).
Proof.
  unfold sort_peers. assert (G : forall acc, Permutation (l ++ acc) (fold_left (fun acc p => ins_peer p acc) l acc)).
  { induction l as [|a l IH]; intros acc; cbn; [reflexivity|].
    rewrite <- IH. rewrite <- ins_peer_perm. apply Permutation_middle. }
  specialize (G []). rewrite app_nil_r in G. exact G.
Qed.

Lemma nodup_stores_spec l : nodup_stores l = true <-> NoDup (map p_store l).
Proof.
  induction l as [|a l IH]; cbn; [split; [constructor|reflexivity]|].
  rewrite andb_true_iff, negb_true_iff, IH. split.
  - intros [H1 H2]. constructor; [|exact H2]. intros Hin. apply in_map_iff in Hin as (q & Eq & Hq).
    assert (existsb (fun q0 => p_store q0 =? p_store a) l = true); [|congruence].
    apply existsb_exists. exists q. split; [exact Hq|]. apply Z.eqb_eq. exact Eq.
  - intros H. inversion H as [|? ? H1 H2]; subst. split; [|exact H2].
    destruct (existsb _ l) eqn:E; [|reflexivity]. exfalso. apply H1.
    apply existsb_exists in E as (q & Hq & Eq). apply Z.eqb_eq in Eq. apply in_map_iff. exists q. auto.
Qed.

Lemma NoDup_stores_sort l : NoDup (map p_store l) -> NoDup (map p_store (sort_peers l)).
Proof.
  intros H. eapply Permutation_NoDup; [|exact H]. apply Permutation_map. apply sort_peers_perm.
Qed.

Lemma wf_peers_parts r : wf_peers r = true ->
  pending_in_peers r = true /\ NoDup (map p_store (r_peers r)) /\ NoDup (map p_store (r_pending r)).
Proof.
  unfold wf_peers. rewrite !andb_true_iff, !nodup_stores_spec. tauto.
Qed.

Lemma voters_nodup r : wf_peers r = true -> NoDup (map p_store (voters r)).
Proof. intros W. apply wf_peers_parts in W as (_ & N & _). apply NoDup_stores_sort, NoDup_map_filter, N. Qed.
Lemma learners_nodup r : wf_peers r = true -> NoDup (map p_store (learners_of r)).
Proof. intros W. apply wf_peers_parts in W as (_ & N & _). apply NoDup_stores_sort, NoDup_map_filter, N. Qed.

(* a role on store s needs a peer on store s *)
Lemma role_needs_peer f s r : wf_peers r = true -> has_role f s r = true ->
  existsb (fun p => all_peers p && (p_store p =? s)) (r_peers r) = true.
Proof.
  intros W H. apply wf_peers_parts in W as (PP & _ & _).
  destruct f; cbn in H; apply existsb_exists in H as (p & Hp & Hc); apply existsb_exists.
  1, 2: exists p; split; [exact Hp|]; cbn; apply andb_true_iff in Hc as [Hc _]; apply andb_true_iff in Hc as [_ Hc]; exact Hc.
  - exists p. split; [exact Hp|]. cbn. apply andb_true_iff in Hc as [_ Hc]. exact Hc.
  - unfold pending_in_peers in PP. rewrite forallb_forall in PP. specialize (PP p Hp).
    apply existsb_exists in PP as (q & Hq & Eq). exists q. split; [exact Hq|]. cbn.
    apply Z.eqb_eq in Eq. apply Z.eqb_eq in Hc. apply Z.eqb_eq. congruence.
Qed.

(* fam_fold touches the tree of store s exactly once when some selected peer sits on s          *)
Lemma fam_fold_once g c ps fm s : NoDup (map p_store ps) ->
  fam_fold g c ps fm s = if existsb (fun p => c p && (p_store p =? s)) ps then g (fm s) else fm s.
Proof.
  unfold fam_fold. revert fm. induction ps as [|p ps IH]; intros fm N; cbn; [reflexivity|].
  inversion N as [|? ? N1 N2]; subst. rewrite (IH _ N2).
  assert (NP : (p_store p =? s) = true -> existsb (fun p0 => c p0 && (p_store p0 =? s)) ps = false).
  { intros E. apply Z.eqb_eq in E. destruct (existsb _ ps) eqn:X; [|reflexivity]. exfalso. apply N1.
    apply existsb_exists in X as (q & Hq & Hc). apply andb_true_iff in Hc as [_ Hc]. apply Z.eqb_eq in Hc.
    apply in_map_iff. exists q. split; [congruence|exact Hq]. }
  destruct (c p); cbn.
  - unfold fam_set. destruct (Z.eqb_spec (p_store p) s) as [E|NE].
    + subst s. rewrite NP by reflexivity. rewrite Z.eqb_refl. reflexivity.
    + replace (s =? p_store p) with false by (symmetry; apply Z.eqb_neq; congruence). reflexivity.
  - reflexivity.
Qed.

Lemma sum_size_cons a l : sum_size (a :: l) = r_size a + sum_size l.
Proof. reflexivity. Qed.

Lemma same_in_eq T x y : ssorted T -> In x T -> In y T -> same x y = true -> y = x.
Proof.
  intros S Hx Hy E. unfold same in E. destruct (key_eqb_spec (r_start y) (r_start x)) as [E'|]; [|discriminate].
  eapply ssorted_in_eq; eauto.
Qed.

(* among the regions of a valid, sorted, disjoint list, overlapping o is being o *)
Lemma ds_overlaps_same T o y : ds T -> In o T -> In y T -> overlaps y o = same o y.
Proof.
  intros D Ho Hy. destruct (overlaps y o) eqn:O.
  - rewrite (ds_overlaps_eq _ _ _ D Hy Ho O). symmetry. apply same_refl.
  - destruct (same o y) eqn:Sm; [|reflexivity].
    rewrite (same_in_eq _ _ _ (ds_ssorted _ D) Ho Hy Sm), (valid_overlaps_self _ (ds_valid _ _ D Ho)) in O. discriminate.
Qed.

Lemma ssorted_cut T x : ssorted T -> In x T ->
  exists T1 T2, T = T1 ++ x :: T2 /\ (forall y, In y T1 -> same x y = false) /\ (forall y, In y T2 -> same x y = false).
Proof.
  intros S Hx. apply in_split in Hx as (T1 & T2 & ->). exists T1, T2. split; [reflexivity|].
  apply ssorted_app_inv in S as (A & B & C). apply ssorted_inv in B as [B1 B2]. rewrite Forall_forall in B2.
  split; intros y Hy.
  - apply slt_same_r, C; [exact Hy|left; reflexivity].
  - apply slt_same_l, B2, Hy.
Qed.

Lemma filter_and_notsame T x q : ssorted T -> In x T ->
  exists T1 T2, T = T1 ++ x :: T2 /\
    filter (fun y => q y && negb (same x y)) T = filter q T1 ++ filter q T2 /\
    filter q T = filter q T1 ++ (if q x then [x] else []) ++ filter q T2 /\
    filter (fun y => q y || same x y) T = filter q T1 ++ x :: filter q T2 /\
    (forall y, In y T1 -> slt y x) /\ (forall y, In y T2 -> slt x y).
Proof.
  intros S Hx. destruct (ssorted_cut T x S Hx) as (T1 & T2 & -> & F1 & F2). exists T1, T2.
  split; [reflexivity|].
  assert (E1 : filter (fun y => q y && negb (same x y)) T1 = filter q T1).
  { apply filter_ext_in. intros y Hy. rewrite (F1 y Hy). cbn. apply andb_true_r. }
  assert (E2 : filter (fun y => q y && negb (same x y)) T2 = filter q T2).
  { apply filter_ext_in. intros y Hy. rewrite (F2 y Hy). cbn. apply andb_true_r. }
  assert (E3 : filter (fun y => q y || same x y) T1 = filter q T1).
  { apply filter_ext_in. intros y Hy. rewrite (F1 y Hy). apply orb_false_r. }
  assert (E4 : filter (fun y => q y || same x y) T2 = filter q T2).
  { apply filter_ext_in. intros y Hy. rewrite (F2 y Hy). apply orb_false_r. }
  apply ssorted_app_inv in S as (A & B & C). apply ssorted_inv in B as [B1 B2]. rewrite Forall_forall in B2.
  repeat split.
  - rewrite filter_app. cbn. rewrite same_refl, andb_false_r, E1, E2. reflexivity.
  - rewrite filter_app. cbn. destruct (q x); reflexivity.
  - rewrite filter_app. cbn. rewrite same_refl, orb_true_r, E3, E4. reflexivity.
  - intros y Hy. apply C; [exact Hy|left; reflexivity].
  - exact B2.
Qed.

Lemma sum_remove T x q : ssorted T -> In x T ->
  sum_size (filter (fun y => q y && negb (same x y)) T) = sum_size (filter q T) - (if q x then r_size x else 0).
Proof.
  intros S Hx. destruct (filter_and_notsame T x q S Hx) as (T1 & T2 & _ & E1 & E2 & _).
  rewrite E1, E2, !sum_size_app. destruct (q x); cbn; unfold sum_size; cbn; lia.
Qed.

Lemma sum_add T x q : ssorted T -> In x T -> q x = false ->
  sum_size (filter (fun y => q y || same x y) T) = sum_size (filter q T) + r_size x.
Proof.
  intros S Hx Q. destruct (filter_and_notsame T x q S Hx) as (T1 & T2 & _ & _ & E2 & E3 & _).
  rewrite E2, E3, Q, !sum_size_app. cbn [app]. rewrite sum_size_cons. unfold sum_size; cbn; lia.
Qed.

Lemma update_sub T q tot r : ds T -> In r T ->
  fst (update (RT (filter q T) tot) r) =
    RT (filter (fun y => q y || same r y) T) (tot + r_size r - if q r then r_size r else 0).
Proof.
  intros D Hr. pose proof (ds_valid _ _ D Hr) as V.
  rewrite (update_spec _ _ _ (ds_filter q _ D) V). cbn [fst].
  pose proof (ds_ssorted _ D) as S.
  pose proof (fun y => ds_overlaps_same T r y D Hr) as OV.
  rewrite !filter_filter.
  assert (E1 : filter (fun x => q x && negb (overlaps x r)) T = filter (fun y => q y && negb (same r y)) T).
  { apply filter_ext_in. intros y Hy. rewrite (OV y Hy). reflexivity. }
  assert (E2 : filter (fun x => q x && overlaps x r) T = if q r then [r] else []).
  { destruct (filter_and_notsame T r q S Hr) as (T1 & T2 & -> & _ & _ & _ & L1 & L2).
    rewrite filter_app. cbn. rewrite (valid_overlaps_self _ V), andb_true_r.
    rewrite (filter_false_nil _ T1), (filter_false_nil _ T2).
    - destruct (q r); reflexivity.
    - intros y Hy. rewrite OV by (apply in_or_app; right; right; exact Hy).
      rewrite (slt_same_l r y (L2 y Hy)). apply andb_false_r.
    - intros y Hy. rewrite OV by (apply in_or_app; left; exact Hy).
      rewrite (slt_same_r y r (L1 y Hy)). apply andb_false_r. }
  rewrite E1, E2. f_equal.
  - destruct (filter_and_notsame T r q S Hr) as (T1 & T2 & _ & F1 & _ & F3 & L1 & L2).
    rewrite F1, F3. apply ins_region_middle.
    + intros y Hy. apply filter_In in Hy as [Hy _]. auto.
    + intros y Hy. apply filter_In in Hy as [Hy _]. auto.
  - destruct (q r); cbn; unfold sum_size; cbn; lia.
Qed.

(* q is a parameter because in the middle of SetRegion the sub-trees hold "has the role and is not the item" *)
Definition fams_rep (st : rinfo) (T : list region) (q : famk -> Z -> region -> bool) : Prop :=
  forall f s, fam_of st f s = RT (filter (q f s) T) (sum_size (filter (q f s) T)).

Definition trees_rep (st : rinfo) (T : list region) : Prop :=
  tree st = RT T (sum_size T) /\ fams_rep st T has_role /\ bad st = false.

Definition regs_rep (l : list (Z * region)) (L : list region) : Prop :=
  NoDup (map fst l) /\ forall id r, In (id, r) l <-> (In r L /\ r_id r = id).

Definition good (T : list region) : Prop :=
  ds T /\ NoDup (map r_id T) /\ forall x, In x T -> wf_peers x = true.

Definition Inv (st : rinfo) : Prop :=
  trees_rep st (items (tree st)) /\ regs_rep (regs st) (items (tree st)) /\ good (items (tree st)).

Lemma fams_rep_rebase st T T' q q' :
  (forall f s, filter (q f s) T = filter (q' f s) T') -> fams_rep st T q -> fams_rep st T' q'.
Proof. intros E H f s. rewrite (H f s), (E f s). reflexivity. Qed.

Lemma fams_rep_ext st T q q' :
  (forall f s y, In y T -> q f s y = q' f s y) -> fams_rep st T q -> fams_rep st T q'.
Proof. intros E. apply fams_rep_rebase. intros f s. apply filter_ext_in. intros y Hy. apply E, Hy. Qed.

Lemma fams_rep_same st st' T q : (forall f, fam_of st' f = fam_of st f) -> fams_rep st T q -> fams_rep st' T q.
Proof. intros E H f s. rewrite E. apply H. Qed.

Lemma regs_rep_equiv l L L' : (forall x, In x L <-> In x L') -> regs_rep l L -> regs_rep l L'.
Proof. intros E [N H]. split; [exact N|]. intros id r. rewrite H, E. tauto. Qed.

Lemma nodup_ids_eq T x y : NoDup (map r_id T) -> In x T -> In y T -> r_id x = r_id y -> x = y.
Proof. apply NoDup_map_eq. Qed.

Lemma regs_get_in l id r : NoDup (map fst l) -> (regs_get l id = Some r <-> In (id, r) l).
Proof.
  induction l as [|[k v] l IH]; cbn; intros N; [split; [discriminate|tauto]|].
  inversion N as [|? ? N1 N2]; subst. destruct (Z.eqb_spec k id) as [->|NE].
  - split; [intros H; inversion H; auto|].
    intros [H|H]; [inversion H; reflexivity|]. exfalso. apply N1. apply in_map_iff. exists (id, r). auto.
  - rewrite (IH N2). split; [auto|]. intros [H|H]; [inversion H; congruence|exact H].
Qed.

Lemma regs_get_none l id : regs_get l id = None -> forall r, ~ In (id, r) l.
Proof.
  induction l as [|[k v] l IH]; cbn; intros H r; [tauto|].
  destruct (Z.eqb_spec k id) as [->|NE]; [discriminate|].
  intros [E|Hin]; [inversion E; congruence|]. eapply IH; eauto.
Qed.

Lemma regs_put_fst l id r : In id (map fst l) -> map fst (regs_put l id r) = map fst l.
Proof.
  induction l as [|[k v] l IH]; cbn; intros H; [destruct H|].
  destruct (Z.eqb_spec k id) as [->|NE]; cbn; [reflexivity|]. f_equal. apply IH. destruct H; [congruence|exact H].
Qed.

Lemma regs_put_in l id r k v : NoDup (map fst l) ->
  (In (k, v) (regs_put l id r) <-> (k = id /\ v = r) \/ (k <> id /\ In (k, v) l)).
Proof.
  induction l as [|[k0 v0] l IH]; cbn; intros N.
  - split; [intros [H|[]]; inversion H; auto | intros [[-> ->]|[_ []]]; auto].
  - inversion N as [|? ? N1 N2]; subst. destruct (Z.eqb_spec k0 id) as [->|NE]; cbn.
    + split.
      * intros [H|H]; [inversion H; auto|]. right. split; [|auto]. intros ->. apply N1. apply in_map_iff. exists (id, v). auto.
      * intros [[-> ->]|[NE [H|H]]]; auto. inversion H; congruence.
    + rewrite (IH N2). split.
      * intros [H|[H|H]]; [inversion H; subst; right; auto|auto|right; tauto].
      * intros [H|[NE' [H|H]]]; auto.
Qed.

Lemma regs_put_nodup l id r : NoDup (map fst l) -> NoDup (map fst (regs_put l id r)).
Proof.
  induction l as [|[k0 v0] l IH]; cbn; intros N; [constructor; [tauto|constructor]|].
  inversion N as [|? ? N1 N2]; subst. destruct (Z.eqb_spec k0 id) as [->|NE]; cbn; [exact N|].
  constructor; [|auto]. intros Hin. apply in_map_iff in Hin as ([k v] & E & Hin). cbn in E; subst k.
  apply regs_put_in in Hin; [|exact N2]. destruct Hin as [[-> _]|[_ Hin]]; [congruence|].
  apply N1. apply in_map_iff. exists (k0, v). auto.
Qed.

Lemma regs_del_in l id k v : NoDup (map fst l) ->
  (In (k, v) (regs_del l id) <-> k <> id /\ In (k, v) l).
Proof.
  induction l as [|[k0 v0] l IH]; cbn; intros N; [tauto|].
  inversion N as [|? ? N1 N2]; subst. destruct (Z.eqb_spec k0 id) as [->|NE]; cbn.
  - split.
    + intros H. split; [|auto]. intros ->. apply N1. apply in_map_iff. exists (id, v). auto.
    + intros [NE [H|H]]; [inversion H; congruence|exact H].
  - rewrite (IH N2). split.
    + intros [H|H]; [inversion H; subst; auto|tauto].
    + intros [NE' [H|H]]; auto.
Qed.

Lemma regs_del_nodup l id : NoDup (map fst l) -> NoDup (map fst (regs_del l id)).
Proof.
  induction l as [|[k0 v0] l IH]; cbn; intros N; [constructor|].
  inversion N as [|? ? N1 N2]; subst. destruct (Z.eqb_spec k0 id) as [->|NE]; cbn; [exact N2|].
  constructor; [|auto]. intros Hin. apply in_map_iff in Hin as ([k v] & E & Hin). cbn in E; subst k.
  apply regs_del_in in Hin as [_ Hin]; [|exact N2]. apply N1. apply in_map_iff. exists (k0, v). auto.
Qed.

Lemma regs_rep_get l L id r : regs_rep l L -> (regs_get l id = Some r <-> In r L /\ r_id r = id).
Proof. intros [N H]. rewrite (regs_get_in _ _ _ N). apply H. Qed.

Lemma regs_rep_get_none l L id : regs_rep l L -> regs_get l id = None -> forall x, In x L -> r_id x <> id.
Proof. intros [N H] G x Hx E. apply (regs_get_none _ _ G x). apply H. auto. Qed.

Lemma regs_rep_del l L id : regs_rep l L -> regs_rep (regs_del l id) (filter (fun y => negb (r_id y =? id)) L).
Proof.
  intros [N H]. split; [apply regs_del_nodup, N|]. intros k v. rewrite (regs_del_in _ _ _ _ N), H, filter_In.
  rewrite negb_true_iff, Z.eqb_neq. split; [intros [NE [Hv E]]; subst; auto | intros [[Hv NE] E]; subst; auto].
Qed.

Lemma regs_rep_put l L r :
  regs_rep l L -> regs_rep (regs_put l (r_id r) r) (r :: filter (fun y => negb (r_id y =? r_id r)) L).
Proof.
  intros [N H]. split; [apply regs_put_nodup, N|]. intros k v. rewrite (regs_put_in _ _ _ _ _ N), H. cbn.
  rewrite filter_In, negb_true_iff, Z.eqb_neq. split.
  - intros [[-> ->]|[NE [Hv E]]]; [auto|]. subst. auto.
  - intros [[<-|[Hv NE]] E]; [left; auto|right; subst; auto].
Qed.

Lemma regs_rep_perm l L : regs_rep l L -> NoDup (map r_id L) -> Permutation (map snd l) L.
Proof.
  intros [N H] NL.
  assert (E : map fst l = map r_id (map snd l)).
  { rewrite map_map. apply map_ext_in. intros [k v] Hin. cbn. destruct (proj1 (H k v) Hin). auto. }
  apply NoDup_Permutation.
  - rewrite E in N. apply NoDup_map_inv in N. exact N.
  - apply NoDup_map_inv in NL. exact NL.
  - intros v. rewrite in_map_iff. split.
    + intros ([k v'] & <- & Hin). apply H in Hin. tauto.
    + intros Hv. exists (r_id v, v). split; [reflexivity|]. apply H. auto.
Qed.

Lemma fam_of_remove st x f :
  fam_of (remove_from_subtrees st x) f = fam_fold (fun t => remove t x) all_peers (r_peers x) (fam_of st f).
Proof. destruct f; reflexivity. Qed.

Lemma remove_from_subtrees_rep st T q x :
  ds T -> In x T -> NoDup (map p_store (r_peers x)) ->
  (forall f s, q f s x = true -> existsb (fun p => all_peers p && (p_store p =? s)) (r_peers x) = true) ->
  fams_rep st T q ->
  fams_rep (remove_from_subtrees st x) T (fun f s y => q f s y && negb (same x y)).
Proof.
  intros D Hx N RP H f s. rewrite fam_of_remove, (fam_fold_once _ _ _ _ _ N), (H f s).
  pose proof (ds_ssorted _ D) as S.
  destruct (existsb _ (r_peers x)) eqn:E.
  - rewrite (remove_sub _ _ _ _ D Hx). f_equal. symmetry. apply sum_remove; auto.
  - assert (Q : q f s x = false).
    { destruct (q f s x) eqn:Q; [|reflexivity]. rewrite (RP f s Q) in E. discriminate. }
    assert (EF : filter (fun y => q f s y && negb (same x y)) T = filter (q f s) T).
    { apply filter_ext_in. intros y Hy. destruct (q f s y) eqn:Qy; [|reflexivity]. cbn.
      destruct (same x y) eqn:Sm; [|reflexivity]. rewrite (same_in_eq _ _ _ S Hx Hy Sm) in Qy. congruence. }
    rewrite EF. reflexivity.
Qed.

Lemma remove_from_subtrees_other st x :
  regs (remove_from_subtrees st x) = regs st /\ tree (remove_from_subtrees st x) = tree st /\ bad (remove_from_subtrees st x) = bad st.
Proof. repeat split. Qed.

Lemma fam_of_add st r f :
  fam_of (add_to_subtrees st r) f =
  match f with
  | FLeader => fam_fold (fun t => fst (update t r)) (is_leader r) (voters r) (fam_of st f)
  | FFollower => fam_fold (fun t => fst (update t r)) (not_leader r) (voters r) (fam_of st f)
  | FLearner => fam_fold (fun t => fst (update t r)) all_peers (learners_of r) (fam_of st f)
  | FPending => fam_fold (fun t => fst (update t r)) all_peers (r_pending r) (fam_of st f)
  end.
Proof. destruct f; reflexivity. Qed.

(* the roles, in the shape of the loops of SetRegion *)
Lemma role_as_loop f s r :
  has_role f s r =
  match f with
  | FLeader => existsb (fun p => is_leader r p && (p_store p =? s)) (voters r)
  | FFollower => existsb (fun p => not_leader r p && (p_store p =? s)) (voters r)
  | FLearner => existsb (fun p => all_peers p && (p_store p =? s)) (learners_of r)
  | FPending => existsb (fun p => all_peers p && (p_store p =? s)) (r_pending r)
  end.
Proof.
  destruct f; unfold voters, learners_of; rewrite <- ?(existsb_perm _ _ _ (sort_peers_perm _)), ?existsb_filter; cbn;
    apply existsb_ext_in; intros p _; unfold not_leader, is_leader;
    destruct (p_learner p), (p_store p =? s), (p_id p =? r_leader r); reflexivity.
Qed.

Lemma add_to_subtrees_rep st T q r :
  ds T -> In r T -> wf_peers r = true -> (forall f s, q f s r = false) ->
  fams_rep st T q ->
  fams_rep (add_to_subtrees st r) T (fun f s y => q f s y || (same r y && has_role f s r)).
Proof.
  intros D Hr W Q H f s. pose proof (ds_ssorted _ D) as S.
  pose proof (wf_peers_parts _ W) as (_ & _ & NP).
  assert (G : fam_of (add_to_subtrees st r) f s =
              if has_role f s r then fst (update (fam_of st f s) r) else fam_of st f s).
  { rewrite fam_of_add, (role_as_loop f s r).
    destruct f; apply fam_fold_once; auto using voters_nodup, learners_nodup. }
  rewrite G, (H f s). destruct (has_role f s r).
  - rewrite (update_sub _ _ _ _ D Hr), (Q f s).
    assert (EF : filter (fun y => q f s y || same r y && true) T = filter (fun y => q f s y || same r y) T).
    { apply filter_ext_in. intros y _. rewrite andb_true_r. reflexivity. }
    rewrite EF. f_equal. rewrite (sum_add _ _ _ S Hr (Q f s)). lia.
  - assert (EF : filter (fun y => q f s y || same r y && false) T = filter (q f s) T).
    { apply filter_ext_in. intros y _. rewrite andb_false_r, orb_false_r. reflexivity. }
    rewrite EF. reflexivity.
Qed.

(* the item is in none of the sub-trees and goes back into those of its roles *)
Lemma add_back st T r : ds T -> In r T -> wf_peers r = true ->
  fams_rep st T (fun f s y => has_role f s y && negb (same r y)) -> fams_rep (add_to_subtrees st r) T has_role.
Proof.
  intros D Hr WP F. eapply fams_rep_ext; [|apply (add_to_subtrees_rep st T (fun f s y => has_role f s y && negb (same r y)) r D Hr WP); [|exact F]].
  - intros f s y Hy. cbn. destruct (same r y) eqn:Sm.
    + rewrite (same_in_eq _ _ _ (ds_ssorted _ D) Hr Hy Sm). rewrite andb_false_r. reflexivity.
    + rewrite andb_true_r, orb_false_r. reflexivity.
  - intros f s. rewrite same_refl. apply andb_false_r.
Qed.

Definition replf (r : region) (x : region) : region := if r_id x =? r_id r then r else x.

Lemma repl_items r t : items (repl (r_id r) r t) = map (replf r) (items t).
Proof. reflexivity. Qed.

Lemma map_replf_noop r l : (forall y, In y l -> r_id y <> r_id r) -> map (replf r) l = l.
Proof.
  induction l as [|a l IH]; intros H; cbn; [reflexivity|].
  unfold replf at 1. destruct (Z.eqb_spec (r_id a) (r_id r)) as [E|_]; [exfalso; eapply H; [left; reflexivity|exact E]|].
  f_equal. apply IH. intros y Hy; apply H; right; exact Hy.
Qed.

Lemma replace_split T origin r :
  NoDup (map r_id T) -> In origin T -> r_id origin = r_id r ->
  exists T1 T2, T = T1 ++ origin :: T2 /\ map (replf r) T = T1 ++ r :: T2 /\
    (forall y, In y (T1 ++ T2) -> r_id y <> r_id r).
Proof.
  intros N Ho E. apply in_split in Ho as (T1 & T2 & ->). exists T1, T2.
  assert (NI : forall y, In y (T1 ++ T2) -> r_id y <> r_id r).
  { intros y Hy Ey. rewrite map_app in N. cbn in N. apply NoDup_remove_2 in N. apply N.
    rewrite <- map_app. rewrite E, <- Ey. apply in_map, Hy. }
  split; [reflexivity|]. split; [|exact NI].
  rewrite map_app. cbn. unfold replf at 2. rewrite E, Z.eqb_refl.
  rewrite !map_replf_noop; [reflexivity| |]; intros y Hy; apply NI; apply in_or_app; auto.
Qed.

Definition keep (r x : region) : bool := negb (r_id x =? r_id r) && negb (overlaps x r).
Definition spec_tree (T : list region) (r : region) : list region := ins_region r (filter (keep r) T).
Definition displaced (T : list region) (r : region) : list region :=
  filter (fun x => negb (r_id x =? r_id r) && overlaps x r) T.

Lemma spec_tree_ds T r : ds T -> validP r -> ds (spec_tree T r).
Proof.
  intros D V. apply ins_region_ds; [apply ds_filter, D|exact V|].
  intros y Hy. apply filter_In in Hy as [_ K]. unfold keep in K. apply andb_true_iff in K as [_ K].
  apply negb_true_iff in K. exact K.
Qed.

Lemma spec_tree_in T r x : In x (spec_tree T r) <-> x = r \/ (In x T /\ keep r x = true).
Proof. unfold spec_tree. rewrite ins_region_in, filter_In. tauto. Qed.

Lemma keep_not_same T r y : ds T -> validP r -> In y T -> keep r y = true -> same r y = false.
Proof.
  intros D V Hy K. unfold keep in K. apply andb_true_iff in K as [_ K].
  eapply no_same_after_filter; eauto. apply filter_In. auto.
Qed.

Lemma spec_tree_perm T r : Permutation (r :: filter (keep r) T) (spec_tree T r).
Proof. apply ins_region_perm. Qed.

Lemma spec_tree_good T r : good T -> wf_region r = true -> good (spec_tree T r).
Proof.
  intros (D & N & W) WR. unfold wf_region in WR. apply andb_true_iff in WR as [V WP].
  split; [apply spec_tree_ds; auto|]. split.
  - eapply Permutation_NoDup; [apply Permutation_map, spec_tree_perm|]. cbn. constructor.
    + intros Hin. apply in_map_iff in Hin as (y & E & Hy). apply filter_In in Hy as [_ K].
      unfold keep in K. apply andb_true_iff in K as [K _]. apply negb_true_iff, Z.eqb_neq in K. congruence.
    + apply NoDup_map_filter, N.
  - intros x Hx. apply spec_tree_in in Hx as [->|[Hx _]]; auto.
Qed.

Lemma filter_notsame_ins r L : (forall y, In y L -> same r y = false) ->
  filter (fun y => negb (same r y)) (ins_region r L) = L.
Proof.
  induction L as [|a L IH]; intros H; cbn.
  - rewrite same_refl. reflexivity.
  - destruct (rlt r a); cbn.
    + rewrite same_refl. cbn. rewrite (H a (or_introl eq_refl)). cbn. f_equal.
      apply filter_true_id. intros y Hy. rewrite (H y (or_intror Hy)). reflexivity.
    + rewrite (H a (or_introl eq_refl)). cbn. f_equal. apply IH. intros y Hy; apply H; right; exact Hy.
Qed.

Lemma sum_spec_tree T r : sum_size (spec_tree T r) = r_size r + sum_size (filter (keep r) T).
Proof. rewrite <- (sum_size_perm _ _ (spec_tree_perm T r)). reflexivity. Qed.

Lemma remove_main T tot x : ds T -> In x T ->
  remove (RT T tot) x = RT (filter (fun y => negb (same x y)) T) (tot - r_size x).
Proof.
  intros D Hx. pose proof (remove_sub T (fun _ => true) tot x D Hx) as H.
  rewrite (filter_true_id (fun _ => true) T) in H by reflexivity. rewrite H. reflexivity.
Qed.

Lemma sum_remove_main T x : ssorted T -> In x T ->
  sum_size (filter (fun y => negb (same x y)) T) = sum_size T - r_size x.
Proof.
  intros S Hx. pose proof (sum_remove T x (fun _ => true) S Hx) as H. cbn in H.
  rewrite (filter_true_id (fun _ => true) T) in H by reflexivity. exact H.
Qed.

Lemma good_filter p T : good T -> good (filter p T).
Proof.
  intros (D & N & W). split; [apply ds_filter, D|]. split.
  - apply NoDup_map_filter, N.
  - intros x Hx. apply filter_In in Hx as [Hx _]. auto.
Qed.

Lemma id_vs_same T x y : good T -> In x T -> In y T -> (r_id y =? r_id x) = same x y.
Proof.
  intros (D & N & _) Hx Hy. destruct (Z.eqb_spec (r_id y) (r_id x)) as [E|NE].
  - rewrite (nodup_ids_eq _ _ _ N Hy Hx E). symmetry; apply same_refl.
  - destruct (same x y) eqn:S; [|reflexivity]. rewrite (same_in_eq _ _ _ (ds_ssorted _ D) Hx Hy S) in NE. congruence.
Qed.

Lemma remove_region_rep st T x :
  trees_rep st T -> regs_rep (regs st) T -> good T -> In x T ->
  trees_rep (remove_region st x) (filter (fun y => negb (same x y)) T) /\
  regs_rep (regs (remove_region st x)) (filter (fun y => negb (same x y)) T) /\
  good (filter (fun y => negb (same x y)) T).
Proof.
  intros (HT & HF & HB) HR G Hx. pose proof G as (D & N & W).
  pose proof (wf_peers_parts _ (W x Hx)) as (_ & NP & _).
  unfold remove_region. set (st2 := RI _ _ _ _ _ _ _).
  destruct (remove_from_subtrees_other st2 x) as (E1 & E2 & E3).
  assert (F2 : fams_rep st2 T has_role) by (apply (fams_rep_same st); [intros []; reflexivity|exact HF]).
  pose proof (remove_from_subtrees_rep st2 T has_role x D Hx NP (fun f s => role_needs_peer f s x (W x Hx)) F2) as F3.
  split; [|split].
  - split; [|split].
    + rewrite E2. unfold st2; cbn. rewrite HT, (remove_main _ _ _ D Hx). f_equal.
      symmetry. apply sum_remove_main; [apply ds_ssorted, D|exact Hx].
    + eapply fams_rep_rebase; [|exact F3]. intros f s. cbn. rewrite filter_filter.
      apply filter_ext_in. intros y _. apply andb_comm.
    + rewrite E3. exact HB.
  - rewrite E1. unfold st2; cbn. eapply regs_rep_equiv; [|apply regs_rep_del, HR].
    intros y. rewrite !filter_In. split; intros [Hy C]; (split; [exact Hy|]).
    + rewrite <- (id_vs_same _ _ _ G Hx Hy). exact C.
    + rewrite (id_vs_same _ _ _ G Hx Hy). exact C.
  - apply good_filter, G.
Qed.

(* Tb: the list the families are represented over (the main list before tree.update); T1: the main list after it, which the
   loop does not touch; L: the contents of the id map; O: the displaced regions still to go *)
Lemma remove_overlapped_rep Tb T1 tot1 : good Tb -> ds T1 ->
  forall O st q L,
    (forall o, In o O -> In o Tb) -> NoDup (map r_id O) ->
    (forall o y, In o O -> In y T1 -> r_id y <> r_id o) ->
    tree st = RT T1 tot1 -> bad st = false -> regs_rep (regs st) L -> (forall o, In o O -> In o L) ->
    NoDup (map r_id L) ->
    fams_rep st Tb q -> (forall f s y, q f s y = true -> has_role f s y = true) ->
    let st' := remove_overlapped st O in
    tree st' = RT T1 tot1 /\ bad st' = false /\
    regs_rep (regs st') (filter (fun y => negb (existsb (fun o => r_id o =? r_id y) O)) L) /\
    fams_rep st' Tb (fun f s y => q f s y && negb (existsb (fun o => same o y) O)).
Proof.
  intros G D1. pose proof G as (Db & Nb & Wb).
  induction O as [|o O IH]; intros st q L HO NO NE HT HB HR HL NL HF HQ; cbn [remove_overlapped fold_left].
  - cbn. split; [exact HT|]. split; [exact HB|]. split.
    + eapply regs_rep_equiv; [|exact HR]. intros x. rewrite filter_In. cbn. tauto.
    + eapply fams_rep_ext; [|exact HF]. intros f s y _. rewrite andb_true_r. reflexivity.
  - assert (Ho : In o Tb) by (apply HO; left; reflexivity).
    assert (GR : get_region st (r_id o) = Some o).
    { unfold get_region. apply (regs_rep_get _ _ _ _ HR). split; [apply HL; left; reflexivity|reflexivity]. }
    rewrite GR.
    pose proof (wf_peers_parts _ (Wb o Ho)) as (_ & NP & _).
    set (st1 := remove_region st o).
    assert (T1' : tree st1 = RT T1 tot1).
    { unfold st1, remove_region. cbn. rewrite HT. apply remove_noop; [exact D1|]. intros y Hy. apply NE; [left; reflexivity|exact Hy]. }
    assert (B1 : bad st1 = false) by exact HB.
    assert (R1 : regs_rep (regs st1) (filter (fun y => negb (r_id y =? r_id o)) L)).
    { unfold st1, remove_region. cbn. apply regs_rep_del, HR. }
    assert (F1 : fams_rep st1 Tb (fun f s y => q f s y && negb (same o y))).
    { unfold st1, remove_region. apply (remove_from_subtrees_rep _ Tb q o Db Ho NP).
      - intros f s Q. apply (role_needs_peer f s o (Wb o Ho)). apply HQ, Q.
      - apply (fams_rep_same st); [intros []; reflexivity|exact HF]. }
    cbn in NO. inversion NO as [|? ? NO1 NO2]; subst.
    assert (P1 : forall o', In o' O -> In o' Tb) by (intros o' Ho'; apply HO; right; exact Ho').
    assert (P2 : forall o' y, In o' O -> In y T1 -> r_id y <> r_id o').
    { intros o' y Ho' Hy. apply NE; [right; exact Ho'|exact Hy]. }
    assert (P3 : forall o', In o' O -> In o' (filter (fun y => negb (r_id y =? r_id o)) L)).
    { intros o' Ho'. apply filter_In. split; [apply HL; right; exact Ho'|].
      apply negb_true_iff, Z.eqb_neq. intros E. apply NO1. rewrite <- E. apply in_map, Ho'. }
    assert (P4 : NoDup (map r_id (filter (fun y => negb (r_id y =? r_id o)) L))) by apply NoDup_map_filter, NL.
    assert (P5 : forall f s y, q f s y && negb (same o y) = true -> has_role f s y = true).
    { intros f s y Q. apply andb_true_iff in Q as [Q _]. apply HQ, Q. }
    destruct (IH st1 _ _ P1 NO2 P2 T1' B1 R1 P3 P4 F1 P5) as (A & B & C & E).
    fold (remove_overlapped st1 O). split; [exact A|]. split; [exact B|]. split.
    + eapply regs_rep_equiv; [|exact C]. intros x. rewrite !filter_In. cbn [existsb].
      rewrite !negb_true_iff, orb_false_iff. rewrite (Z.eqb_sym (r_id o) (r_id x)). tauto.
    + eapply fams_rep_ext; [|exact E]. intros f s y _. cbn [existsb]. rewrite negb_orb, andb_assoc. reflexivity.
Qed.

(* the common tail of SetRegion when the range is new or changed:
   tree.update, RemoveRegion of every displaced region, the item added to its sub-trees        *)
Definition tail (st3 : rinfo) (r : region) : rinfo * list region :=
  let '(t', ov) := update (tree st3) r in
  (add_to_subtrees (remove_overlapped (set_tree st3 t') ov) r, ov).

Lemma fams_rep_set_tree st t T q : fams_rep st T q -> fams_rep (set_tree st t) T q.
Proof. apply fams_rep_same. intros []; reflexivity. Qed.

Lemma tail_rep st3 T0 r :
  tree st3 = RT T0 (sum_size T0) -> fams_rep st3 T0 has_role -> bad st3 = false ->
  regs_rep (regs st3) (r :: T0) -> good T0 -> (forall y, In y T0 -> r_id y <> r_id r) ->
  validP r -> wf_peers r = true ->
  let T' := ins_region r (filter (fun x => negb (overlaps x r)) T0) in
  trees_rep (fst (tail st3 r)) T' /\ regs_rep (regs (fst (tail st3 r))) T' /\
  snd (tail st3 r) = filter (fun x => overlaps x r) T0.
Proof.
  intros HT HF HB HR G NI V WP T'. pose proof G as (D & N & W).
  unfold tail. rewrite HT, (update_spec _ _ _ D V).
  set (ov := filter (fun x => overlaps x r) T0).
  set (tot1 := sum_size T0 + r_size r - sum_size ov).
  fold T'. cbn [fst snd].
  assert (D' : ds T') by (apply update_ds; auto).
  assert (NS : forall y, In y (filter (fun x => negb (overlaps x r)) T0) -> same r y = false).
  { intros y Hy. apply (no_same_after_filter T0 r y D V Hy). }
  assert (InT' : forall y, In y T' <-> y = r \/ In y (filter (fun x => negb (overlaps x r)) T0)).
  { intros y. unfold T'. apply ins_region_in. }
  destruct (remove_overlapped_rep T0 T' tot1 G D' ov (set_tree st3 (RT T' tot1)) has_role (r :: T0)) as (A & B & C & E).
  - intros o Ho. apply filter_In in Ho. tauto.
  - apply NoDup_map_filter, N.
  - intros o y Ho Hy. apply filter_In in Ho as [Ho Oo]. apply InT' in Hy as [->|Hy].
    + intros E. apply (NI o Ho). congruence.
    + apply filter_In in Hy as [Hy Oy]. intros E. rewrite (nodup_ids_eq _ _ _ N Hy Ho E), Oo in Oy. discriminate.
  - reflexivity.
  - exact HB.
  - exact HR.
  - intros o Ho. apply filter_In in Ho as [Ho _]. right; exact Ho.
  - cbn. constructor; [|exact N]. intros Hin. apply in_map_iff in Hin as (y & E & Hy). apply (NI y Hy E).
  - apply fams_rep_set_tree, HF.
  - auto.
  - set (st4 := remove_overlapped (set_tree st3 (RT T' tot1)) ov) in *.
    (* sub-trees of st4, re-based on T' *)
    assert (F4 : fams_rep st4 T' (fun f s y => has_role f s y && negb (same r y))).
    { eapply fams_rep_rebase; [|exact E]. intros f s. cbn.
      transitivity (filter (has_role f s) (filter (fun y => negb (same r y)) T')).
      - unfold T'. rewrite (filter_notsame_ins _ _ NS), filter_filter.
        apply filter_ext_in. intros y Hy. rewrite andb_comm. f_equal. f_equal.
        apply (existsb_filter_self same (fun x => overlaps x r)); [|apply same_refl|exact Hy].
        intros o Ho So. symmetry. exact (same_in_eq _ _ _ (ds_ssorted _ D) Ho Hy So).
      - rewrite filter_filter. apply filter_ext_in. intros y _. apply andb_comm. }
    assert (Hr : In r T') by (apply InT'; left; reflexivity).
    split; [|split].
    + split; [|split].
      * change (tree (add_to_subtrees st4 r)) with (tree st4). rewrite A. f_equal.
        unfold tot1, T'. rewrite <- (sum_size_perm _ _ (ins_region_perm r _)), sum_size_cons.
        rewrite (sum_size_filter_split (fun x => overlaps x r) T0). fold ov. lia.
      * apply add_back; assumption.
      * exact B.
    + change (regs (add_to_subtrees st4 r)) with (regs st4). eapply regs_rep_equiv; [|exact C].
      assert (K : forall y, In y T0 -> existsb (fun o => r_id o =? r_id y) ov = overlaps y r).
      { intros y Hy. apply (existsb_filter_self (fun o y => r_id o =? r_id y) (fun x => overlaps x r)); [|apply Z.eqb_refl|exact Hy].
        intros o Ho Eo. apply Z.eqb_eq in Eo. exact (nodup_ids_eq _ _ _ N Ho Hy Eo). }
      intros y. rewrite InT', !filter_In. cbn [In]. split.
      * intros [[<-|Hy] X]; [left; reflexivity|]. right. rewrite (K y Hy) in X. auto.
      * intros [->|[Hy O]]; [|rewrite (K y Hy); auto].
        split; [left; reflexivity|]. apply negb_true_iff. destruct (existsb _ ov) eqn:X; [|reflexivity].
        apply existsb_exists in X as (o & Ho & Eo). apply filter_In in Ho as [Ho _]. apply Z.eqb_eq in Eo. exfalso. eapply NI; eauto.
    + reflexivity.
Qed.

(* the tail started from the lists of T without the id of r: what SetRegion has made of the state by then on both paths *)
Lemma tail_spec st3 T r : let T0 := filter (fun y => negb (r_id y =? r_id r)) T in
  tree st3 = RT T0 (sum_size T0) -> fams_rep st3 T0 has_role -> bad st3 = false ->
  regs_rep (regs st3) (r :: T0) -> good T -> validP r -> wf_peers r = true ->
  trees_rep (fst (tail st3 r)) (spec_tree T r) /\ regs_rep (regs (fst (tail st3 r))) (spec_tree T r) /\
  snd (tail st3 r) = displaced T r.
Proof.
  intros T0 HT HF HB HR G V WP.
  assert (EK : filter (keep r) T = filter (fun x => negb (overlaps x r)) T0) by (unfold T0; rewrite filter_filter; reflexivity).
  assert (ED : displaced T r = filter (fun x => overlaps x r) T0) by (unfold T0, displaced; rewrite filter_filter; reflexivity).
  unfold spec_tree. rewrite EK, ED. apply (tail_rep st3 T0 r HT HF HB HR (good_filter _ _ G)); [|exact V|exact WP].
  intros y Hy. apply filter_In in Hy as [_ C]. apply negb_true_iff, Z.eqb_neq in C. exact C.
Qed.

(* unchanged peers: shouldRemoveFromSubTree = false means the same roles on every store          *)
Lemma spe_existsb a b (c c' : peer -> bool) :
  sorted_peers_equal a b = true ->
  (forall p p', p_store p = p_store p' -> p_id p = p_id p' -> c p = c' p') ->
  existsb c a = existsb c' b.
Proof.
  revert b. induction a as [|x a IH]; intros [|y b]; cbn; try discriminate; [reflexivity|].
  intros H Hc. apply andb_true_iff in H as [H H3]. apply andb_true_iff in H as [H1 H2].
  apply Z.eqb_eq in H1. apply Z.eqb_eq in H2. rewrite (Hc x y H1 H2), (IH b H3 Hc). reflexivity.
Qed.

Lemma same_roles r origin : should_remove r origin = false -> forall f s, has_role f s r = has_role f s origin.
Proof.
  unfold should_remove. intros H f s.
  apply orb_false_iff in H as [H H4]. apply orb_false_iff in H as [H H3]. apply orb_false_iff in H as [H1 H2].
  apply negb_false_iff in H1, H2, H3, H4. apply Z.eqb_eq in H1.
  rewrite !role_as_loop. symmetry. destruct f.
  - apply (spe_existsb _ _ _ _ H2). intros p p' E1 E2. unfold is_leader. rewrite E1, E2, H1. reflexivity.
  - apply (spe_existsb _ _ _ _ H2). intros p p' E1 E2. unfold not_leader, is_leader. rewrite E1, E2, H1. reflexivity.
  - apply (spe_existsb _ _ _ _ H3). intros p p' E1 E2. rewrite E1. reflexivity.
  - apply (spe_existsb _ _ _ _ H4). intros p p' E1 E2. rewrite E1. reflexivity.
Qed.

Section SameRange.
  Variables (T : list region) (origin r : region).
  Hypothesis G : good T.
  Hypothesis Ho : In origin T.
  Hypothesis Eid : r_id origin = r_id r.
  Hypothesis Es : r_start origin = r_start r.
  Hypothesis Ee : r_end origin = r_end r.

  Let T'' := map (replf r) T.

  Lemma sr_overlaps y : overlaps y r = overlaps y origin.
  Proof. unfold overlaps. rewrite Es, Ee. reflexivity. Qed.

  Lemma sr_same y : same r y = same origin y.
  Proof. unfold same. rewrite Es. reflexivity. Qed.

  Lemma sr_keep y : In y T -> keep r y = negb (same origin y).
  Proof.
    intros Hy. unfold keep. rewrite sr_overlaps, <- Eid, (id_vs_same _ _ _ G Ho Hy).
    destruct G as (D & _ & _). rewrite (ds_overlaps_same T origin y D Ho Hy). destruct (same origin y); reflexivity.
  Qed.

  Lemma sr_spec_tree : spec_tree T r = T''.
  Proof.
    destruct G as (D & N & _). pose proof (ds_ssorted _ D) as S.
    destruct (replace_split T origin r N Ho Eid) as (T1 & T2 & ET & ET'' & NI).
    unfold spec_tree, T''. rewrite ET''.
    assert (EF : filter (keep r) T = T1 ++ T2).
    { rewrite (filter_ext_in (keep r) (fun y => negb (same origin y)) T sr_keep).
      rewrite ET in S |- *. apply ssorted_app_inv in S as (A & B & C). apply ssorted_inv in B as [B1 B2].
      rewrite Forall_forall in B2. rewrite filter_app. cbn. rewrite same_refl. cbn.
      rewrite !filter_true_id; [reflexivity| |].
      - intros y Hy. rewrite (slt_same_l origin y (B2 y Hy)). reflexivity.
      - intros y Hy. rewrite (slt_same_r y origin); [reflexivity|]. apply C; [exact Hy|left; reflexivity]. }
    rewrite EF. rewrite ET in S. apply ssorted_app_inv in S as (A & B & C). apply ssorted_inv in B as [B1 B2].
    rewrite Forall_forall in B2. apply ins_region_middle.
    - intros y Hy. specialize (C y origin Hy (or_introl eq_refl)). unfold slt in *. rewrite <- Es. exact C.
    - intros y Hy. specialize (B2 y Hy). unfold slt in *. rewrite <- Es. exact B2.
  Qed.

  Lemma sr_in_r : In r T''.
  Proof. unfold T''. apply in_map_iff. exists origin. split; [|exact Ho]. unfold replf. rewrite Eid, Z.eqb_refl. reflexivity. Qed.

  Lemma sr_displaced : displaced T r = [].
  Proof.
    unfold displaced. apply filter_false_nil. intros y Hy.
    rewrite sr_overlaps, <- Eid, (id_vs_same _ _ _ G Ho Hy).
    destruct G as (D & _ & _). rewrite (ds_overlaps_same T origin y D Ho Hy). destruct (same origin y); reflexivity.
  Qed.

  Lemma sr_sum (q : region -> bool) : q r = q origin ->
    sum_size (filter q T'') = sum_size (filter q T) + (if q r then r_size r - r_size origin else 0).
  Proof.
    intros Q. destruct G as (D & N & _).
    destruct (replace_split T origin r N Ho Eid) as (T1 & T2 & ET & ET'' & NI).
    unfold T''. rewrite ET'', ET, !filter_app, !sum_size_app. cbn. rewrite <- Q.
    destruct (q r); cbn; rewrite ?sum_size_cons; lia.
  Qed.

  Lemma sr_sum_all : sum_size T'' = sum_size T + r_size r - r_size origin.
  Proof.
    pose proof (sr_sum (fun _ => true) eq_refl) as H. cbn in H.
    rewrite !(filter_true_id (fun _ => true)) in H by reflexivity. lia.
  Qed.

  (* sub-tree lists that do not contain the item are not touched by the assignment *)
  Lemma sr_filter_notsame (q : region -> bool) :
    filter (fun y => q y && negb (same origin y)) T = filter (fun y => q y && negb (same r y)) T''.
  Proof.
    unfold T''. rewrite <- (map_filter_comm (replf r) (fun y => q y && negb (same origin y))).
    - symmetry. apply map_replf_noop. intros y Hy. apply filter_In in Hy as [Hy C].
      apply andb_true_iff in C as [_ C]. apply negb_true_iff in C.
      rewrite <- Eid. intros E. apply Z.eqb_eq in E. rewrite (id_vs_same _ _ _ G Ho Hy) in E. congruence.
    - intros y Hy. unfold replf. destruct (Z.eqb_spec (r_id y) (r_id r)) as [E|NE].
      + rewrite same_refl. rewrite andb_false_r. rewrite <- Eid in E. apply Z.eqb_eq in E.
        rewrite (id_vs_same _ _ _ G Ho Hy) in E. rewrite E. rewrite andb_false_r. reflexivity.
      + rewrite sr_same. reflexivity.
  Qed.

  Lemma sr_filter_same_roles (q : region -> bool) : q r = q origin ->
    map (replf r) (filter q T) = filter q T''.
  Proof.
    intros Q. unfold T''. apply map_filter_comm. intros y Hy. unfold replf.
    destruct (Z.eqb_spec (r_id y) (r_id r)) as [E|NE]; [|reflexivity].
    destruct G as (_ & N & _). rewrite <- Eid in E. rewrite (nodup_ids_eq _ _ _ N Hy Ho E). exact Q.
  Qed.
End SameRange.

Lemma fam_of_assign st r f s : fam_of (assign st r) f s = repl (r_id r) r (fam_of st f s).
Proof. destruct f; reflexivity. Qed.

Lemma fam_of_stat st origin r f :
  fam_of (update_subtree_stat st origin r) f =
  match f with
  | FLeader => fam_fold (stat_if_present origin r) (is_leader r) (voters r) (fam_of st f)
  | FFollower => fam_fold (stat_if_present origin r) (not_leader r) (voters r) (fam_of st f)
  | FLearner => fam_fold (stat_if_present origin r) all_peers (learners_of r) (fam_of st f)
  | FPending => fam_fold (stat_if_present origin r) all_peers (r_pending r) (fam_of st f)
  end.
Proof. destruct f; reflexivity. Qed.

Lemma wf_region_parts r : wf_region r = true -> validP r /\ wf_peers r = true.
Proof. unfold wf_region. rewrite andb_true_iff. tauto. Qed.

Lemma set_region_new st T r :
  trees_rep st T -> regs_rep (regs st) T -> good T -> wf_region r = true ->
  get_region st (r_id r) = None ->
  trees_rep (fst (set_region st r)) (spec_tree T r) /\ regs_rep (regs (fst (set_region st r))) (spec_tree T r) /\
  snd (set_region st r) = displaced T r.
Proof.
  intros (HT & HF & HB) HR G WR GN. apply wf_region_parts in WR as [V WP].
  pose proof (regs_rep_get_none _ _ _ HR GN) as NI.
  unfold set_region. rewrite GN.
  set (st3 := RI (regs_put (regs st) (r_id r) r) (tree st) (leaders st) (followers st) (learners st) (pendings st) (bad st)).
  change (let '(t', ov) := update (tree st3) r in (add_to_subtrees (remove_overlapped (set_tree st3 t') ov) r, ov)) with (tail st3 r).
  assert (E0 : filter (fun y => negb (r_id y =? r_id r)) T = T)
    by (apply filter_true_id; intros y Hy; apply negb_true_iff, Z.eqb_neq, NI, Hy).
  apply tail_spec; cbv zeta; [rewrite E0; exact HT|rewrite E0; exact HF|exact HB|apply regs_rep_put, HR|exact G|exact V|exact WP].
Qed.

Lemma set_region_range_changed st T r origin :
  trees_rep st T -> regs_rep (regs st) T -> good T -> wf_region r = true ->
  get_region st (r_id r) = Some origin ->
  negb (key_eqb (r_start origin) (r_start r)) || negb (key_eqb (r_end origin) (r_end r)) = true ->
  trees_rep (fst (set_region st r)) (spec_tree T r) /\ regs_rep (regs (fst (set_region st r))) (spec_tree T r) /\
  snd (set_region st r) = displaced T r.
Proof.
  intros (HT & HF & HB) HR G WR GS RC. apply wf_region_parts in WR as [V WP].
  pose proof G as (D & N & W). pose proof (ds_ssorted _ D) as S.
  apply (regs_rep_get _ _ _ _ HR) in GS as GS'. destruct GS' as [Ho Eid].
  pose proof (wf_peers_parts _ (W origin Ho)) as (_ & NP & _).
  set (T0 := filter (fun y => negb (same origin y)) T).
  assert (IDS : forall y, In y T -> negb (r_id y =? r_id r) = negb (same origin y)).
  { intros y Hy. rewrite <- Eid, (id_vs_same _ _ _ G Ho Hy). reflexivity. }
  unfold set_region. rewrite GS, RC. cbn [negb].
  set (st1 := set_tree st (remove (tree st) origin)).
  set (st2 := remove_from_subtrees st1 origin).
  set (st3 := assign st2 r).
  assert (ETail : (let '(st4, ov) := let '(t', ov) := update (tree st3) r in (remove_overlapped (set_tree st3 t') ov, ov) in
                   (add_to_subtrees st4 r, ov)) = tail st3 r).
  { unfold tail. destruct (update (tree st3) r). reflexivity. }
  rewrite ETail.
  assert (T1 : tree st1 = RT T0 (sum_size T0)).
  { unfold st1. cbn. rewrite HT, (remove_main _ _ _ D Ho). f_equal. symmetry. apply sum_remove_main; auto. }
  assert (F1 : fams_rep st1 T has_role) by (apply fams_rep_set_tree, HF).
  assert (F2 : fams_rep st2 T0 has_role).
  { eapply fams_rep_rebase; [|apply (remove_from_subtrees_rep st1 T has_role origin D Ho NP (fun f s => role_needs_peer f s origin (W origin Ho)) F1)].
    intros f s. cbn. unfold T0. rewrite filter_filter. apply filter_ext_in. intros y _. apply andb_comm. }
  assert (NI0 : forall y, In y T0 -> r_id y <> r_id r).
  { intros y Hy. apply filter_In in Hy as [Hy C]. rewrite <- (IDS y Hy) in C. apply negb_true_iff, Z.eqb_neq in C. exact C. }
  assert (T3 : tree st3 = RT T0 (sum_size T0)).
  { unfold st3, assign. cbn [tree]. change (tree st2) with (tree st1). rewrite T1. unfold repl. cbn [items total].
    fold (replf r). rewrite (map_replf_noop r T0 NI0). reflexivity. }
  assert (F3 : fams_rep st3 T0 has_role).
  { intros f s. unfold st3. rewrite fam_of_assign, (F2 f s). unfold repl. cbn [items total]. fold (replf r).
    rewrite map_replf_noop; [reflexivity|]. intros y Hy. apply filter_In in Hy as [Hy _]. apply NI0, Hy. }
  assert (ET0 : filter (fun y => negb (r_id y =? r_id r)) T = T0) by (apply filter_ext_in, IDS).
  apply tail_spec; cbv zeta; [rewrite ET0; exact T3|rewrite ET0; exact F3|exact HB|apply regs_rep_put, HR|exact G|exact V|exact WP].
Qed.

Lemma set_region_same_range st T r origin :
  trees_rep st T -> regs_rep (regs st) T -> good T -> wf_region r = true ->
  get_region st (r_id r) = Some origin ->
  negb (key_eqb (r_start origin) (r_start r)) || negb (key_eqb (r_end origin) (r_end r)) = false ->
  trees_rep (fst (set_region st r)) (spec_tree T r) /\ regs_rep (regs (fst (set_region st r))) (spec_tree T r) /\
  snd (set_region st r) = displaced T r.
Proof.
  intros (HT & HF & HB) HR G WR GS RC. apply wf_region_parts in WR as [V WP].
  pose proof G as (D & N & W). pose proof (ds_ssorted _ D) as S.
  apply (regs_rep_get _ _ _ _ HR) in GS as GS'. destruct GS' as [Ho Eid].
  pose proof (wf_peers_parts _ (W origin Ho)) as (_ & NP & _).
  pose proof RC as (RC1 & RC2)%orb_false_iff. apply negb_false_iff in RC1, RC2.
  assert (Es : r_start origin = r_start r) by (destruct (key_eqb_spec (r_start origin) (r_start r)); [assumption|discriminate]).
  assert (Ee : r_end origin = r_end r) by (destruct (key_eqb_spec (r_end origin) (r_end r)); [assumption|discriminate]).
  set (T'' := map (replf r) T).
  assert (ET : spec_tree T r = T'') by (apply (sr_spec_tree T origin r G Ho Eid Es Ee)).
  assert (D'' : ds T'') by (rewrite <- ET; apply spec_tree_ds; auto).
  assert (Hr : In r T'') by (apply (sr_in_r T origin r Ho Eid)).
  assert (RG : regs_rep (regs_put (regs st) (r_id r) r) T'').
  { rewrite <- ET. eapply regs_rep_equiv; [|apply regs_rep_put, HR]. intros y.
    rewrite spec_tree_in. cbn. rewrite filter_In.
    assert (K : In y T -> keep r y = negb (r_id y =? r_id r))
      by (intros Hy; rewrite (sr_keep T origin r G Ho Eid Es Ee y Hy), <- Eid, (id_vs_same _ _ _ G Ho Hy); reflexivity).
    split; (intros [E|[Hy C]]; [auto|right; split; [exact Hy|]]); [rewrite K|rewrite <- K]; assumption. }
  (* whatever happens to the sub-trees, the main tree gets the new RegionInfo in place and its counter adjusted *)
  assert (T4 : forall st0, tree st0 = tree st ->
            tree (set_tree (assign st0 r) (update_stat (tree (assign st0 r)) origin r)) = RT T'' (sum_size T'')).
  { intros st0 E0. cbn. rewrite E0, HT. unfold update_stat, repl. cbn [items total]. fold (replf r). unfold T''.
    f_equal. rewrite (sr_sum_all T origin r G Ho Eid). reflexivity. }
  unfold set_region. rewrite GS, RC.
  cbn [negb]. rewrite (sr_displaced T origin r G Ho Eid Es Ee), ET.
  destruct (should_remove r origin) eqn:SR; cbn [negb fst snd].
  - (* the peers changed: out of every sub-tree, new RegionInfo, back into the sub-trees *)
    set (st2 := remove_from_subtrees st origin).
    set (st3 := assign st2 r).
    set (st4 := set_tree st3 (update_stat (tree st3) origin r)).
    assert (F2 : fams_rep st2 T (fun f s y => has_role f s y && negb (same origin y))).
    { apply (remove_from_subtrees_rep st T has_role origin D Ho NP (fun f s => role_needs_peer f s origin (W origin Ho)) HF). }
    assert (F3 : fams_rep st3 T'' (fun f s y => has_role f s y && negb (same r y))).
    { intros f s. unfold st3. rewrite fam_of_assign, (F2 f s). unfold repl. cbn [items total]. fold (replf r).
      unfold T''. rewrite <- (sr_filter_notsame T origin r G Ho Eid Es (has_role f s)).
      rewrite map_replf_noop; [reflexivity|]. intros y Hy. apply filter_In in Hy as [Hy C].
      apply andb_true_iff in C as [_ C]. apply negb_true_iff in C. rewrite <- Eid. intros E. apply Z.eqb_eq in E.
      rewrite (id_vs_same _ _ _ G Ho Hy) in E. congruence. }
    assert (F4 : fams_rep st4 T'' (fun f s y => has_role f s y && negb (same r y))) by (apply fams_rep_set_tree, F3).
    split; [|split; [|reflexivity]].
    + split; [|split].
      * exact (T4 st2 eq_refl).
      * apply add_back; assumption.
      * exact HB.
    + exact RG.
  - (* nothing but statistics changed: the new RegionInfo in place, counters adjusted *)
    set (st3 := assign st r).
    set (st4 := set_tree st3 (update_stat (tree st3) origin r)).
    pose proof (same_roles _ _ SR) as RO.
    assert (F4 : forall f s, fam_of st4 f s = RT (filter (has_role f s) T'') (sum_size (filter (has_role f s) T))).
    { intros f s. change (fam_of st4 f s) with (fam_of st3 f s). unfold st3. rewrite fam_of_assign, (HF f s).
      unfold repl. cbn [items total]. fold (replf r).
      unfold T''. rewrite (sr_filter_same_roles T origin r G Ho Eid (has_role f s) (RO f s)). reflexivity. }
    pose proof (wf_peers_parts _ WP) as (_ & _ & NPP).
    split; [|split; [|reflexivity]].
    + split; [|split].
      * exact (T4 st eq_refl).
      * intros f s.
        assert (GG : fam_of (update_subtree_stat st4 origin r) f s =
                     if has_role f s r then stat_if_present origin r (fam_of st4 f s) else fam_of st4 f s).
        { rewrite fam_of_stat, (role_as_loop f s r).
          destruct f; apply fam_fold_once; auto using voters_nodup, learners_nodup. }
        rewrite GG, (F4 f s). unfold T''.
        rewrite (sr_sum T origin r G Ho Eid (has_role f s) (RO f s)). fold T''.
        destruct (has_role f s r) eqn:HRr.
        -- unfold stat_if_present.
           assert (In r (filter (has_role f s) T'')) by (apply filter_In; auto).
           destruct (filter (has_role f s) T'') as [|a l] eqn:EF; [destruct H|].
           unfold rt_len. cbn [items length]. replace (Z.of_nat (Datatypes.S (length l)) =? 0) with false by (symmetry; apply Z.eqb_neq; lia).
           unfold update_stat. cbn [items total]. f_equal. lia.
        -- f_equal. lia.
      * exact HB.
    + exact RG.
Qed.

Theorem set_region_rep st T r :
  trees_rep st T -> regs_rep (regs st) T -> good T -> wf_region r = true ->
  trees_rep (fst (set_region st r)) (spec_tree T r) /\ regs_rep (regs (fst (set_region st r))) (spec_tree T r) /\
  snd (set_region st r) = displaced T r.
Proof.
  intros HT HR G WR. destruct (get_region st (r_id r)) as [origin|] eqn:GS.
  - destruct (negb (key_eqb (r_start origin) (r_start r)) || negb (key_eqb (r_end origin) (r_end r))) eqn:RC.
    + eapply set_region_range_changed; eauto.
    + eapply set_region_same_range; eauto.
  - apply set_region_new; auto.
Qed.
