(* C18 — Dynamic configuration changes are validated, atomic and durable.
   Statements with short derivations from proof/C18_ConfigProof.v (the table equations, run_cmd_spec, the invariants
   of histories); structural obligations in proof/C18_Skel.v.
   Quantification: `s` is ANY model state, `o` ANY setter call (schedule, replication with placement rules on or
   off, PD-server, label-property set/delete, cluster version, replication mode) with ANY value and ANY storage
   fault (none / not applied / applied-but-error at the config write, the rule write or the replication-status
   write); the history statements quantify over every operation list from every boot configuration. *)
From Coq Require Import String.
From PDV Require Import lib.Base gen.Gen_C18 model.C18_Config proof.C18_ConfigProof proof.C18_Skel.
Local Open Scope string_scope.
Local Open Scope Z_scope.

(* ---------- values outside their domains are never accepted ----------
   The domains are written out here (sched_out_of_domain etc. in the model file are plain arithmetic);
   the proofs go through the clause tables the translator regenerates from config.go and the model
   parses, so a clause removed from a Go Validate function makes these theorems unprovable. *)
Theorem C18_invalid_schedule_never_accepted :      (* ratio outside [0,1], low <= high, negative tolerant ratio, unregistered scheduler *)
  forall s c f, sched_out_of_domain c = true -> run_cmd s (OSetSchedule c f) = (s, RInvalid).
Proof. intros s c f H. cbn [run_cmd]. unfold do_set_schedule. rewrite sched_invalid_eq, H. reflexivity. Qed.
Theorem C18_deprecated_schedule_never_accepted :
  forall s c f, (existsb (fun b => b) (firstn 6 (sc_dis c)) = true \/ sc_sbr c <> 0) -> length (sc_dis c) = 6%nat ->
    run_cmd s (OSetSchedule c f) = (s, RInvalid).
Proof.
  intros s c f H L. cbn [run_cmd]. unfold do_set_schedule. destruct (sched_invalid c); [reflexivity|].
  rewrite (sched_deprecated_eq _ L). destruct H as [->|H]; [reflexivity|].
  apply Z.eqb_neq in H. rewrite H, orb_true_r. reflexivity.
Qed.
Theorem C18_invalid_replication_never_accepted :   (* isolation level that is not a location label *)
  forall s c f, repl_out_of_domain c = true -> run_cmd s (OSetReplication c f) = (s, RInvalid).
Proof. intros s c f H. cbn [run_cmd]. unfold do_set_replication. rewrite repl_invalid_eq, H, orb_true_r. reflexivity. Qed.
Theorem C18_malformed_label_never_accepted :
  forall s c f, existsb (fun l => negb (valid_label_key l)) (rp_labels c) = true -> run_cmd s (OSetReplication c f) = (s, RInvalid).
Proof. intros s c f H. cbn [run_cmd]. unfold do_set_replication. rewrite repl_invalid_eq, H. reflexivity. Qed.
Theorem C18_invalid_pdserver_never_accepted :      (* negative flow-round digit *)
  forall s c f, pd_out_of_domain c = true ->
    exists r, run_cmd s (OSetPDServer c f) = (s, r) /\ (r = RInvalid \/ r = RNotMember).
Proof.
  intros s c f H. cbn [run_cmd]. unfold do_set_pdserver.
  destruct (negb (dash_keyword (ps_dash c)) && negb (is_member_url _))%bool; [eauto|].
  rewrite pd_invalid_eq. unfold pd_out_of_domain in *. cbn [ps_digit]. rewrite H. eauto.
Qed.
Theorem C18_invalid_mode_never_accepted :
  forall s c f, mode_valid (rm_mode c) = false -> run_cmd s (OSetMode c f) = (s, RInvalid).
Proof. intros s c f H. cbn [run_cmd]. unfold do_set_mode. rewrite H. reflexivity. Qed.
Theorem C18_invalid_version_never_accepted : forall s f, run_cmd s (OSetVersion None f) = (s, RInvalid).
Proof. reflexivity. Qed.

(* ---------- a rejected change leaves the served configuration exactly as it was ----------
   (proved on the code as repaired by the fix commits 543d12e, d9b573b in /repo; on the tree before
   them the statement was refuted by the two witnesses that are now the regression lemmas below) *)
Definition C18_rejected_keeps_served_full : Prop := rejected_full.
(* every setter, every value, every fault, ANY state: the six sections are exactly as before, and with placement
   rules on (and a positive max-replicas, which SetRule insists on for the roll-back) so is the served default rule *)
Theorem C18_rejected_keeps_served : C18_rejected_keeps_served_full.
Proof. intros s o s' r H Hr. pose proof (run_cmd_spec _ _ _ _ H) as S. split; [apply (ss_rejected _ _ _ _ S)|apply (ss_rollback _ _ _ _ S)]; exact Hr. Qed.

(* regressions (old witnesses): S11 — the label is already there, the save fails: nothing changes any more *)
Theorem C18_regression_label_rollback :
  run_cmd (boot base_conf) (OSetLabel "reject-leader" "zone" "z1" (Fault GConfig 0 FBefore)) = (boot base_conf, RStorage).
Proof. vm_compute. reflexivity. Qed.
(* max-replicas 0 is refused by SetRule and the served default rule is untouched *)
Theorem C18_regression_rule_not_edited_on_refusal :
  run_cmd (boot base_conf) (OSetReplication (Repl 0 [] "" true false) NoFault) = (boot base_conf, RRuleContent).
Proof. vm_compute. reflexivity. Qed.
(* a failed config write rolls back count AND labels of the default rule *)
Theorem C18_regression_rule_labels_rolled_back :
  exists s', run_cmd (boot base_conf) (OSetReplication (Repl 5 ["zone"] "" true false) (Fault GConfig 0 FBefore)) = (s', RStorage) /\
    served s' = base_conf /\ srule s' = Some (Rule 3 []) /\ strule s' = Some (Rule 3 []).
Proof. eexists. vm_compute. repeat split; reflexivity. Qed.

(* ---------- an accepted change is what a newly elected leader reloads ---------- *)
(* whatever was accepted is exactly the value of the config key: no hypothesis *)
Theorem C18_accepted_config_is_stored :
  forall s o s', run_cmd s o = (s', ROk) -> stored s' = Some (served s').
Proof. exact accepted_config_is_stored. Qed.

(* the full statement, for every history from every boot configuration: reload = documented normalisation of what is
   served (default schedulers re-added, the deprecated flags — disable-*, store-balance-rate, trace-region-flow —
   cleared), and with placement rules on the stored default rule is the served one.  `definite`: no rule write of the
   history was applied-but-reported-failed (after such an unknown outcome storage is ahead until the next rule edit). *)
Definition C18_accepted_is_reloaded_full : Prop := accepted_full.
Theorem C18_accepted_is_reloaded : C18_accepted_is_reloaded_full.
Proof. exact accepted_without_leader_changes. Qed.
(* regression (old witness, S17): placement rules on, max-replicas 3 -> 5: served rule and stored rule both 5 *)
Theorem C18_regression_rule_persisted :
  exists s', run_cmd (boot base_conf) (OSetReplication (Repl 5 ["zone"] "" true false) NoFault) = (s', ROk) /\
    srule s' = Some (Rule 5 ["zone"]) /\ strule s' = Some (Rule 5 ["zone"]).
Proof. eexists. vm_compute. repeat split; reflexivity. Qed.

(* ---------- histories WITH leader changes ----------
   A leader change (model: leader_change = PersistOptions.Reload of the served options + fresh RuleManager / ModeManager from
   storage) is an operation of the history.  `hdefinite`: no rule write SINCE THE LAST LEADER CHANGE was applied-but-reported-
   failed; whatever happened before a leader change does not matter, because the new leader serves what is stored. *)
Definition C18_accepted_is_reloaded_with_leader_changes_full : Prop := accepted_full_h.
Theorem C18_accepted_is_reloaded_with_leader_changes : C18_accepted_is_reloaded_with_leader_changes_full.
Proof. exact accepted_with_leader_changes. Qed.
(* the new leader serves exactly the reload of the config key, and (placement rules on) the stored default rule; it writes
   nothing to the config key; a second change right after changes nothing; reloading a reloaded configuration is the identity *)
Theorem C18_new_leader_serves_reload : forall s c, stored s = Some c -> served (leader_change s) = reload_conf c.
Proof. exact new_leader_serves_reload. Qed.
Theorem C18_new_leader_serves_stored_rule :
  forall s r, rp_pr (c_repl (served (leader_change s))) = true -> strule s = Some r ->
    srule (leader_change s) = Some r /\ strule (leader_change s) = Some r.
Proof.
  intros s r. unfold leader_change. set (c := match stored s with Some c => reload_conf c | None => served s end).
  destruct (rp_pr (c_repl c)) eqn:E; cbn [served srule strule]; intros Hp Hr.
  - rewrite Hr. split; reflexivity.
  - rewrite E in Hp. discriminate.
Qed.
Theorem C18_leader_change_keeps_storage : forall s, stored (leader_change s) = stored s.
Proof. intros s. unfold leader_change. destruct (rp_pr _); reflexivity. Qed.
Theorem C18_leader_change_idempotent : forall s, leader_change (leader_change s) = leader_change s.
Proof. exact leader_change_idem. Qed.
Theorem C18_reload_idempotent : forall c, reload_conf (reload_conf c) = reload_conf c.
Proof.
  intros c. unfold reload_conf. cbn [c_sched c_repl c_pd c_lp c_ver c_rm c_limits sc_tol sc_low sc_high sc_scheds sc_dis sc_sbr sc_pay ps_dash ps_digit ps_trace ps_key].
  rewrite add_defaults_idem, map_map. reflexivity.
Qed.
Example C18_nonvacuous_leader :
  let hs := [HSet (OSetReplication (Repl 5 ["zone"] "" true false) (Fault GRule 0 FAfter)); HLeader;
             HSet (OSetSchedule (Sched 0 900 600 ["label"] [false; false; false; false; false; false] 0 7) NoFault); HLeader] in
  hdefinite (hs ++ [HSet (OSetVersion (Some (5, 0, 0)) NoFault)]) /\
  map o_res (run run_hop (boot base_conf) hs) = [RStorage; ROk; ROk; ROk] /\
  srule (hreach base_conf hs) = Some (Rule 5 ["zone"]) /\          (* the rule write that was applied-but-failed is what the new leader serves *)
  sc_scheds (c_sched (served (hreach base_conf hs))) = ["label"; "balance-region"; "balance-leader"; "hot-region"].
Proof. vm_compute. repeat split; exact I. Qed.

(* ---------- the other writers of the served configuration: SetLabelPropertyConfig (whole map), SetStoreLimit, SetAllStoresLimit ----------
   They are operations of the same histories, so the three statements above cover them; what each of them changes when accepted: *)
Theorem C18_label_map_setter :
  forall s m f s', run_cmd s (OSetLabelMap m f) = (s', ROk) -> served s' = with_lp (served s) m.
Proof.
  intros s m f s' H. cbn [run_cmd] in H. unfold do_set_label_map in H.
  destruct (swap_persist_spec _ _ _ _ _ H) as (_&_&_&_&[(_&A&_)|(E&_)]); [exact A|discriminate].
Qed.
Theorem C18_store_limit_setters :
  forall s s',
    (forall id t rate dflt f, run_cmd s (OSetStoreLimit id t rate dflt f) = (s', ROk) ->
       served s' = with_limits (served s) (lim_set (c_limits (served s)) id t rate dflt)) /\
    (forall t rate f, run_cmd s (OSetAllLimits t rate f) = (s', ROk) ->
       served s' = with_limits (served s) (lim_all (c_limits (served s)) t rate)).
Proof.
  intros s s'. split; intros; cbn [run_cmd] in H; unfold do_set_store_limit, do_set_all_limits in H;
    destruct (swap_persist_spec _ _ _ _ _ H) as (_&_&_&_&[(_&A&_)|(E&_)]); try exact A; discriminate.
Qed.

(* ---------- non-vacuity ---------- *)
Definition ex_ops : list op :=
  [OSetSchedule (Sched 0 900 600 ["balance-leader"] [false; false; false; false; false; false] 0 7) NoFault;
   OSetSchedule (Sched 0 600 600 [] [false; false; false; false; false; false] 0 7) NoFault;              (* low = high *)
   OSetSchedule (Sched 0 900 600 ["no-such"] [false; false; false; false; false; false] 0 7) NoFault;
   OSetPDServer (PdSrv "SELF" 5 true "raw") (Fault GConfig 0 FBefore);
   OSetPDServer (PdSrv "10.0.0.1:2379" 5 true "raw") NoFault;
   OSetLabel "reject-leader" "zone" "z2" NoFault; ODelLabel "reject-leader" "zone" "z1" (Fault GConfig 0 FAfter);
   OSetVersion (Some (5, 0, 0)) NoFault; OSetVersion None NoFault;
   OSetMode (RMode "dr-auto-sync" "zone") (Fault GMode 0 FBefore); OSetMode (RMode "DR_AUTO_SYNC" "zone") NoFault;
   OSetReplication (Repl 3 [] "" true true) NoFault;                                                    (* no rule edit *)
   OSetReplication (Repl 3 [] "rack" true true) NoFault].
Example C18_nonvacuous :
  map o_res (run run_op (boot base_conf) ex_ops) =
    [ROk; RInvalid; RInvalid; RStorage; RNotMember; ROk; RStorage; ROk; RInvalid; RStorage; ROk; ROk; RInvalid].
Proof. vm_compute. reflexivity. Qed.
Example C18_nonvacuous_definite : definite ex_ops.
Proof. vm_compute. repeat split; exact I. Qed.

Print Assumptions C18_invalid_schedule_never_accepted.
Print Assumptions C18_deprecated_schedule_never_accepted.
Print Assumptions C18_invalid_replication_never_accepted.
Print Assumptions C18_malformed_label_never_accepted.
Print Assumptions C18_invalid_pdserver_never_accepted.
Print Assumptions C18_invalid_mode_never_accepted.
Print Assumptions C18_invalid_version_never_accepted.
Print Assumptions C18_rejected_keeps_served.
Print Assumptions C18_regression_label_rollback.
Print Assumptions C18_regression_rule_not_edited_on_refusal.
Print Assumptions C18_regression_rule_labels_rolled_back.
Print Assumptions C18_accepted_config_is_stored.
Print Assumptions C18_accepted_is_reloaded.
Print Assumptions C18_regression_rule_persisted.
Print Assumptions C18_accepted_is_reloaded_with_leader_changes.
Print Assumptions C18_new_leader_serves_reload.
Print Assumptions C18_new_leader_serves_stored_rule.
Print Assumptions C18_leader_change_keeps_storage.
Print Assumptions C18_leader_change_idempotent.
Print Assumptions C18_reload_idempotent.
Print Assumptions C18_label_map_setter.
Print Assumptions C18_store_limit_setters.
