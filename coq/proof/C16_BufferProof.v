(* C16 — the ring buffer of history_buffer.go refines the log specification (aspec) of
   model/C16_Syncer.v: same observations for every operation sequence, any capacity. *)
From PDV Require Import lib.Base gen.Gen_C16 model.C16_Syncer.
Local Open Scope Z_scope.
Local Open Scope list_scope.

(* side conditions on the regenerated constants *)
Lemma flush_count_is_100 : Gen_C16.defaultFlushCount = 100.
Proof. reflexivity. Qed.
Lemma flush_every_pos : 0 < @flush_every.
Proof. reflexivity. Qed.
Lemma batch_size_pos : 0 < Gen_C16.maxSyncRegionBatchSize.
Proof. reflexivity. Qed.
Lemma history_size_pos : 0 < Gen_C16.defaultHistoryBufferSize.
Proof. reflexivity. Qed.

Lemma mod_wrap x n : 0 <= x < 2 * n -> x mod n = if x <? n then x else x - n.
Proof.
  intros Hx. destruct (Z.ltb_spec x n).
  - apply Z.mod_small. lia.
  - replace x with ((x - n) + 1 * n) at 1 by lia.
    rewrite Z.mod_add by lia. apply Z.mod_small. lia.
Qed.

Lemma ring_add s m d : 0 <= d < s ->
  (m + d) mod s = if m mod s + d <? s then m mod s + d else m mod s + d - s.
Proof.
  intros Hd. pose proof (Z.mod_pos_bound m s ltac:(lia)).
  rewrite <- Zplus_mod_idemp_l. apply mod_wrap. lia.
Qed.

(* the distance from slot m to slot n, as distanceToTail computes it *)
Lemma ring_dist s m n : 0 <= n - m < s ->
  (if n mod s <? m mod s then n mod s + s - m mod s else n mod s - m mod s) = n - m.
Proof.
  intros Hd. remember (n - m) as d. assert (n = m + d) as -> by lia.
  pose proof (Z.mod_pos_bound m s ltac:(lia)). rewrite ring_add by lia.
  destruct (Z.ltb_spec (m mod s + d) s);
    [destruct (Z.ltb_spec (m mod s + d) (m mod s))|destruct (Z.ltb_spec (m mod s + d - s) (m mod s))]; lia.
Qed.

Lemma ring_neq s m n : 0 < n - m < s -> n mod s <> m mod s.
Proof.
  intros Hd. remember (n - m) as d. assert (n = m + d) as -> by lia.
  pose proof (Z.mod_pos_bound m s ltac:(lia)). rewrite ring_add by lia.
  destruct (Z.ltb_spec (m mod s + d) s); lia.
Qed.

Lemma ring_turn s m : (m + s) mod s = m mod s.
Proof. replace (m + s) with (m + 1 * s) by lia. apply Z_mod_plus_full. Qed.

Section Refine.
  Context {A : Type}.
  Implicit Types (s : bstate A) (a : aspec A) (h : hbuf A) (l : list A).

  Definition len l : Z := Z.of_nat (length l).

  Lemma len_snoc l r : len (l ++ [r]) = len l + 1.
  Proof. unfold len. rewrite app_length. cbn. lia. Qed.

  (* The log is emptied by a reset and by a restart, where head = tail = 0: so position j of the log always lives in
     slot j mod size.  The ring holds the positions from `low` on. *)
  Definition low (cap n : Z) : Z := Z.max 0 (n - cap).

  Record Ring h l cap : Prop := {
    ring_size  : size h = cap + 1;
    ring_cap   : 1 <= cap;
    ring_head  : head h = low cap (len l) mod size h;
    ring_tail  : tail h = len l mod size h;
    ring_elems : forall j, low cap (len l) <= j < len l -> recs h (j mod size h) = nth_error l (Z.to_nat j)
  }.

  Definition Rel s a : Prop :=
    Ring (buf s) (a_log a) (a_cap a) /\ index (buf s) = a_next a /\ flushc (buf s) = a_flush a /\ kvv s = a_kv a.

  Lemma ring_blen h l cap : Ring h l cap -> blen h = Z.min cap (len l).
  Proof.
    intros [Hs Hc Hh Ht _]. unfold blen, distance_to_tail. rewrite Hh, Ht, ring_dist; unfold low, len in *; lia.
  Qed.

  Lemma new_size_ge2 cap : 2 <= new_size cap.
  Proof. unfold new_size. destruct (Z.ltb_spec (cap + 1) 2); lia. Qed.

  Lemma ring_empty (f : Z -> option A) sz cap i fl : sz = cap + 1 -> 1 <= cap -> Ring (HB f 0 0 sz i fl) [] cap.
  Proof.
    intros Hs Hc. assert (L : low cap (len []) = 0) by (unfold low, len; cbn; lia).
    constructor; rewrite ?L; cbn; try reflexivity; lia.
  Qed.

  Lemma rel_new cap ok kv : Rel (BS (new_buf cap ok kv) kv) (AS (reload_index ok kv) [] (new_cap cap) flush_every kv).
  Proof.
    pose proof (new_size_ge2 cap). split; [apply ring_empty; unfold new_cap; cbn [a_cap]; lia|].
    unfold a_next. cbn. repeat split. lia.
  Qed.

  Lemma rel_init cap : Rel (binit cap) (ainit cap).
  Proof. apply (rel_new cap true None). Qed.

  (* the new element goes to slot (len l) mod size; when the ring is full the head moves off the oldest one *)
  Lemma ring_record h l cap r i fl : Ring h l cap ->
    let tl1 := (tail h + 1) mod size h in
    let hd1 := if tl1 =? head h then (head h + 1) mod size h else head h in
    Ring (HB (upd (recs h) (tail h) (Some r)) hd1 tl1 (size h) i fl) (l ++ [r]) cap.
  Proof.
    intros [Hs Hc Hh Ht He] tl1 hd1. assert (H0 : 0 <= len l) by (unfold len; lia).
    assert (Tl : tl1 = len (l ++ [r]) mod size h).
    { unfold tl1. rewrite Ht, len_snoc. apply Zplus_mod_idemp_l. }
    constructor; cbn [size head tail recs]; auto.
    - unfold hd1. rewrite Tl, Hh, len_snoc. unfold low.
      destruct (Z.eqb_spec ((len l + 1) mod size h) (Z.max 0 (len l - cap) mod size h)) as [E|E];
        destruct (Z.le_gt_cases cap (len l)).
      + rewrite Zplus_mod_idemp_l. f_equal. lia.
      + exfalso. revert E. apply ring_neq. lia.
      + exfalso. apply E. rewrite Z.max_r, <- (ring_turn (size h) (len l - cap)) by lia. f_equal. lia.
      + f_equal. lia.
    - intros j Hj. rewrite len_snoc in Hj. unfold upd, low in *. rewrite Ht.
      destruct (Z.eq_dec j (len l)) as [->|Hne].
      + rewrite Z.eqb_refl, nth_error_app2 by (unfold len; lia).
        replace (Z.to_nat (len l) - length l)%nat with 0%nat by (unfold len; lia). reflexivity.
      + replace (j mod size h =? len l mod size h) with false
          by (symmetry; apply Z.eqb_neq, not_eq_sym, ring_neq; lia).
        rewrite nth_error_app1 by (unfold len in *; lia). apply He. unfold low. lia.
  Qed.

  Lemma rel_record s a r ok : Rel s a ->
    Rel (record s r ok) (fst (arun_op a (ORecord r ok))).
  Proof.
    intros (G & Hi & Hf & Hk).
    assert (Hn : index (buf s) + 1 = a_base a + Z.of_nat (length (a_log a ++ [r]))).
    { fold (len (a_log a ++ [r])). rewrite len_snoc, Hi. unfold a_next, len. lia. }
    unfold record, arun_op. rewrite Hf. destruct (a_flush a - 1 <=? 0); cbn [fst]; (split; [apply ring_record, G|]);
      unfold a_next; cbn [buf kvv index flushc a_base a_log a_flush a_kv].
    - (* a flush: the new index is persisted if the write succeeds *)
      split; [exact Hn|]. split; [reflexivity|]. rewrite Hi, Hk. reflexivity.
    - split; [exact Hn|]. split; [reflexivity|exact Hk].
  Qed.

  Lemma skipn_cons_nth l : forall n, (n < length l)%nat ->
    map Some (skipn n l) = nth_error l n :: map Some (skipn (S n) l).
  Proof.
    induction l as [|x l IH]; intros [|n] H; cbn in H |- *; try lia; [reflexivity|]. apply IH. lia.
  Qed.

  (* the copy loop started at the slot of position j stops at the tail with the log from j on *)
  Lemma collect_total h l cap : Ring h l cap ->
    forall d j fuel, low cap (len l) <= j -> j + Z.of_nat d = len l -> (d <= fuel)%nat ->
      collect fuel h (j mod size h) = Some (map Some (skipn (Z.to_nat j) l)).
  Proof.
    intros [Hs Hc Hh Ht He]. induction d as [|d IH]; intros j fuel Hj Hd Hf.
    - assert (j = len l) as -> by lia. rewrite <- Ht. unfold len. rewrite Nat2Z.id, skipn_all.
      destruct fuel; cbn [collect]; rewrite Z.eqb_refl; reflexivity.
    - destruct fuel as [|fuel]; [lia|]. cbn [collect]. rewrite Ht.
      replace (j mod size h =? len l mod size h) with false
        by (symmetry; apply Z.eqb_neq, not_eq_sym, ring_neq; unfold low in Hj; lia).
      assert (H0 : 0 <= j) by (unfold low in Hj; lia).
      rewrite Zplus_mod_idemp_l, (IH (j + 1) fuel), He by lia.
      replace (Z.to_nat (j + 1)) with (S (Z.to_nat j)) by lia.
      rewrite <- skipn_cons_nth by (unfold len in Hd; lia). reflexivity.
  Qed.

  Lemma first_index_rel s a : Rel s a -> first_index (buf s) = a_first a.
  Proof.
    intros (G & Hi & _). unfold first_index, a_first. rewrite Hi, (ring_blen _ _ _ G).
    unfold a_next, len. lia.
  Qed.

  Lemma a_records_from_in a i : a_first a <= i < a_next a ->
    a_records_from a i = map Some (skipn (Z.to_nat (i - a_base a)) (a_log a)).
  Proof.
    intros H. unfold a_records_from.
    destruct (Z.leb_spec (a_first a) i); [destruct (Z.ltb_spec i (a_next a))|]; cbn [andb]; [reflexivity|lia..].
  Qed.
  Lemma a_records_from_out a i : ~ (a_first a <= i < a_next a) -> a_records_from a i = [].
  Proof.
    intros H. unfold a_records_from.
    destruct (Z.leb_spec (a_first a) i); [destruct (Z.ltb_spec i (a_next a))|]; cbn [andb]; [lia|reflexivity..].
  Qed.

  Lemma records_from_rel s a i : Rel s a -> records_from (buf s) i = Some (a_records_from a i).
  Proof.
    intros R. pose proof (first_index_rel s a R) as Hfi. destruct R as (G & Hi & _).
    unfold records_from, next_index. rewrite Hfi, Hi.
    destruct (Z.ltb_spec i (a_next a)); [destruct (Z.leb_spec (a_first a) i)|]; cbn [andb];
      [|rewrite a_records_from_out by lia; reflexivity..].
    rewrite a_records_from_in by lia. pose proof (ring_cap _ _ _ G) as Hc.
    unfold a_first, a_next in *. fold (len (a_log a)) in *.
    rewrite (ring_head _ _ _ G), Zplus_mod_idemp_l.
    replace (low (a_cap a) (len (a_log a)) + (i - Z.max (a_base a) (a_base a + len (a_log a) - a_cap a)))
      with (i - a_base a) by (unfold low; lia).
    apply (collect_total _ _ _ G (Z.to_nat (a_base a + len (a_log a) - i))); unfold low; try lia.
    rewrite (ring_size _ _ _ G). unfold len in *. lia.
  Qed.

  Lemma sim_step s a o : Rel s a ->
    Rel (fst (brun_op s o)) (fst (arun_op a o)) /\ snd (brun_op s o) = snd (arun_op a o).
  Proof.
    intros R. destruct o as [r ok|i|i rok| | |cap ok]; cbn [brun_op arun_op fst snd].
    - split; [apply rel_record; exact R|]. destruct (a_flush a - 1 <=? 0); reflexivity.
    - rewrite (records_from_rel s a i R). split; [exact R|reflexivity].
    - split; [|reflexivity]. destruct R as (G & _ & _ & Hk). unfold reset_with_index. rewrite Hk.
      split; [|unfold a_next; cbn; repeat split; lia].
      apply ring_empty; [apply (ring_size _ _ _ G)|apply (ring_cap _ _ _ G)].
    - split; [exact R|]. unfold next_index. rewrite (proj1 (proj2 R)). reflexivity.
    - split; [exact R|]. rewrite (first_index_rel _ _ R). reflexivity.
    - unfold restart. rewrite (proj2 (proj2 (proj2 R))). split; [apply rel_new|reflexivity].
  Qed.

  Lemma sim_run ops : forall s a, Rel s a ->
    run brun_op s ops = run arun_op a ops /\ Rel (run_state brun_op s ops) (run_state arun_op a ops).
  Proof.
    induction ops as [|o ops IH]; intros s a R; cbn [run run_state]; [split; [reflexivity|exact R]|].
    destruct (sim_step s a o R) as [R' Ho].
    destruct (brun_op s o) as [s' b] eqn:Es. destruct (arun_op a o) as [a' b'] eqn:Ea.
    cbn [fst snd] in *. subst b'. destruct (IH s' a' R') as [Hr HR]. split; [f_equal; exact Hr|exact HR].
  Qed.

  Theorem records_from_exact_pf cap ops i :
    let s := run_state brun_op (binit cap) ops in
    let a := run_state (@arun_op A) (ainit cap) ops in
    next_index (buf s) = a_next a /\ first_index (buf s) = a_first a /\
    (a_first a <= i < a_next a ->
       records_from (buf s) i = Some (map Some (skipn (Z.to_nat (i - a_base a)) (a_log a)))) /\
    (~ (a_first a <= i < a_next a) -> records_from (buf s) i = Some []).
  Proof.
    intros s a. pose proof (proj2 (sim_run ops _ _ (rel_init cap))) as R. fold s a in R.
    split; [exact (proj1 (proj2 R))|]. split; [exact (first_index_rel _ _ R)|].
    rewrite (records_from_rel s a i R). split; intros H.
    - rewrite a_records_from_in by exact H. reflexivity.
    - rewrite a_records_from_out by exact H. reflexivity.
  Qed.

  (* what the log specification itself says, independent of any ring: the window is the last
     min(cap, |log|) indexes, the answer has one entry per index from i to the newest, in order *)
  Lemma a_records_from_length a i : a_first a <= i < a_next a ->
    Z.of_nat (length (a_records_from a i)) = a_next a - i.
  Proof.
    intros H. rewrite a_records_from_in by exact H.
    rewrite map_length, skipn_length. unfold a_first, a_next in *. lia.
  Qed.
  Lemma a_records_from_nth a i k : a_first a <= i < a_next a -> 0 <= k ->
    nth_error (a_records_from a i) (Z.to_nat k) =
    option_map Some (nth_error (a_log a) (Z.to_nat (i + k - a_base a))).
  Proof.
    intros H Hk. rewrite a_records_from_in by exact H.
    rewrite nth_error_map. f_equal.
    assert (G : forall (l : list A) m q, nth_error (skipn m l) q = nth_error l (m + q)).
    { clear. intros l m; revert l; induction m as [|m IH]; intros [|x l] q; cbn; auto. destruct q; reflexivity. }
    rewrite G. f_equal. unfold a_first, a_next in *. lia.
  Qed.

  Definition kv0 (k : option Z) : Z := match k with Some v => v | None => 0 end.

  Fixpoint faultfree (ops : list (bop A)) : bool :=
    match ops with
    | [] => true
    | ORecord _ ok :: r => ok && faultfree r
    | ORestart _ ok :: r => ok && faultfree r
    | OReset _ ok :: r => ok && faultfree r
    | _ :: r => faultfree r
    end.

  (* resets persist and restarts load; the save a Record may trigger is arbitrary *)
  Fixpoint ctl_ok (ops : list (bop A)) : bool :=
    match ops with
    | [] => true
    | OReset _ ok :: r => ok && ctl_ok r
    | ORestart _ ok :: r => ok && ctl_ok r
    | _ :: r => ctl_ok r
    end.

  Definition gstep (a : aspec A) (g : Z) (o : bop A) : Z :=
    match o with
    | ORecord _ ok => if a_flush a - 1 <=? 0 then (if ok then 0 else g + 1) else g
    | OReset _ _ | ORestart _ _ => 0
    | _ => g
    end.
  (* the number of flushes whose storage write failed since the last successful persist *)
  Fixpoint failed_flushes (a : aspec A) (g : Z) (ops : list (bop A)) : Z :=
    match ops with [] => g | o :: r => failed_flushes (fst (arun_op a o)) (gstep a g o) r end.

  (* The stored index lags the next index by the records since the last flush, plus one flush interval for every
     flush whose write failed since the last successful persist. *)
  Definition LagInv (a : aspec A) (g : Z) : Prop :=
    1 <= a_flush a <= flush_every /\ 0 <= g /\
    a_next a = kv0 (a_kv a) + (flush_every - a_flush a) + flush_every * g.

  Lemma lag_step a g o : LagInv a g -> ctl_ok [o] = true -> LagInv (fst (arun_op a o)) (gstep a g o).
  Proof.
    intros (Hf & Hg & Hn) Hc. pose proof flush_every_pos as Hp.
    destruct o as [r ok|i|i ok| | |cap ok]; cbn [arun_op fst gstep]; try exact (conj Hf (conj Hg Hn)).
    - destruct (Z.leb_spec (a_flush a - 1) 0); destruct ok; unfold LagInv, a_next in *;
        cbn [fst a_flush a_kv a_base a_log kv0]; rewrite ?app_length; cbn [length]; lia.
    - destruct ok; [|discriminate Hc].
      unfold LagInv, a_next; cbn [fst a_flush a_kv a_base a_log length kv0]. lia.
    - destruct ok; [|discriminate Hc].
      unfold LagInv, a_next, reload_index; cbn [fst a_flush a_kv a_base a_log length]. destruct (a_kv a); cbn [kv0]; lia.
  Qed.

  Lemma ctl_ok_cons o r : ctl_ok (o :: r) = ctl_ok [o] && ctl_ok r.
  Proof. destruct o; cbn [ctl_ok]; rewrite ?andb_true_r; reflexivity. Qed.

  Lemma lag_run ops : forall a g, LagInv a g -> ctl_ok ops = true ->
    LagInv (run_state arun_op a ops) (failed_flushes a g ops).
  Proof.
    induction ops as [|o ops IH]; intros a g I Hc; cbn [run_state failed_flushes]; [exact I|].
    rewrite ctl_ok_cons in Hc. apply andb_true_iff in Hc as [Ho Hr]. apply IH; [apply lag_step|]; assumption.
  Qed.

  (* what a restart loses, exactly *)
  Theorem restart_lag_exact cap ops cap' : ctl_ok ops = true ->
    let s := run_state brun_op (binit cap) ops in
    let a := run_state (@arun_op A) (ainit cap) ops in
    let g := failed_flushes (ainit cap) 0 ops in
    1 <= a_flush a <= flush_every /\ 0 <= g /\
    next_index (buf s) - next_index (buf (restart s cap' true)) = (flush_every - a_flush a) + flush_every * g.
  Proof.
    intros Hc s a g. destruct (proj2 (sim_run ops _ _ (rel_init cap))) as (_ & Hi & _ & Hk). fold s a in Hi, Hk.
    assert (I0 : LagInv (ainit cap) 0) by (unfold LagInv, ainit, a_next; cbn; pose proof flush_every_pos; lia).
    destruct (lag_run ops _ 0 I0 Hc) as (Hf & Hg & Hn). fold a g in Hf, Hg, Hn.
    split; [exact Hf|]. split; [exact Hg|].
    unfold next_index, restart. cbn [buf new_buf index]. rewrite Hi, Hk, Hn.
    unfold reload_index, kv0. destruct (a_kv a); lia.
  Qed.

  Lemma faultfree_ctl ops : faultfree ops = true ->
    ctl_ok ops = true /\ forall a, failed_flushes a 0 ops = 0.
  Proof.
    induction ops as [|o ops IH]; intros H; [split; reflexivity|].
    destruct o as [r ok|i|i ok| | |cap ok]; cbn [faultfree ctl_ok failed_flushes gstep] in *;
      try apply andb_true_iff in H as [-> H]; destruct (IH H) as [C F]; (split; [exact C|]); intros a; try apply F.
    destruct (a_flush a - 1 <=? 0); apply F.
  Qed.

End Refine.
