(* C01/C02 proofs, the control layer: which calls of a member can be in flight in which state of its leader loop, and
   that a member whose Check() is true while it is busy owns the leader record (E2). *)
From Coq Require Import ZArith List Bool Lia.
From PDV Require Import lib.Base gen.Gen_C01 model.C01_Tso proof.C01_Step.
Import ListNotations.
Local Open Scope Z_scope.

Definition in_campaign (c : ctl_st) : bool := match c with CElected | CIniting | CFailed => true | _ => false end.
Definition serving (c : ctl_st) : bool := match c with CServing => true | _ => false end.

(* c_none: the memory is ZeroTime outside CServing (the deferred ResetAllocatorGroup; only SyncTimestamp initialises it);
   c_fl: no UpdateTimestamp / reset of an earlier term survives into a campaign, c_pend: nor does a request (E4);
   c_syn: SyncTimestamp runs inside Initialize only; c_ur: a reset holds tsoMux over an initialised memory *)
Record Ctl (s : state) : Prop := {
  c_e2   : forall m, valid (mems s m) = true -> busy s m = true -> owner s = Some m;
  c_none : forall m, serving (ctl (mems s m)) = false -> phys (mems s m) = None;
  c_fl   : forall m, in_campaign (ctl (mems s m)) = true -> upd (mems s m) = UIdle /\ ur (mems s m) = RIdle;
  c_syn  : forall m, idle_syn (syn (mems s m)) = false -> ctl (mems s m) = CIniting;
  c_ur   : forall m, idle_ur (ur (mems s m)) = false -> phys (mems s m) <> None;
  c_pend : forall m, has_pending s m = true -> in_campaign (ctl (mems s m)) = false
}.

Lemma ctl_init iv gap : Ctl (init iv gap).
Proof. constructor; cbn; intros; try discriminate; auto. Qed.

Lemma busy_set_mem_other s m x m' : m' <> m -> busy (set_mem s m x) m' = busy s m'.
Proof.
  intros Hne. unfold busy, has_pending, set_mem; cbn. unfold upd_f.
  destruct (Nat.eqb_spec m' m); [contradiction|reflexivity].
Qed.

Lemma has_pending_set_mem s m x m' : has_pending (set_mem s m x) m' = has_pending s m'.
Proof. reflexivity. Qed.

Lemma busy_true_of_parts s m :
  busy s m = negb (idle_ctl (ctl (mems s m)) && idle_syn (syn (mems s m)) && idle_upd (upd (mems s m)) && idle_ur (ur (mems s m)))
             || has_pending s m.
Proof. reflexivity. Qed.

Lemma is_owner_true s m : is_owner s m = true -> owner s = Some m.
Proof. unfold is_owner. destruct (owner s); [|discriminate]. intros H; apply Nat.eqb_eq in H; congruence. Qed.

Lemma is_owner_refl s m : owner s = Some m -> is_owner s m = true.
Proof. unfold is_owner. intros ->. apply Nat.eqb_refl. Qed.

Definition busy_of (x : mem) (pend : bool) : bool :=
  negb (idle_ctl (ctl x) && idle_syn (syn x) && idle_upd (upd x) && idle_ur (ur x)) || pend.

Lemma state_eta s : s = State (W s) (owner s) (mems s) (recs s) (clock s) (interval s) (gap_ms s).
Proof. destruct s; reflexivity. Qed.

Lemma busy_of_true_l x p : negb (idle_ctl (ctl x) && idle_syn (syn x) && idle_upd (upd x) && idle_ur (ur x)) = true -> busy_of x p = true.
Proof. unfold busy_of. intros ->. reflexivity. Qed.

(* what Ctl says of one member's record alone.  A conjunction, so that a record that differs from x in other
   fields only (validity, lastSavedTime, the uncertainty mark, the logical counter) has a convertible ctl_ok *)
Definition ctl_ok (x : mem) : Prop :=
  (serving (ctl x) = false -> phys x = None) /\
  (in_campaign (ctl x) = true -> upd x = UIdle /\ ur x = RIdle) /\
  (idle_syn (syn x) = false -> ctl x = CIniting) /\
  (idle_ur (ur x) = false -> phys x <> None).

Lemma ctl_at s m : Ctl s -> ctl_ok (mems s m).
Proof. intros C. split; [apply C|]. split; [apply C|]. split; apply C. Qed.

Lemma ctl_local s m w x' :
  Ctl s -> ctl_ok x' ->
  (valid x' = true -> busy_of x' (has_pending s m) = true -> owner s = Some m) ->
  (has_pending s m = true -> in_campaign (ctl x') = false) ->
  Ctl (local_state s m w x').
Proof.
  intros [E2 NONE FL SYN UR PEND] (K1 & K2 & K3 & K4) H1 H6.
  constructor; cbn; unfold upd_f; intros m'.
  - unfold busy, has_pending; cbn; unfold upd_f. destruct (Nat.eqb_spec m' m); subst; [exact H1|apply E2].
  - destruct (Nat.eqb_spec m' m); subst; [exact K1|apply NONE].
  - destruct (Nat.eqb_spec m' m); subst; [exact K2|apply FL].
  - destruct (Nat.eqb_spec m' m); subst; [exact K3|apply SYN].
  - destruct (Nat.eqb_spec m' m); subst; [exact K4|apply UR].
  - unfold has_pending; cbn. destruct (Nat.eqb_spec m' m); subst; [exact H6|apply PEND].
Qed.

(* a call of UpdateTimestamp or resetUserTimestamp in flight: the member is not inside a campaign *)
Lemma not_in_campaign s m :
  Ctl s -> idle_upd (upd (mems s m)) = false \/ idle_ur (ur (mems s m)) = false -> in_campaign (ctl (mems s m)) = false.
Proof.
  intros I H. destruct (in_campaign (ctl (mems s m))) eqn:E; [|reflexivity].
  destruct (c_fl _ I _ E) as [Hu Hr]. rewrite Hu, Hr in H. destruct H; discriminate.
Qed.
(* inside Initialize (SyncTimestamp in flight): the memory is empty and no other call of the member is in flight *)
Lemma initing s m :
  Ctl s -> idle_syn (syn (mems s m)) = false ->
  ctl (mems s m) = CIniting /\ phys (mems s m) = None /\ upd (mems s m) = UIdle /\ ur (mems s m) = RIdle.
Proof.
  intros C H. pose proof (c_syn _ C m H) as Ec. split; [exact Ec|].
  split; [apply (c_none _ C); rewrite Ec; reflexivity|apply (c_fl _ C); rewrite Ec; reflexivity].
Qed.

(* E4 at an election, taken apart *)
Lemma not_busy s m :
  Ctl s -> busy s m = false ->
  idle_ctl (ctl (mems s m)) = true /\ idle_syn (syn (mems s m)) = true /\ idle_upd (upd (mems s m)) = true /\
  idle_ur (ur (mems s m)) = true /\ has_pending s m = false /\ phys (mems s m) = None.
Proof.
  intros C Hb. unfold busy in Hb. apply orb_false_iff in Hb as [Hb Ep]. apply negb_false_iff in Hb.
  apply andb_true_iff in Hb as [Hb Hr]. apply andb_true_iff in Hb as [Hb Hu]. apply andb_true_iff in Hb as [Hc Hs].
  repeat split; try assumption. apply (c_none _ C). destruct (ctl (mems s m)); try discriminate; reflexivity.
Qed.

Lemma serving_of_phys s m p : Ctl s -> phys (mems s m) = Some p -> serving (ctl (mems s m)) = true.
Proof.
  intros I Hp. destruct (serving (ctl (mems s m))) eqn:E; [reflexivity|]. rewrite (c_none _ I _ E) in Hp. discriminate.
Qed.
Lemma busy_of_ctl s m : idle_ctl (ctl (mems s m)) = false -> busy s m = true.
Proof. unfold busy. intros ->. reflexivity. Qed.
Lemma busy_of_upd s m : idle_upd (upd (mems s m)) = false -> busy s m = true.
Proof. unfold busy. intros ->. rewrite !andb_false_r. reflexivity. Qed.
Lemma busy_of_ur s m : idle_ur (ur (mems s m)) = false -> busy s m = true.
Proof. unfold busy. intros ->. rewrite !andb_false_r. reflexivity. Qed.
Lemma busy_of_syn s m : idle_syn (syn (mems s m)) = false -> busy s m = true.
Proof. unfold busy. intros ->. rewrite !andb_false_r. reflexivity. Qed.
Lemma idle_ctl_of_serving c : serving c = true -> idle_ctl c = false.
Proof. destruct c; cbn; congruence. Qed.
Lemma in_campaign_of_serving c : serving c = true -> in_campaign c = false.
Proof. destruct c; cbn; congruence. Qed.

Lemma set_physical_fields x n f :
  ctl (set_physical x n f) = ctl x /\ syn (set_physical x n f) = syn x /\ upd (set_physical x n f) = upd x /\
  ur (set_physical x n f) = ur x /\ valid (set_physical x n f) = valid x /\ last_saved (set_physical x n f) = last_saved x.
Proof. unfold set_physical. destruct (phys x); [destruct (0 <? _)|destruct f]; cbn; auto 10. Qed.


Lemma set_physical_phys x n f : phys (set_physical x n f) = None -> phys x = None /\ f = false.
Proof.
  unfold set_physical. destruct (phys x) eqn:E; [destruct (0 <? _); cbn; congruence|].
  destruct f; cbn; [discriminate|auto].
Qed.

Lemma ctl_ok_with_upd x u : ctl_ok x -> in_campaign (ctl x) = false -> ctl_ok (with_upd x u).
Proof.
  intros (K1 & K2 & K3 & K4) H. split; [exact K1|]. split; [cbn; rewrite H; discriminate|]. split; [exact K3|exact K4].
Qed.

Lemma ctl_ok_with_ur x u :
  ctl_ok x -> in_campaign (ctl x) = false -> (idle_ur u = false -> phys x <> None) -> ctl_ok (with_ur x u).
Proof.
  intros (K1 & K2 & K3 & K4) H Hu. split; [exact K1|]. split; [cbn; rewrite H; discriminate|]. split; [exact K3|exact Hu].
Qed.

Lemma e2_kept s m x' :
  Ctl s -> busy s m = true -> valid x' = valid (mems s m) ->
  valid x' = true -> busy_of x' (has_pending s m) = true -> owner s = Some m.
Proof. intros C B E V _. apply (c_e2 _ C); [rewrite <- E; exact V|exact B]. Qed.

Lemma ctl_ok_set_physical x n : ctl_ok x -> ctl_ok (set_physical x n false).
Proof.
  intros (K1 & K2 & K3 & K4). destruct (set_physical_fields x n false) as (F1 & F2 & F3 & F4 & _).
  unfold ctl_ok. rewrite F1, F2, F3, F4. split; [|split; [exact K2|split; [exact K3|]]].
  - intros Hs. specialize (K1 Hs). unfold set_physical. rewrite K1. exact K1.
  - intros Hu E. apply set_physical_phys in E as [E _]. exact (K4 Hu E).
Qed.

Lemma locked_false x : locked x = false -> ur x = RIdle.
Proof. unfold locked. destruct (ur x); [reflexivity|discriminate..]. Qed.

Lemma has_pending_set_nth s i st m :
  st <> Pending -> existsb (fun r => Nat.eqb (gm r) m && is_pending r) (set_nth (recs s) i st) = true -> has_pending s m = true.
Proof.
  intros Hst. unfold has_pending. revert i. induction (recs s) as [|r0 t IH]; intros i; destruct i; cbn; auto.
  - destruct st; try contradiction; cbn; rewrite andb_false_r; cbn; intros ->; apply orb_true_r.
  - intros Hx. apply orb_true_iff in Hx as [Hx|Hx]; [rewrite Hx; reflexivity|]. rewrite (IH _ Hx). apply orb_true_r.
Qed.

(* a call of UpdateTimestamp / resetUserTimestamp past its read moves on: the member was busy and outside a campaign;
   x0 is its record up to the fields Ctl does not read *)
Lemma ctl_upd_moves s m w x0 u :
  Ctl s -> idle_upd (upd (mems s m)) = false -> ctl_ok x0 -> valid x0 = valid (mems s m) -> ctl x0 = ctl (mems s m) ->
  Ctl (local_state s m w (with_upd x0 u)).
Proof.
  intros C Hi K Ev Ec. pose proof (not_in_campaign _ _ C (or_introl Hi)) as Hnc. rewrite <- Ec in Hnc.
  apply ctl_local; [exact C|apply ctl_ok_with_upd; assumption| |intros _; exact Hnc].
  apply e2_kept; [exact C|apply busy_of_upd, Hi|exact Ev].
Qed.

Lemma ctl_ur_moves s m w x0 u :
  Ctl s -> idle_ur (ur (mems s m)) = false -> ctl_ok x0 -> valid x0 = valid (mems s m) -> ctl x0 = ctl (mems s m) ->
  phys x0 = phys (mems s m) -> Ctl (local_state s m w (with_ur x0 u)).
Proof.
  intros C Hi K Ev Ec Ep. pose proof (not_in_campaign _ _ C (or_intror Hi)) as Hnc. rewrite <- Ec in Hnc.
  apply ctl_local; [exact C| | |intros _; exact Hnc].
  - apply ctl_ok_with_ur; [exact K|exact Hnc|]. intros _. rewrite Ep. apply (c_ur _ C), Hi.
  - apply e2_kept; [exact C|apply busy_of_ur, Hi|exact Ev].
Qed.

Lemma ctl_step0 s l s' : Ctl s -> step0 s l = Some s' -> Ctl s'.
Proof.
  intros C H. apply step0_tr in H.
  destruct H as [l | l m w x' T | m Ho Hb | m Ho Hv | m count p Hp Hl Hc | m i r Hn Hm Hpd]; [exact C| | | | |].
  - pose proof (ctl_at s m C) as K. pose proof (c_pend _ C m) as P.
    destruct T.
    + apply ctl_local; [exact C|exact K|cbn; discriminate|exact P].
    + apply ctl_local; [exact C|exact K| |exact P].
      intros _ B. apply orb_true_iff in Hon as [Hon|Hon]; [apply is_owner_true, Hon|].
      apply negb_true_iff in Hon. change (busy s m = true) in B. congruence.
    + (* the campaign was won: Initialize starts *)
      destruct K as (K1 & K2 & K3 & K4). rewrite Hctl in K1, K2, P.
      apply ctl_local; [exact C| | |].
      * split; [exact K1|]. split; [exact K2|]. split; [reflexivity|exact K4].
      * apply e2_kept; [exact C| |reflexivity]. apply busy_of_ctl. rewrite Hctl. reflexivity.
      * intros Hp. discriminate (P Hp).
    + (* Initialize: the save; the member is in CIniting, nothing of it is pending *)
      destruct K as (K1 & K2 & K3 & K4). destruct (initing s m C) as (Ec & _); [rewrite Hsyn; reflexivity|].
      assert (Np : has_pending s m = true -> False) by (intros Hp; specialize (P Hp); rewrite Ec in P; discriminate P).
      destruct a.
      * apply ctl_local; [exact C| | |intros Hp; destruct (Np Hp)].
        -- split; [exact K1|]. split; [exact K2|]. split; [intros _; exact Ec|exact K4].
        -- intros _ _. inversion Hput; assumption.
      * apply ctl_local; [exact C| | |intros Hp; destruct (Np Hp)].
        -- split; [intros _; apply K1; rewrite Ec; reflexivity|]. split; [intros _; apply K2; rewrite Ec; reflexivity|].
           split; [discriminate|exact K4].
        -- apply e2_kept; [exact C| |reflexivity]. apply busy_of_ctl. rewrite Ec. reflexivity.
    + destruct (initing s m C) as (Ec & _ & _ & Hr); [rewrite Hsyn; reflexivity|].
      destruct (set_physical_fields (mems s m) next true) as (_ & _ & _ & F4 & F5 & _).
      apply ctl_local; [exact C| | |].
      * split; [discriminate|]. split; [discriminate|]. split; [discriminate|]. cbn. rewrite F4, Hr. discriminate.
      * apply e2_kept; [exact C| |exact F5]. apply busy_of_ctl. rewrite Ec. reflexivity.
      * intros Hp. specialize (P Hp). rewrite Ec in P. discriminate P.
    + pose proof (serving_of_phys _ _ _ C Hphys) as Hs.
      apply ctl_local; [exact C| | |exact P].
      * apply ctl_ok_with_upd; [exact K|apply in_campaign_of_serving, Hs].
      * apply e2_kept; [exact C| |reflexivity]. apply busy_of_ctl, idle_ctl_of_serving, Hs.
    + apply ctl_upd_moves; [exact C|rewrite Hupd; reflexivity|exact K|reflexivity|reflexivity].
    + destruct a; (apply ctl_upd_moves; [exact C|rewrite Hupd; reflexivity|exact K|reflexivity|reflexivity]).
    + destruct (set_physical_fields (mems s m) next false) as (F1 & _ & _ & _ & F5 & _).
      apply ctl_upd_moves; [exact C|rewrite Hupd; reflexivity|apply ctl_ok_set_physical, K|exact F5|exact F1].
    + pose proof (serving_of_phys _ _ _ C Hphys) as Hs.
      apply ctl_local; [exact C| | |exact P].
      * apply ctl_ok_with_ur; [exact K|apply in_campaign_of_serving, Hs|rewrite Hphys; discriminate].
      * apply e2_kept; [exact C| |reflexivity]. apply busy_of_ctl, idle_ctl_of_serving, Hs.
    + apply ctl_ur_moves; [exact C|rewrite Hur; reflexivity|exact K|reflexivity..].
    + destruct a; (apply ctl_ur_moves; [exact C|rewrite Hur; reflexivity|exact K|reflexivity..]).
    + (* the reset writes the memory it holds the lock of *)
      assert (Hi : idle_ur (ur (mems s m)) = false) by (rewrite Hur; reflexivity).
      pose proof (not_in_campaign _ _ C (or_intror Hi)) as Hnc.
      destruct K as (K1 & K2 & K3 & K4).
      apply ctl_local; [exact C| | |exact P].
      * split; [|split; [cbn; rewrite Hnc; discriminate|split; [exact K3|discriminate]]].
        intros Hs. destruct (K4 Hi (K1 Hs)).
      * apply e2_kept; [exact C|apply busy_of_ur, Hi|reflexivity].
    + destruct K as (K1 & K2 & K3 & K4). apply locked_false in Hlock.
      apply ctl_local; [exact C| | |exact P].
      * split; [reflexivity|]. split; [exact K2|]. split; [exact K3|]. cbn. rewrite Hlock. discriminate.
      * intros v b. exact (c_e2 _ C m v b).
    + (* the term ends: Initialize has returned, so no SyncTimestamp is in flight *)
      destruct K as (K1 & K2 & K3 & K4). apply locked_false in Hlock.
      apply ctl_local; [exact C| | |reflexivity].
      * split; [reflexivity|]. split; [discriminate|]. split; [intros Hs; destruct (Hctl (K3 Hs))|]. cbn. rewrite Hlock. discriminate.
      * intros v b. apply (c_e2 _ C m v). unfold busy. unfold busy_of in b. cbn in b.
        destruct (idle_ctl (ctl (mems s m))); [exact b|reflexivity].
    + apply ctl_upd_moves; [exact C|rewrite Hupd; reflexivity|exact K|reflexivity|reflexivity].
    + apply ctl_ur_moves; [exact C|rewrite Hur; reflexivity|exact K|reflexivity..].
  - (* LElect: E4 - nothing of m is in flight *)
    pose proof C as [E2 NONE FL SYN UR PEND].
    destruct (not_busy s m C Hb) as (Hic & His & Hiup & Hiu & Ep & _). clear Hb.
    constructor; cbn; unfold upd_f; intros m'.
    + unfold busy, has_pending; cbn; unfold upd_f. destruct (Nat.eqb_spec m' m); subst; [reflexivity|].
      intros Hv Hb. assert (Hb' : busy s m' = true) by exact Hb. specialize (E2 _ Hv Hb'). congruence.
    + destruct (Nat.eqb_spec m' m); subst; cbn; [|apply NONE].
      intros _; apply NONE; destruct (ctl (mems s m)); try discriminate; reflexivity.
    + destruct (Nat.eqb_spec m' m); subst; cbn; [intros _|apply FL].
      destruct (upd (mems s m)), (ur (mems s m)); try discriminate; auto.
    + destruct (Nat.eqb_spec m' m); subst; cbn; [|apply SYN].
      destruct (syn (mems s m)); try discriminate.
    + destruct (Nat.eqb_spec m' m); subst; cbn; [|apply UR].
      destruct (ur (mems s m)); try discriminate.
    + unfold has_pending; cbn. destruct (Nat.eqb_spec m' m); subst; [|apply PEND].
      unfold has_pending in Ep. rewrite Ep. discriminate.
  - pose proof C as [E2 NONE FL SYN UR PEND]. constructor; cbn; auto.
    intros m' Hv' Hb. assert (Hb' : busy s m' = true) by exact Hb. specialize (E2 _ Hv' Hb'). congruence.
  - (* LGen: the member serves, and now has a pending answer *)
    subst x l1. pose proof C as [E2 NONE FL SYN UR PEND].
    pose proof (serving_of_phys _ _ _ C Hp) as Hserv. pose proof (in_campaign_of_serving _ Hserv) as Hnc.
    constructor; cbn; unfold upd_f; intros m'.
    + unfold busy, has_pending; cbn; unfold upd_f.
      destruct (Nat.eqb_spec m' m); subst; cbn.
      * intros Hv _. apply E2; [exact Hv|]. apply busy_of_ctl, idle_ctl_of_serving, Hserv.
      * destruct (Nat.eqb_spec m m'); [congruence|]. cbn. apply E2.
    + destruct (Nat.eqb_spec m' m); subst; cbn; [rewrite Hserv; discriminate|apply NONE].
    + destruct (Nat.eqb_spec m' m); subst; cbn; [rewrite Hnc; discriminate|apply FL].
    + destruct (Nat.eqb_spec m' m); subst; cbn; [apply SYN|apply SYN].
    + destruct (Nat.eqb_spec m' m); subst; cbn; [discriminate|apply UR].
    + unfold has_pending; cbn. destruct (Nat.eqb_spec m' m); subst; cbn; [intros _; exact Hnc|].
      destruct (Nat.eqb_spec m m'); [congruence|]. cbn. apply PEND.
  - (* LRespond: statuses only leave Pending *)
    pose proof C as [E2 NONE FL SYN UR PEND].
    assert (Hst : respond_status s m r <> Pending).
    { unfold respond_status. destruct (max_logical <=? gL r); [discriminate|destruct (valid (mems s m)); discriminate]. }
    constructor; cbn; auto.
    + intros m' Hv Hb. apply E2; [exact Hv|]. unfold busy in *. cbn in Hb.
      apply orb_true_iff in Hb as [Hb|Hb]; [rewrite Hb; reflexivity|].
      rewrite (has_pending_set_nth _ _ _ _ Hst Hb). apply orb_true_r.
    + intros m' Hp. apply PEND. eapply has_pending_set_nth; eauto.
Qed.
