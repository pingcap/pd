(* C08 — what peerPlan can return: every candidate that reaches comparePlan satisfies the guards under which it
   was formed, and comparePlan returns one of its two arguments - so the chosen plan satisfies the guards of some
   candidate, whatever the preference functions say.  Also: when a replace candidate exists, planReplace is not
   empty (used to show that a lone demotion / voter removal happens only when no voter is waiting to be added). *)
From Coq Require Import String.
From PDV Require Import lib.Base gen.Gen_C08 model.C08_Steps model.C08_Builder proof.C08_ListFacts proof.C08_Skel.
Local Open Scope list_scope.
Local Open Scope Z_scope.

Lemma compare_by_cases b fs best next : compare_by b fs best next = best \/ compare_by b fs best next = next.
Proof.
  induction fs as [|f r IH]; cbn [compare_by]; [left; reflexivity|].
  destruct (plan_pref_of f b next <? plan_pref_of f b best); [left; reflexivity|].
  destruct (plan_pref_of f b best <? plan_pref_of f b next); [right; reflexivity|exact IH].
Qed.

Lemma compare_plan_cases b best next : compare_plan b best next = best \/ compare_plan b best next = next.
Proof. unfold compare_plan. destruct (plan_is_empty best); [right; reflexivity|apply compare_by_cases]. Qed.

Definition NE (p : splan) : Prop := plan_is_empty p = false.

Lemma compare_plan_NE b best next : NE next -> NE (compare_plan b best next).
Proof.
  intros H. unfold compare_plan. destruct (plan_is_empty best) eqn:E; [exact H|].
  destruct (compare_by_cases b plan_prefs best next) as [-> | ->]; assumption.
Qed.

Definition Chosen (Q : splan -> Prop) (best0 res : splan) : Prop := res = best0 \/ Q res.

Lemma chosen_refl Q a : Chosen Q a a.
Proof. left. reflexivity. Qed.

Lemma chosen_trans Q a b c : Chosen Q a b -> Chosen Q b c -> Chosen Q a c.
Proof. intros [->|H1] [->|H2]; unfold Chosen; auto. Qed.

Lemma chosen_mono (Q Q' : splan -> Prop) a b : (forall p, Q p -> Q' p) -> Chosen Q a b -> Chosen Q' a b.
Proof. intros H [->|H1]; unfold Chosen; auto. Qed.

Lemma compare_chosen (Q : splan -> Prop) b best next : Q next -> Chosen Q best (compare_plan b best next).
Proof. intros H. destruct (compare_plan_cases b best next) as [-> | ->]; unfold Chosen; auto. Qed.

Lemma fold_chosen {A} (Q : splan -> Prop) (f : splan -> A -> splan) l :
  (forall best x, In x l -> Chosen Q best (f best x)) -> forall best0, Chosen Q best0 (fold_left f l best0).
Proof.
  induction l as [|x r IH]; intros H best0; cbn [fold_left]; [apply chosen_refl|].
  eapply chosen_trans; [apply H; left; reflexivity|]. apply IH. intros best y Hy. apply H. right. exact Hy.
Qed.

Lemma fold_NE {A} (f : splan -> A -> splan) l :
  (forall best x, In x l -> NE best -> NE (f best x)) -> forall best0, NE best0 -> NE (fold_left f l best0).
Proof.
  induction l as [|x r IH]; intros H best0 H0; cbn [fold_left]; [exact H0|].
  apply IH; [intros best y Hy; apply H; right; exact Hy|]. apply H; [left; reflexivity|exact H0].
Qed.

Lemma fold_NE_hit {A} (f : splan -> A -> splan) l x0 :
  (forall best x, In x l -> NE best -> NE (f best x)) -> In x0 l -> (forall best, NE (f best x0)) ->
  forall best0, NE (fold_left f l best0).
Proof.
  induction l as [|x r IH]; intros H Hin Hhit best0; [contradiction|]. cbn [fold_left].
  destruct Hin as [->|Hin].
  - apply fold_NE; [intros best y Hy; apply H; right; exact Hy|apply Hhit].
  - apply IH; [intros best y Hy; apply H; right; exact Hy|exact Hin|exact Hhit].
Qed.

Definition Allowed (b : bstate) (l : Z) : Prop :=
  In l (pm_ids (b_cur b)) /\ allow_leader_o b (pm_get (b_cur b) l) false = true.

Definition AllowedAfter (b : bstate) (la l : Z) : Prop :=
  In l (pm_ids (b_cur b)) /\ allow_leader_after b (pm_get (b_cur b) l) la = true.

(* the store that leads after the first transfer is exempt from the store checks: it keeps the leadership *)
Lemma allowed_after_self b l : Allowed b l -> AllowedAfter b l l.
Proof.
  intros [Hin Ha]. split; [exact Hin|]. unfold allow_leader_after.
  destruct (pm_get (b_cur b) l) as [q|] eqn:Eq.
  - cbn [allow_leader_o] in *. unfold allow_leader in *. destruct (in_names (role_name (prole q)) no_leader_roles); [discriminate|].
    cbn [with_leader upd_exec b_cur_leader]. assert (Hs : pstore q = l) by (apply (lk_Some _ _ _ Eq)). rewrite Hs, Z.eqb_refl. reflexivity.
  - exfalso. unfold pm_get in Eq. fold (lk (b_cur b) l) in Eq. apply lk_None in Eq. contradiction.
Qed.

Definition same_body (p q : splan) : Prop :=
  p_add p = p_add q /\ p_remove p = p_remove q /\ p_promote p = p_promote q /\ p_demote p = p_demote q.

Lemma same_body_refl p : same_body p p.
Proof. repeat split. Qed.

Lemma NE_same_body p q : same_body p q -> NE q -> NE p.
Proof. intros (A & B & C & D). unfold NE, plan_is_empty. rewrite A, B, C, D. auto. Qed.

(* what planReplaceLeaders can make of a candidate *)
Definition QRL (b : bstate) (next p : splan) : Prop :=
  same_body p next /\ Allowed b (lba p)
  /\ lbr p <> ostore (p_demote next) /\ lbr p <> ostore (p_remove next)
  /\ (AllowedAfter b (lba p) (lbr p)
      \/ (is_some (p_promote next) = true /\ lbr p = ostore (p_promote next) /\ allow_leader_after b (p_promote next) (lba p) = true)
      \/ (is_some (p_add next) = true /\ lbr p = ostore (p_add next) /\ allow_leader_after b (p_add next) (lba p) = true)).

Lemma plan_replace_leaders_chosen b best next :
  Chosen (QRL b next) best (plan_replace_leaders b best next).
Proof.
  unfold plan_replace_leaders. apply fold_chosen. intros bst la Hla.
  destruct (negb (allow_leader_o b (pm_get (b_cur b) la) false)) eqn:Ea; [apply chosen_refl|].
  apply negb_false_iff in Ea.
  assert (HA : Allowed b la) by (split; assumption).
  cbv zeta.
  match goal with |- Chosen _ _ (if _ then compare_plan _ (if _ then compare_plan _ ?F _ else _) _ else _) => set (F1 := F) end.
  assert (C1 : Chosen (QRL b next) bst F1).
  { unfold F1. apply (fold_chosen (QRL b next)). intros bs lr Hlr.
    match goal with |- Chosen _ _ (if ?c then _ else _) => destruct c eqn:G end; [|apply chosen_refl].
    apply compare_chosen. apply andb_true_iff in G as [G G3]. apply andb_true_iff in G as [G1 G2].
    apply negb_true_iff, Z.eqb_neq in G1, G2.
    unfold QRL. cbn [with_lbr with_lba lba lbr p_add p_remove p_promote p_demote] in *.
    repeat split; auto. all: try (left; split; assumption). }
  match goal with |- Chosen _ _ (if _ then compare_plan _ ?B _ else _) => set (B2 := B) end.
  assert (C2 : Chosen (QRL b next) bst B2).
  { unfold B2. match goal with |- Chosen _ _ (if ?c then _ else _) => destruct c eqn:G end; [|exact C1].
    eapply chosen_trans; [exact C1|]. apply compare_chosen.
    apply andb_true_iff in G as [G G4]. apply andb_true_iff in G as [G G3]. apply andb_true_iff in G as [G1 G2].
    apply negb_true_iff, Z.eqb_neq in G2, G3.
    unfold QRL. cbn [with_lbr with_lba lba lbr p_add p_remove p_promote p_demote] in *.
    repeat split; auto. all: try (right; left; auto). }
  match goal with |- Chosen _ _ (if ?c then _ else _) => destruct c eqn:G end; [|exact C2].
  eapply chosen_trans; [exact C2|]. apply compare_chosen.
  apply andb_true_iff in G as [G G4]. apply andb_true_iff in G as [G G3]. apply andb_true_iff in G as [G1 G2].
  apply negb_true_iff, Z.eqb_neq in G2, G3.
  unfold QRL. cbn [with_lbr with_lba lba lbr p_add p_remove p_promote p_demote] in *.
  repeat split; auto. all: try (right; right; auto).
Qed.

Lemma with_NE next la lr : NE next -> NE (with_lbr (with_lba next la) lr).
Proof. intros H. unfold NE, plan_is_empty in *. exact H. Qed.

Lemma plan_replace_leaders_NE_keep b best next : NE next -> NE best -> NE (plan_replace_leaders b best next).
Proof.
  intros Hn Hb. destruct (plan_replace_leaders_chosen b best next) as [->|(Hs & _)]; [exact Hb|exact (NE_same_body _ _ Hs Hn)].
Qed.

(* a pair of admissible leaders makes planReplaceLeaders return something *)
Lemma plan_replace_leaders_NE_hit b best next la lr :
  NE next -> Allowed b la -> AllowedAfter b la lr -> lr <> ostore (p_demote next) -> lr <> ostore (p_remove next) ->
  NE (plan_replace_leaders b best next).
Proof.
  intros Hn [Hla Ala] [Hlr Alr] N1 N2. unfold plan_replace_leaders.
  (* the candidates with the added and the promoted peer as second leader can only replace a non-empty best by another:
     what matters is the loop over the current peers *)
  apply (fold_NE_hit _ _ la); [| exact Hla |].
  - intros bst x _ Hbst. destruct (negb (allow_leader_o b (pm_get (b_cur b) x) false)); [exact Hbst|]. cbv zeta.
    match goal with |- NE (if ?c then _ else _) => destruct c end; [apply compare_plan_NE, with_NE, Hn|].
    match goal with |- NE (if ?c then _ else _) => destruct c end; [apply compare_plan_NE, with_NE, Hn|].
    apply fold_NE; [|exact Hbst]. intros bs l _ Hbs.
    match goal with |- NE (if ?c then _ else _) => destruct c end; [apply compare_plan_NE, with_NE, Hn|exact Hbs].
  - intros bst. rewrite Ala. cbn [negb]. cbv zeta.
    match goal with |- NE (if ?c then _ else _) => destruct c end; [apply compare_plan_NE, with_NE, Hn|].
    match goal with |- NE (if ?c then _ else _) => destruct c end; [apply compare_plan_NE, with_NE, Hn|].
    apply (fold_NE_hit _ _ lr); [| exact Hlr |].
    + intros bs l _ Hbs.
      match goal with |- NE (if ?c then _ else _) => destruct c end; [apply compare_plan_NE, with_NE, Hn|exact Hbs].
    + intros bs. cbn [with_lba p_demote p_remove]. rewrite Alr.
      destruct (lr =? ostore (p_demote next)) eqn:E1; [apply Z.eqb_eq in E1; contradiction|].
      destruct (lr =? ostore (p_remove next)) eqn:E2; [apply Z.eqb_eq in E2; contradiction|].
      cbn [negb andb]. apply compare_plan_NE, with_NE, Hn.
Qed.

Definition Body (b : bstate) (next : splan) : Prop :=
  (exists d pr, In d (b_demote b) /\ In pr (b_promote b) /\ next = SPlan 0 0 None None (Some pr) (Some d))
  \/ (exists d a, In d (b_demote b) /\ In a (b_add b) /\ is_learner a = false /\ next = SPlan 0 0 (Some a) None None (Some d))
  \/ (exists a x, In a (b_add b) /\ In x (b_remove b) /\ (is_learner x = is_learner a \/ single_replace b = true)
                  /\ cur_free b (pstore a) = true /\ next = SPlan 0 0 (Some a) (Some x) None None)
  \/ (exists pr a x, In pr (b_promote b) /\ In a (b_add b) /\ In x (b_remove b) /\ is_learner a = true /\ is_learner x = false
                     /\ cur_free b (pstore a) = true /\ next = SPlan 0 0 (Some a) (Some x) (Some pr) None)
  \/ (exists d x a, In d (b_demote b) /\ In x (b_remove b) /\ In a (b_add b) /\ is_learner x = true /\ is_learner a = false
                    /\ pstore x <> pstore a /\ next = SPlan 0 0 (Some a) (Some x) None (Some d)).

(* what the five shapes have in common: the parts are pending entries, a new peer goes to a free store or is a voter, and
   the voters the plan takes away do not outnumber those it brings - except in the lone swap of a learner for a voter *)
Lemma Body_parts b next : Body b next ->
  (forall a, p_add next = Some a -> In a (b_add b) /\ (cur_free b (pstore a) = true \/ is_learner a = false))
  /\ (forall x, p_remove next = Some x -> In x (b_remove b))
  /\ (forall x, p_promote next = Some x -> In x (b_promote b))
  /\ (forall d, p_demote next = Some d -> In d (b_demote b))
  /\ (b2z (is_some (p_demote next)) + b2z (match p_remove next with Some x => negb (is_learner x) | None => false end)
      <= b2z (match p_add next with Some a => negb (is_learner a) | None => false end) + b2z (is_some (p_promote next))
      \/ (single_replace b = true /\ p_promote next = None /\ p_demote next = None
          /\ exists a x, p_add next = Some a /\ p_remove next = Some x)).
Proof.
  intros [(d & pr & Hd & Hpr & ->)|[(d & a & Hd & Ha & Hl & ->)|[(a & x & Ha & Hx & Hl & Hf & ->)|[(pr & a & x & Hpr & Ha & Hx & Hla & Hlx & Hf & ->)|(d & x & a & Hd & Hx & Ha & Hlx & Hla & Hne & ->)]]]];
    cbn [p_add p_remove p_promote p_demote is_some].
  all: split; [|split; [|split; [|split]]]; try (intros ? E; inversion E; subst; clear E); auto.
  - left. cbn. lia.
  - left. rewrite Hl. cbn. lia.
  - destruct Hl as [Hl|Hs]; [left; rewrite Hl; lia|right; repeat split; [exact Hs|exists a, x; split; reflexivity]].
  - left. rewrite Hla, Hlx. cbn. lia.
  - left. rewrite Hla, Hlx. cbn. lia.
Qed.

Definition QR (b : bstate) (p : splan) : Prop := exists next, Body b next /\ QRL b next p.

Lemma prl_QR b best next : Body b next -> Chosen (QR b) best (plan_replace_leaders b best next).
Proof.
  intros HB. eapply chosen_mono; [|apply plan_replace_leaders_chosen]. intros p Hp. exists next. auto.
Qed.

Lemma fold_chosen' {A} (Q : splan -> Prop) (f : splan -> A -> splan) l a best0 :
  Chosen Q a best0 -> (forall best x, In x l -> Chosen Q best (f best x)) -> Chosen Q a (fold_left f l best0).
Proof. intros H0 H. eapply chosen_trans; [exact H0|apply fold_chosen; exact H]. Qed.

Lemma plan_replace_chosen b : Chosen (QR b) empty_plan (plan_replace b).
Proof.
  unfold plan_replace. cbv zeta.
  apply fold_chosen'; [apply fold_chosen'; [apply fold_chosen'; [apply fold_chosen'; [apply fold_chosen'; [apply chosen_refl|]|]|]|]|].
  - intros b1 d Hd. apply (fold_chosen (QR b)). intros b2 pr Hpr.
    apply prl_QR. left. eauto.
  - intros b1 d Hd. apply (fold_chosen (QR b)). intros b2 a Ha.
    destruct (negb (is_learner a)) eqn:E; [|apply chosen_refl]. apply negb_true_iff in E.
    apply prl_QR. right. left. exists d, a. auto.
  - intros b1 a Ha. apply (fold_chosen (QR b)). intros b2 x Hx.
    destruct ((Bool.eqb (is_learner x) (is_learner a) || single_replace b) && cur_free b (pstore a)) eqn:E; [|apply chosen_refl].
    apply andb_true_iff in E as [E1 E2].
    apply prl_QR. right. right. left. exists a, x. repeat split; auto.
    apply orb_true_iff in E1 as [E1|E1]; [left; apply Bool.eqb_prop; exact E1|right; exact E1].
  - intros b1 pr Hpr. apply (fold_chosen (QR b)). intros b2 a Ha.
    destruct (is_learner a) eqn:El; [|apply chosen_refl].
    apply (fold_chosen (QR b)). intros b3 x Hx.
    destruct (negb (is_learner x) && cur_free b (pstore a)) eqn:E; [|apply chosen_refl].
    apply andb_true_iff in E as [E1 E2]. apply negb_true_iff in E1.
    apply prl_QR. right. right. right. left. exists pr, a, x. repeat split; assumption.
  - intros b1 d Hd. apply (fold_chosen (QR b)). intros b2 x Hx.
    destruct (is_learner x) eqn:El; [|apply chosen_refl].
    apply (fold_chosen (QR b)). intros b3 a Ha.
    destruct (negb (is_learner a) && negb (pstore x =? pstore a)) eqn:E; [|apply chosen_refl].
    apply andb_true_iff in E as [E1 E2]. apply negb_true_iff in E1. apply negb_true_iff, Z.eqb_neq in E2.
    apply prl_QR. right. right. right. right. exists d, x, a. repeat split; assumption.
Qed.

Lemma plan_replace_NE_of b :
  (exists d a la lr, In d (b_demote b) /\ In a (b_add b) /\ is_learner a = false
                     /\ Allowed b la /\ AllowedAfter b la lr /\ lr <> pstore d /\ lr <> 0)
  \/ (exists a x la lr, In a (b_add b) /\ In x (b_remove b) /\ is_learner x = is_learner a /\ cur_free b (pstore a) = true
                        /\ Allowed b la /\ AllowedAfter b la lr /\ lr <> pstore x /\ lr <> 0) ->
  NE (plan_replace b).
Proof.
  intros H. unfold plan_replace. cbv zeta.
  (* the last two groups keep a non-empty best *)
  apply fold_NE.
  { intros b1 d _ H1. apply fold_NE; [|exact H1]. intros b2 r _ H2.
    destruct (is_learner r); [|exact H2]. apply fold_NE; [|exact H2]. intros b3 a _ H3.
    match goal with |- NE (if ?c then _ else _) => destruct c end; [|exact H3].
    apply plan_replace_leaders_NE_keep; [reflexivity|exact H3]. }
  apply fold_NE.
  { intros b1 p _ H1. apply fold_NE; [|exact H1]. intros b2 a _ H2.
    destruct (is_learner a); [|exact H2]. apply fold_NE; [|exact H2]. intros b3 r _ H3.
    match goal with |- NE (if ?c then _ else _) => destruct c end; [|exact H3].
    apply plan_replace_leaders_NE_keep; [reflexivity|exact H3]. }
  destruct H as [(d & a & la & lr & Hd & Ha & El & A1 & A2 & N1 & N2)|(a & x & la & lr & Ha & Hx & El & Ef & A1 & A2 & N1 & N2)].
  - (* the hit is in the second group; the third keeps it *)
    apply fold_NE.
    { intros b1 a' _ H1. apply fold_NE; [|exact H1]. intros b2 r _ H2.
      match goal with |- NE (if ?c then _ else _) => destruct c end; [|exact H2].
      apply plan_replace_leaders_NE_keep; [reflexivity|exact H2]. }
    apply (fold_NE_hit _ _ d); [| exact Hd |].
    + intros b1 d' _ H1. apply fold_NE; [|exact H1]. intros b2 a' _ H2.
      destruct (negb (is_learner a')); [|exact H2]. apply plan_replace_leaders_NE_keep; [reflexivity|exact H2].
    + intros b1. apply (fold_NE_hit _ _ a); [| exact Ha |].
      * intros b2 a' _ H2. destruct (negb (is_learner a')); [|exact H2]. apply plan_replace_leaders_NE_keep; [reflexivity|exact H2].
      * intros b2. rewrite El. cbn [negb].
        apply (plan_replace_leaders_NE_hit b b2 _ la lr); [reflexivity|exact A1|exact A2|exact N1|exact N2].
  - (* the hit is in the third group *)
    apply (fold_NE_hit _ _ a); [| exact Ha |].
    + intros b1 a' _ H1. apply fold_NE; [|exact H1]. intros b2 r _ H2.
      match goal with |- NE (if ?c then _ else _) => destruct c end; [|exact H2].
      apply plan_replace_leaders_NE_keep; [reflexivity|exact H2].
    + intros b1. apply (fold_NE_hit _ _ x); [| exact Hx |].
      * intros b2 r _ H2. match goal with |- NE (if ?c then _ else _) => destruct c end; [|exact H2].
        apply plan_replace_leaders_NE_keep; [reflexivity|exact H2].
      * intros b2. rewrite El, Ef. rewrite Bool.eqb_reflx. cbn [andb orb].
        apply (plan_replace_leaders_NE_hit b b2 _ la lr); [reflexivity|exact A1|exact A2|exact N2|exact N1].
Qed.

Definition QD (b : bstate) (p : splan) : Prop :=
  exists d l, In d (b_demote b) /\ Allowed b l /\ l <> pstore d /\ p = SPlan 0 l None None None (Some d).
Definition QRm (b : bstate) (p : splan) : Prop :=
  exists x l, In x (b_remove b) /\ Allowed b l /\ l <> pstore x /\ p = SPlan 0 l None (Some x) None None.
Definition QA (b : bstate) (p : splan) : Prop :=
  exists a l, In a (b_add b) /\ cur_free b (pstore a) = true /\ Allowed b l /\ p = SPlan l 0 (Some a) None None None.

Lemma plan_demote_chosen b : Chosen (QD b) empty_plan (plan_demote_peer b).
Proof.
  unfold plan_demote_peer. apply (fold_chosen (QD b)). intros b1 d Hd. apply (fold_chosen (QD b)). intros b2 l Hl.
  match goal with |- Chosen _ _ (if ?c then _ else _) => destruct c eqn:G end; [|apply chosen_refl].
  apply andb_true_iff in G as [G1 G2]. apply negb_true_iff, Z.eqb_neq in G2.
  apply compare_chosen. exists d, l. repeat split; auto.
Qed.

Lemma plan_remove_chosen b : Chosen (QRm b) empty_plan (plan_remove_peer b).
Proof.
  unfold plan_remove_peer. apply (fold_chosen (QRm b)). intros b1 x Hx. apply (fold_chosen (QRm b)). intros b2 l Hl.
  match goal with |- Chosen _ _ (if ?c then _ else _) => destruct c eqn:G end; [|apply chosen_refl].
  apply andb_true_iff in G as [G1 G2]. apply negb_true_iff, Z.eqb_neq in G2.
  apply compare_chosen. exists x, l. repeat split; auto.
Qed.

Lemma plan_add_chosen b : Chosen (QA b) empty_plan (plan_add_peer b).
Proof.
  unfold plan_add_peer. apply (fold_chosen (QA b)). intros b1 a Ha.
  destruct (negb (cur_free b (pstore a))) eqn:Ef; [apply chosen_refl|]. apply negb_false_iff in Ef.
  apply (fold_chosen (QA b)). intros b2 l Hl.
  match goal with |- Chosen _ _ (if ?c then _ else _) => destruct c eqn:G end; [|apply chosen_refl].
  apply compare_chosen. exists a, l. repeat split; auto.
Qed.

Lemma chosen_from_empty Q p : Chosen Q empty_plan p -> NE p -> Q p.
Proof. intros [->|H] N; [discriminate N|exact H]. Qed.

Inductive PlanKind (b : bstate) (p : splan) : Prop :=
| PKReplace : QR b p -> PlanKind b p
| PKPromote x rest : b_promote b = x :: rest -> p = SPlan 0 0 None None (Some x) None -> PlanKind b p
| PKDemote : plan_is_empty (plan_replace b) = true -> b_promote b = [] -> QD b p -> PlanKind b p
| PKRemove : plan_is_empty (plan_replace b) = true -> b_promote b = [] -> QRm b p -> PlanKind b p
| PKAdd : QA b p -> PlanKind b p.

Lemma peer_plan_spec b : NE (peer_plan b) -> PlanKind b (peer_plan b).
Proof.
  unfold peer_plan. rewrite plan_order_ok. cbn [first_plan plan_fn_of String.eqb Ascii.eqb Bool.eqb].
  destruct (plan_is_empty (plan_replace b)) eqn:E1.
  2:{ intros _. apply PKReplace. apply (chosen_from_empty _ _ (plan_replace_chosen b)). exact E1. }
  destruct (plan_is_empty (plan_promote_peer b)) eqn:E2.
  2:{ intros _. unfold plan_promote_peer in *. destruct (b_promote b) as [|x rest] eqn:Ep; [discriminate E2|].
      eapply PKPromote; eauto. }
  assert (Ep : b_promote b = []).
  { unfold plan_promote_peer in E2. destruct (b_promote b); [reflexivity|discriminate E2]. }
  destruct (plan_is_empty (plan_demote_peer b)) eqn:E3.
  2:{ intros _. apply PKDemote; auto. apply (chosen_from_empty _ _ (plan_demote_chosen b)). exact E3. }
  destruct (plan_is_empty (plan_remove_peer b)) eqn:E4.
  2:{ intros _. apply PKRemove; auto. apply (chosen_from_empty _ _ (plan_remove_chosen b)). exact E4. }
  destruct (plan_is_empty (plan_add_peer b)) eqn:E5.
  2:{ intros _. apply PKAdd. apply (chosen_from_empty _ _ (plan_add_chosen b)). exact E5. }
  intros C. discriminate C.
Qed.

(* what every round keeps, the loop keeps; it ends with nothing pending *)
Lemma nonjoint_loop_inv (Q : bstate -> Prop) :
  (forall b, NE (peer_plan b) -> Q b -> Q (apply_plan b (peer_plan b))) ->
  forall fuel b bF, Q b -> nonjoint_loop fuel b = BOk bF -> Q bF /\ pending bF = 0%nat.
Proof.
  intros Hstep. induction fuel as [|f IH]; intros b bF HQ H; cbn [nonjoint_loop] in H.
  - destruct (Nat.eqb (pending b) 0) eqn:E; [|discriminate]. inversion H; subst bF. apply Nat.eqb_eq in E. auto.
  - destruct (Nat.eqb (pending b) 0) eqn:E; [inversion H; subst bF; apply Nat.eqb_eq in E; auto|].
    destruct (plan_is_empty (peer_plan b)) eqn:Ee; [discriminate|]. exact (IH _ _ (Hstep b Ee HQ) H).
Qed.
