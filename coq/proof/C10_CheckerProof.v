(* C10 — proofs about the set-valued checker model (model/C10_Checker.v).
   Every statement quantifies over ALL inputs: cluster (any list of stores with any combination of the
   predicates the filters read and any labels), region, configuration, rule fit. *)
From PDV Require Import lib.C10_Cluster gen.Gen_C10 model.C10_Checker proof.C10_Tables.
Local Open Scope list_scope.
Local Open Scope Z_scope.

Lemma first_filter_facts s :
  sft Gen_C10.sel_add_first_flags s = true ->
  cond_raw isTombstone s = false /\ cond_raw isOffline s = false /\ cond_raw isDown s = false.
Proof.
  intros H. pose proof (dispatch_pass_clear _ _ _ _ _ _ H first_filter_excludes) as F.
  exact (conj (F isTombstone eq_refl) (conj (F isOffline eq_refl) (F isDown eq_refl))).
Qed.

Record good_target (stg : strategy) (stores : list store) (r : region) (coloc : list store) (extra : store -> bool) (s : store) : Prop := {
  gt_known : In s stores;
  gt_up : sst s = SUp;                         (* neither offline nor tombstone *)
  gt_not_down : s_down s = false;
  gt_connected : s_disc s = false;
  gt_not_busy : s_busy s = false;
  gt_space : s_low s = false;
  gt_fresh : ~ In (sid s) (stores_of (peers r));  (* holds no peer of the region *)
  gt_ordinary : special_use s = false;
  gt_isolation : st_labels stg <> [] -> st_iso stg <> 0 -> isolation_pass (st_labels stg) (st_iso stg) coloc s = true;
  gt_constraints : st_extra stg s = true;      (* the rule's label constraints *)
  gt_extra : extra s = true;                   (* the location improver, when given *)
  gt_limits : s_noadd s = false /\ s_snap s = false /\ s_pend s = false
}.

Theorem add_target_good stg stores r coloc extra s :
  In s (select_to_add stg stores r coloc extra) -> good_target stg stores r coloc extra s.
Proof.
  unfold select_to_add. intros H.
  apply filter_In in H as [H Hstrict]. apply filter_In in H as [H _]. apply filter_In in H as [Hin Hf].
  unfold first_filters in Hf.
  rewrite !andb_true_iff in Hf. destruct Hf as ((((((Hfresh & Hlow) & Hsp) & _) & Hiso) & Hext) & Hstx).
  (* the strict filter clears the store of every condition of regionTarget: `F c eq_refl` is the clause for c *)
  pose proof (dispatch_pass_clear _ _ _ _ _ _ Hstrict strict_filter_excludes) as F.
  constructor.
  - exact Hin.
  - apply up_of_conds; apply F; reflexivity.
  - exact (F isDown eq_refl).
  - exact (F isDisconnected eq_refl).
  - exact (F isBusy eq_refl).
  - apply negb_true_iff. exact Hlow.
  - apply memZ_notin, negb_true_iff. exact Hfresh.
  - apply negb_true_iff. exact Hsp.
  - intros Hl Hi. destruct (st_labels stg); [contradiction|].
    destruct (st_iso stg =? 0) eqn:Ei; [apply Z.eqb_eq in Ei; contradiction|]. exact Hiso.
  - exact Hstx.
  - exact Hext.
  - exact (conj (F exceedAddLimit eq_refl) (conj (F tooManySnapshots eq_refl) (F tooManyPendingPeers eq_refl))).
Qed.

(* the answers of a stage: there is one (an operator or nil), and every operator among them satisfies P.  Non-emptiness
   is part of it because an empty stage would erase the later ones in the cascade's flat_map *)
Definition proposes (P : aop -> Prop) (l : list res) : Prop :=
  l <> [] /\ forall st o, In (Some (st, o)) l -> P o.

Lemma proposes_none (P : aop -> Prop) : proposes P [None].
Proof. split; [discriminate|]. intros st o [H|[]]. discriminate. Qed.

Lemma proposes_one (P : aop -> Prop) st o : P o -> proposes P [Some (st, o)].
Proof. intros H. split; [discriminate|]. intros st' o' [E|[]]. inversion E; subst. exact H. Qed.

Lemma proposes_cons (P : aop -> Prop) st o l : P o -> proposes P l -> proposes P (Some (st, o) :: l).
Proof.
  intros H [_ F]. split; [discriminate|]. intros st' o' [E|Hin]; [inversion E; subst; exact H|exact (F st' o' Hin)].
Qed.

Lemma proposes_guard (P : aop -> Prop) ok st o : (ok = true -> P o) -> proposes P [guard_op ok st o].
Proof.
  intros H. split; [discriminate|]. intros st' o' [G|[]]. unfold guard_op in G.
  destruct ok; [|discriminate]. inversion G; subst. apply H. reflexivity.
Qed.

Lemma proposes_each (P : aop -> Prop) {A} (sel : list A) (ok : A -> bool) st (op : A -> aop) :
  (forall t, In t sel -> ok t = true -> P (op t)) ->
  proposes P (match sel with [] => [None] | t :: ts => map (fun t => guard_op (ok t) st (op t)) (t :: ts) end).
Proof.
  intros H. destruct sel as [|t ts] eqn:E; [apply proposes_none|]. rewrite <- E in *. split.
  - rewrite E. discriminate.
  - intros st' o Hin. apply in_map_iff in Hin as (t' & G & Ht). unfold guard_op in G.
    destruct (ok t') eqn:Ok; [|discriminate]. inversion G; subst. apply H; assumption.
Qed.

Lemma proposes_flat (P : aop -> Prop) {A} (sel : list A) (f : A -> list res) :
  (forall o, In o sel -> proposes P (f o)) ->
  proposes P (match sel with [] => [None] | o :: os => flat_map f (o :: os) end).
Proof.
  intros H. destruct sel as [|o os] eqn:E; [apply proposes_none|]. rewrite <- E in *. split.
  - rewrite E. cbn. intros X. apply app_eq_nil in X as [X _]. revert X. apply H. rewrite E. left; reflexivity.
  - intros st a Hin. apply in_flat_map in Hin as (o' & Ho & Hin). exact (proj2 (H o' Ho) st a Hin).
Qed.

Lemma proposes_weaken (P Q : aop -> Prop) l : (forall o, P o -> Q o) -> proposes P l -> proposes Q l.
Proof. intros H [N F]. split; [exact N|]. intros st o Hin. apply H. exact (F st o Hin). Qed.

Lemma then_some a b x : In (Some x) (then_ a b) -> In (Some x) a \/ (In None a /\ In (Some x) b).
Proof.
  unfold then_. intros H. apply in_flat_map in H as (y & Hy & H). destruct y as [y|].
  - cbn in H. destruct H as [H|[]]. left. rewrite <- H. exact Hy.
  - right. split; assumption.
Qed.

Lemma then_none a b : In None (then_ a b) -> In None a /\ In None b.
Proof.
  unfold then_. intros H. apply in_flat_map in H as (y & Hy & H). destruct y as [y|].
  - cbn in H. destruct H as [H|[]]. discriminate.
  - split; assumption.
Qed.

Lemma proposes_then (P : aop -> Prop) a b : proposes P a -> proposes P b -> proposes P (then_ a b).
Proof.
  intros [Na Fa] [Nb Fb]. split.
  - destruct a as [|[x|] a]; [contradiction|discriminate|]. unfold then_. cbn [flat_map].
    intros E. apply app_eq_nil in E as [E _]. contradiction.
  - intros st o H. apply then_some in H as [H|[_ H]]; eauto.
Qed.

Lemma cascade_cons s rest : cascade (s :: rest) = then_ s (cascade rest).
Proof. reflexivity. Qed.

Lemma proposes_cascade (P : aop -> Prop) stages : Forall (proposes P) stages -> proposes P (cascade stages).
Proof. induction 1; [apply proposes_none|]. rewrite cascade_cons. apply proposes_then; assumption. Qed.

Lemma cascade_none stages : In None (cascade stages) -> Forall (In None) stages.
Proof.
  induction stages as [|s rest IH]; intros H; [constructor|].
  rewrite cascade_cons in H. apply then_none in H as [H1 H2]. constructor; [exact H1|apply IH; exact H2].
Qed.

Definition target_selected (inp : input) (t : Z) : Prop :=
  exists stg coloc extra s, In s (select_to_add stg (i_stores inp) (i_region inp) coloc extra) /\ sid s = t.

Lemma selected_target inp stg coloc extra s :
  In s (select_to_add stg (i_stores inp) (i_region inp) coloc extra) -> target_selected inp (sid s).
Proof. intros H. exists stg, coloc, extra, s. split; [exact H|reflexivity]. Qed.

Definition replica_op_ok (inp : input) (o : aop) : Prop :=
  match o with
  | AAdd t lrn => target_selected inp t /\ lrn = false
  | AReplace old t lrn => target_selected inp t /\ In old (stores_of (peers (i_region inp))) /\ lrn = false
  | ARemove s => max_replicas (i_cfg inp) < voter_count (i_region inp) /\ In s (stores_of (peers (i_region inp)))
  | _ => True
  end.

Lemma replace_feasible_old inp old new l : replace_feasible inp old new l = true -> In old (stores_of (peers (i_region inp))).
Proof.
  unfold replace_feasible. rewrite !andb_true_iff. intros (((((_ & H) & _) & _) & _) & _). apply memZ_In. exact H.
Qed.
Lemma remove_feasible_in inp st : remove_feasible inp st = true -> In st (stores_of (peers (i_region inp))).
Proof.
  unfold remove_feasible. rewrite !andb_true_iff. intros (((_ & H) & _) & _). apply memZ_In. exact H.
Qed.

Lemma fix_peer_proposes inp st s1 s2 : proposes (replica_op_ok inp) (fix_peer inp st s1 s2).
Proof.
  unfold fix_peer. rewrite (proj1 fix_peer_op_ok). cbn [cmp_eval].
  destruct (max_replicas (i_cfg inp) <? voter_count (i_region inp)) eqn:E.
  - apply proposes_guard. intros G. split; [apply Z.ltb_lt; exact E|apply remove_feasible_in; exact G].
  - apply proposes_each. intros t Ht G.
    split; [exact (selected_target inp _ _ _ t Ht)|]. split; [exact (replace_feasible_old _ _ _ _ G)|reflexivity].
Qed.

Lemma check_down_proposes inp ds : proposes (replica_op_ok inp) (check_down inp ds).
Proof.
  induction ds as [|[p secs] rest IH]; cbn [check_down]; [apply proposes_none|].
  destruct (find_store _ _); [|apply proposes_none].
  destruct (s_down s && secs); [apply fix_peer_proposes|exact IH].
Qed.

Lemma check_offline_proposes inp ps : proposes (replica_op_ok inp) (check_offline inp ps).
Proof.
  induction ps as [|p rest IH]; cbn [check_offline]; [apply proposes_none|].
  destruct (find_store _ _); [|apply proposes_none].
  destruct (is_up s); [exact IH|apply fix_peer_proposes].
Qed.

Lemma replica_stage_proposes inp name : proposes (replica_op_ok inp) (run_replica_stage inp name).
Proof.
  unfold run_replica_stage.
  destruct (String.eqb name "checkDownPeer").
  { destruct (en_remove_down _); [apply check_down_proposes|apply proposes_none]. }
  destruct (String.eqb name "checkOfflinePeer").
  { destruct (en_replace_offline _); [|apply proposes_none].
    destruct (filter is_learner _); [apply check_offline_proposes|apply proposes_none]. }
  destruct (String.eqb name "checkMakeUpReplica").
  { destruct (en_make_up _); [|apply proposes_none]. destruct (cmp_eval _ _ _); [apply proposes_none|].
    apply proposes_each. intros t Ht _. split; [exact (selected_target inp _ _ _ t Ht)|reflexivity]. }
  destruct (String.eqb name "checkRemoveExtraReplica").
  { destruct (en_remove_extra _); [|apply proposes_none]. rewrite (proj1 remove_extra_op_ok). cbn [cmp_eval].
    destruct (voter_count (i_region inp) <=? max_replicas (i_cfg inp)) eqn:E; [apply proposes_none|].
    apply proposes_each. intros o _ G. split; [apply Z.leb_gt; exact E|apply remove_feasible_in; exact G]. }
  destruct (String.eqb name "checkLocationReplacement").
  { destruct (en_location _); [|apply proposes_none].
    apply proposes_flat. intros o _. apply proposes_each. intros t Ht G.
    split; [exact (selected_target inp _ _ _ t Ht)|]. split; [exact (replace_feasible_old _ _ _ _ G)|reflexivity]. }
  apply proposes_one. exact I.
Qed.

Theorem replica_check_proposes inp : proposes (replica_op_ok inp) (replica_check inp).
Proof.
  unfold replica_check. apply proposes_cascade. apply Forall_forall. intros s Hs.
  apply in_map_iff in Hs as (name & <- & _). apply replica_stage_proposes.
Qed.

Definition rule_op_ok (inp : input) (o : aop) : Prop :=
  match o with
  | AAdd t _ => target_selected inp t
  | AReplace old t _ => target_selected inp t /\ In old (stores_of (peers (i_region inp)))
  | ARemove s =>
      (exists o rest, fit_orphans (i_fit inp) = o :: rest /\ p_store o = s)
      /\ forallb rf_satisfied (fit_rules (i_fit inp)) = true
      /\ In s (stores_of (peers (i_region inp)))
  | _ => True
  end.

Lemma rule_replace_proposes inp rf p st : proposes (rule_op_ok inp) (rule_replace inp rf p st).
Proof.
  unfold rule_replace. apply proposes_each. intros t Ht G.
  split; [exact (selected_target inp _ _ _ t Ht)|exact (replace_feasible_old _ _ _ _ G)].
Qed.

Lemma better_location_proposes inp rf : proposes (rule_op_ok inp) (better_location inp rf).
Proof.
  unfold better_location. destruct (ru_labels _); [apply proposes_none|]. destruct (ru_count _ <=? 1); [apply proposes_none|].
  apply proposes_flat. intros o _. apply proposes_each. intros t Ht G.
  split; [exact (selected_target inp _ _ _ t Ht)|exact (replace_feasible_old _ _ _ _ G)].
Qed.

(* fixLooseMatchPeer only promotes or transfers the leader *)
Lemma fix_loose_op inp rf p st o : fix_loose inp rf p = LOp (st, o) -> rule_op_ok inp o.
Proof.
  unfold fix_loose. destruct (leader (i_region inp)) as [l|]; [|discriminate].
  destruct (is_learner p && negb (rule_learner (rf_rule rf))).
  { destruct (region_ok inp && _); intros E; inversion E; exact I. }
  destruct (negb (p_id l =? p_id p) && _).
  { destruct (rc_allow_leader inp p && _); intros E; inversion E; exact I. }
  destruct ((p_id l =? p_id p) && _); [|discriminate].
  destruct (find _ _) as [q|]; [|discriminate]. destruct (transfer_feasible inp q); intros E; inversion E; exact I.
Qed.

Lemma loose_loop_proposes inp rf ps : proposes (rule_op_ok inp) (loose_loop inp rf ps).
Proof.
  induction ps as [|p rest IH]; cbn [loose_loop]; [apply better_location_proposes|].
  destruct (fix_loose inp rf p) as [[st o]| |] eqn:E; [|apply proposes_none|exact IH].
  apply proposes_one. exact (fix_loose_op _ _ _ _ _ E).
Qed.

Lemma fix_rule_peer_proposes inp rf : proposes (rule_op_ok inp) (fix_rule_peer inp rf).
Proof.
  unfold fix_rule_peer. destruct (_ <? _).
  - apply proposes_each. intros t Ht _. exact (selected_target inp _ _ _ t Ht).
  - destruct (first_unexpected _ _) as [[p st]|]; [apply rule_replace_proposes|apply loose_loop_proposes].
Qed.

Lemma fix_orphan_proposes inp : proposes (rule_op_ok inp) (fix_orphan inp).
Proof.
  unfold fix_orphan. destruct (fit_orphans _) as [|o rest] eqn:Eo; [apply proposes_none|].
  destruct (forallb rf_satisfied _) eqn:Es; [|apply proposes_none].
  apply proposes_guard. intros G. split; [exists o, rest; split; [exact Eo|reflexivity]|].
  split; [exact Es|apply remove_feasible_in; exact G].
Qed.

Theorem rule_check_proposes inp : proposes (rule_op_ok inp) (rule_check inp).
Proof.
  unfold rule_check. destruct (fit_rules (i_fit inp)) as [|rf rfs].
  - destruct (_ && _); [|apply proposes_none]. apply proposes_one. exact I.
  - apply proposes_cascade. constructor; [apply fix_orphan_proposes|].
    apply Forall_forall. intros s Hs. apply in_map_iff in Hs as (rf' & <- & _). apply fix_rule_peer_proposes.
Qed.

(* the repair checkers CheckRegion consults between the joint-state checker and the merge checker *)
Definition front_check (inp : input) : list res :=
  if rules_enabled (i_cfg inp) then rule_check inp else then_ (learner_stage inp) (replica_check inp).

Definition any_op_ok (inp : input) (o : aop) : Prop := replica_op_ok inp o \/ rule_op_ok inp o.

Lemma replica_any inp l : proposes (replica_op_ok inp) l -> proposes (any_op_ok inp) l.
Proof. apply proposes_weaken. intros o H; left; exact H. Qed.
Lemma rule_any inp l : proposes (rule_op_ok inp) l -> proposes (any_op_ok inp) l.
Proof. apply proposes_weaken. intros o H; right; exact H. Qed.

Lemma merge_stage_proposes inp : proposes (any_op_ok inp) (merge_stage inp).
Proof.
  unfold merge_stage. destruct (merge_ready inp); [|apply proposes_none].
  destruct (merge_target inp) as [t|]; [|apply proposes_none].
  destruct (_ <? _); [apply proposes_none|]. destruct (_ || _); [apply proposes_none|].
  destruct (region_match _ _); [apply proposes_one|apply proposes_cons; [|apply proposes_none]]; left; exact I.
Qed.

Theorem controller_check_proposes inp : proposes (any_op_ok inp) (controller_check inp).
Proof.
  unfold controller_check. apply proposes_then.
  - unfold joint_stage. destruct (_ && _); [|apply proposes_none]. apply proposes_one. left; exact I.
  - apply proposes_then; [|apply merge_stage_proposes].
    destruct (rules_enabled (i_cfg inp)).
    + apply rule_any, rule_check_proposes.
    + apply proposes_then.
      * unfold learner_stage. destruct (filter _ _); [apply proposes_none|].
        destruct (region_ok inp); [|apply proposes_none]. apply proposes_one. left; exact I.
      * apply replica_any, replica_check_proposes.
Qed.

Theorem model_check_proposes inp : proposes (any_op_ok inp) (model_check inp).
Proof.
  unfold model_check. destruct (i_entry inp).
  - apply replica_any, replica_check_proposes.
  - apply rule_any, rule_check_proposes.
  - apply controller_check_proposes.
Qed.

Lemma any_op_add_target inp t lrn : any_op_ok inp (AAdd t lrn) -> target_selected inp t.
Proof. intros [H|H]; cbn in H; tauto. Qed.
Lemma any_op_replace_target inp old t lrn : any_op_ok inp (AReplace old t lrn) -> target_selected inp t.
Proof. intros [H|H]; cbn in H; tauto. Qed.

Theorem rule_removes_only_orphans inp st s :
  In (Some (st, ARemove s)) (rule_check inp) ->
  (exists o rest, fit_orphans (i_fit inp) = o :: rest /\ p_store o = s) /\ forallb rf_satisfied (fit_rules (i_fit inp)) = true.
Proof. intros H. apply (proj2 (rule_check_proposes inp)) in H. cbn in H. tauto. Qed.

Lemma nodup_app_disjoint (a b : list Z) x : NoDup (a ++ b) -> In x a -> In x b -> False.
Proof.
  induction a as [|y a IH]; cbn; intros N Ha Hb; [contradiction|].
  inversion N as [|? ? Hn N']; subst. destruct Ha as [->|Ha].
  - apply Hn. apply in_or_app. right. exact Hb.
  - exact (IH N' Ha Hb).
Qed.

Theorem rule_removal_not_held inp st s :
  fit_wf (i_region inp) (i_fit inp) = true ->
  In (Some (st, ARemove s)) (rule_check inp) ->
  exists o, In o (fit_orphans (i_fit inp)) /\ p_store o = s /\
            forall rf, In rf (fit_rules (i_fit inp)) -> ~ In (p_id o) (map p_id (rf_peers rf)).
Proof.
  intros W H. destruct (rule_removes_only_orphans _ _ _ H) as [(o & rest & E & Hs) _].
  exists o. split; [rewrite E; left; reflexivity|]. split; [exact Hs|].
  intros rf Hrf Hin. unfold fit_wf in W. apply andb_prop in W as [W _]. apply andb_prop in W as [W _].
  apply nodupZb_NoDup in W. unfold fit_ids in W.
  apply (nodup_app_disjoint _ _ (p_id o) W).
  - apply in_flat_map. exists rf. split; assumption.
  - rewrite E. left. reflexivity.
Qed.

Lemma monitor_silent_fit_wf c :
  monitor c = None -> fit_judged (fst c) = true -> fit_wf (i_region (fst c)) (i_fit (fst c)) = true.
Proof.
  unfold monitor. intros H J. rewrite J in H. cbn in H.
  destruct (fit_wf (i_region (fst c)) (i_fit (fst c))); [reflexivity|discriminate].
Qed.

Lemma merge_stage_some inp o :
  In (Some (StMerge, o)) (merge_stage inp) ->
  merge_ready inp = true /\ exists t, merge_target inp = Some t /\ n_size t <= max_target_region_size
    /\ in_joint (peers (i_region inp)) = false /\ in_joint (n_peers t) = false.
Proof.
  unfold merge_stage. destruct (merge_ready inp); [|cbn; intros [H|[]]; discriminate].
  destruct (merge_target inp) as [t|]; [|cbn; intros [H|[]]; discriminate].
  destruct (max_target_region_size <? n_size t) eqn:E1; [cbn; intros [H|[]]; discriminate|].
  destruct (in_joint (peers (i_region inp)) || in_joint (n_peers t)) eqn:E2; [cbn; intros [H|[]]; discriminate|].
  intros _. split; [reflexivity|]. exists t. apply orb_false_iff in E2 as [J1 J2]. apply Z.ltb_ge in E1.
  repeat split; assumption.
Qed.

(* whichever neighbour is chosen has passed checkTarget: the next one (t1) when it passes, the previous one only
   under its own test *)
Lemma merge_target_ok_in inp t : merge_target inp = Some t -> merge_target_ok inp t = true.
Proof.
  unfold merge_target.
  set (t1 := match me_next (i_menv inp) with
             | Some n => if merge_target_ok inp n then Some n else None
             | None => None end).
  assert (T1 : forall x, t1 = Some x -> merge_target_ok inp x = true).
  { unfold t1. intros x. destruct (me_next (i_menv inp)) as [n|]; [|discriminate].
    destruct (merge_target_ok inp n) eqn:E; [|discriminate]. intros H; inversion H; subst; exact E. }
  destruct (me_prev (i_menv inp)) as [p|]; [|apply T1].
  destruct (negb (me_one_way (i_menv inp)) && merge_target_ok inp p) eqn:Ep; [|apply T1].
  apply andb_true_iff in Ep as [_ Ep].
  destruct t1 as [x|] eqn:Et.
  - destruct (me_next (i_menv inp)) as [n|].
    + destruct (n_size p <? n_size n); intros H; inversion H; subst; [exact Ep|apply T1; reflexivity].
    + intros H; inversion H; subst; exact Ep.
  - intros H; inversion H; subst; exact Ep.
Qed.

(* what the replica checker replaces is a store of the region, and the new peer is a voter *)
Theorem replica_replace_old_in_region inp st old t lrn :
  In (Some (st, AReplace old t lrn)) (replica_check inp) -> In old (stores_of (peers (i_region inp))) /\ lrn = false.
Proof. intros H. apply (proj2 (replica_check_proposes inp)) in H. cbn in H. tauto. Qed.

(* a store SelectStoreToAdd returns can be added: it is known (so its id is not 0) and holds no peer of the region *)
Lemma selected_add_feasible inp stg coloc extra s :
  region_ok inp = true -> (forall s, In s (i_stores inp) -> sid s <> 0) ->
  In s (select_to_add stg (i_stores inp) (i_region inp) coloc extra) -> add_feasible inp (sid s) = true.
Proof.
  intros Hok Hids Hs. destruct (add_target_good _ _ _ _ _ _ Hs) as [Hk _ _ _ _ _ Hf _ _ _ _ _].
  unfold add_feasible. rewrite Hok. cbn [andb]. apply andb_true_iff. split; apply negb_true_iff.
  - apply Z.eqb_neq. exact (Hids _ Hk).
  - apply memZ_notin. exact Hf.
Qed.

Lemma each_never_none {A} (sel : list A) (ok : A -> bool) st (op : A -> aop) :
  sel <> [] -> (forall t, In t sel -> ok t = true) ->
  ~ In None (match sel with [] => [None] | t :: ts => map (fun t => guard_op (ok t) st (op t)) (t :: ts) end).
Proof.
  intros Hne Hok. destruct sel as [|t ts] eqn:E; [contradiction|]. rewrite <- E in *.
  intros H. apply in_map_iff in H as (t' & G & Ht). unfold guard_op in G. rewrite (Hok t' Ht) in G. discriminate.
Qed.

(* a region with fewer peers than max-replicas for which SelectStoreToAdd has a candidate always gets an
   operator: no admissible answer of the model is "none" (whatever the earlier stages of the cascade do) *)
Theorem repair_proposed_when_possible inp :
  i_entry inp = EReplica ->
  repair_required inp = true ->
  (forall s, In s (i_stores inp) -> sid s <> 0) ->
  ~ In None (replica_check inp) /\ replica_check inp <> [].
Proof.
  intros He Hr Hids. split; [|exact (proj1 (replica_check_proposes inp))].
  unfold repair_required, eff_entry in Hr. rewrite He in Hr.
  rewrite !andb_true_iff in Hr. destruct Hr as (((Hen & Hok) & Hcnt) & Hsel).
  intros HN. apply cascade_none in HN. rewrite Forall_forall in HN.
  specialize (HN _ (in_map (run_replica_stage inp) _ _ make_up_in_order)).
  unfold run_replica_stage in HN. cbn [String.eqb Ascii.eqb Bool.eqb] in HN.
  rewrite Hen, (proj1 make_up_op_ok) in HN. cbn [cmp_eval] in HN.
  apply Z.ltb_lt in Hcnt. rewrite (proj2 (Z.leb_gt _ _) Hcnt) in HN.
  revert HN. apply each_never_none.
  - intros E. rewrite E in Hsel. discriminate.
  - intros t Ht. exact (selected_add_feasible inp _ _ _ t Hok Hids Ht).
Qed.

(* non-vacuity: a cluster on which the hypotheses hold and the model demands "add a peer on store 4" *)
Definition ex_store (id z : Z) : store := Store id SUp false false false false false false false false false false [(1, (z, 0))].
Definition ex_input : input :=
  Input (Config 3 [1] 1 true true true true true false true [])
        [ex_store 1 10; ex_store 2 11; ex_store 3 10; ex_store 4 12]
        (Region [Peer 101 1 Voter; Peer 102 2 Voter] (Some (Peer 101 1 Voter)) [] [])
        (Fit [] []) EReplica (MEnv false 0 false false false false None None).
Example repair_example :
  repair_required ex_input = true /\ replica_check ex_input = [Some (StMakeUp, AAdd 4 false)].
Proof. split; vm_compute; reflexivity. Qed.

Theorem rule_repair_proposed_when_possible inp :
  i_entry inp = ERule ->
  repair_required inp = true ->
  (forall s, In s (i_stores inp) -> sid s <> 0) ->
  ~ In None (rule_check inp).
Proof.
  intros He Hr Hids. unfold repair_required, eff_entry in Hr. rewrite He in Hr.
  apply andb_true_iff in Hr as [Hok Hex]. apply existsb_exists in Hex as (rf & Hrf & Hc).
  apply andb_true_iff in Hc as [Hlt Hsel].
  unfold rule_check. destruct (fit_rules (i_fit inp)) as [|rf0 rfs] eqn:E; [contradiction|].
  intros HN. apply cascade_none in HN. inversion HN as [|? ? _ HN']; subst.
  rewrite Forall_forall in HN'. specialize (HN' (fix_rule_peer inp rf) (in_map _ _ _ Hrf)).
  unfold fix_rule_peer in HN'. rewrite Hlt in HN'.
  revert HN'. apply each_never_none.
  - intros X. rewrite X in Hsel. discriminate.
  - intros t Ht. exact (selected_add_feasible inp _ _ _ t Hok Hids Ht).
Qed.
