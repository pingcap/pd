(* C08 — the non-joint build path, one exec* call at a time: the simulation relation between the builder's
   state (currentPeers, currentLeader, the four pending maps, the steps emitted so far) and the region reached
   by executing those steps, and the per-store invariant that ties the pending maps to the target. *)
From Coq Require Import String Sorting.Sorted Sorting.Permutation.
From PDV Require Import lib.Base gen.Gen_C08 model.C08_Steps model.C08_Builder
     proof.C08_ListFacts proof.C08_PmapFacts proof.C08_SimPhases proof.C08_StepSpec.
Local Open Scope list_scope.
Local Open Scope Z_scope.

Lemma pm_get_store m st p : pm_get m st = Some p -> pstore p = st.
Proof. intros H. apply (lk_Some _ _ _ H). Qed.

Definition look (b : bstate) (st : Z) : option peer * option peer * option peer * option peer * option peer :=
  (pm_get (b_cur b) st, pm_get (b_add b) st, pm_get (b_remove b) st, pm_get (b_promote b) st, pm_get (b_demote b) st).

(* the role the store will hold once everything pending is done *)
Definition fin5 (l : option peer * option peer * option peer * option peer * option peer) : option role :=
  let '(c, a, r, p, d) := l in
  match a with Some x => Some (prole x) | None =>
  match r with Some _ => None | None =>
  match p with Some _ => Some Voter | None =>
  match d with Some _ => Some Learner | None => option_map prole c end end end end.

(* The five lookups (current, toAdd, toRemove, toPromote, toDemote) at one store: a pending promotion / demotion names the
   learner / voter now on the store; a pending removal names the peer now on the store; a pending add goes to a free
   store, or - a learner only - waits behind the removal of the voter on its store (a voter turned learner without
   joint consensus: remove, then add with a new id); what results is the target's role; stores are never 0 *)
Definition PIat (T : pmap) (l : option peer * option peer * option peer * option peer * option peer) (st : Z) : Prop :=
  let '(c, a, r, p, d) := l in
  (forall n, p = Some n -> exists o, c = Some o /\ prole o = Learner /\ n = Peer st (pid o) Voter)
  /\ (forall n, d = Some n -> exists o, c = Some o /\ prole o = Voter /\ n = Peer st (pid o) Learner)
  /\ (forall x, r = Some x -> c = Some x /\ p = None /\ d = None)
  /\ (forall x, a = Some x -> pstore x = st /\ st <> 0 /\ (prole x = Voter \/ prole x = Learner) /\ p = None /\ d = None
                              /\ (c = None \/ (r <> None /\ prole x = Learner)))
  /\ fin5 l = option_map prole (pm_get T st)
  /\ (forall o, c = Some o -> st <> 0 /\ pstore o = st /\ (prole o = Voter \/ prole o = Learner)).

(* a promotion (demotion) pending on a store is all that is pending there, and the peer now on the store is the learner
   (voter) it changes *)
Lemma PIat_promote T c a r p d st n : PIat T (c, a, r, p, d) st -> p = Some n ->
  a = None /\ r = None /\ d = None /\ exists o, c = Some o /\ prole o = Learner /\ n = Peer st (pid o) Voter.
Proof.
  intros (Qp & Qd & Qr & Qa & _ & _) ->. destruct (Qp n eq_refl) as (o & Ho & Hro & En). repeat split; [| | |eauto].
  - destruct a as [x|]; [|reflexivity]. destruct (Qa x eq_refl) as (_ & _ & _ & C & _). discriminate.
  - destruct r as [x|]; [|reflexivity]. destruct (Qr x eq_refl) as (_ & C & _). discriminate.
  - destruct d as [x|]; [|reflexivity]. destruct (Qd x eq_refl) as (o' & Ho' & Hro' & _). rewrite Ho in Ho'. inversion Ho'; subst o'. congruence.
Qed.

Lemma PIat_demote T c a r p d st n : PIat T (c, a, r, p, d) st -> d = Some n ->
  a = None /\ r = None /\ p = None /\ exists o, c = Some o /\ prole o = Voter /\ n = Peer st (pid o) Learner.
Proof.
  intros (Qp & Qd & Qr & Qa & _ & _) ->. destruct (Qd n eq_refl) as (o & Ho & Hro & En). repeat split; [| | |eauto].
  - destruct a as [x|]; [|reflexivity]. destruct (Qa x eq_refl) as (_ & _ & _ & _ & C & _). discriminate.
  - destruct r as [x|]; [|reflexivity]. destruct (Qr x eq_refl) as (_ & _ & C). discriminate.
  - destruct p as [x|]; [|reflexivity]. destruct (Qp x eq_refl) as (o' & Ho' & Hro' & _). rewrite Ho in Ho'. inversion Ho'; subst o'. congruence.
Qed.

Record PInv (T : pmap) (b : bstate) : Prop := {
  pi_cur_s : PSorted (b_cur b);
  pi_add_s : PSorted (b_add b);
  pi_rem_s : PSorted (b_remove b);
  pi_pro_s : PSorted (b_promote b);
  pi_dem_s : PSorted (b_demote b);
  pi_at : forall st, PIat T (look b st) st
}.

Record Sim (g : goal) (r0 : region) (b : bstate) (r : region) : Prop := {
  sim_pc : forall rest, plan_check g r0 (b_steps b ++ rest) = plan_check g r rest;
  sim_inv : Inv g r;
  sim_nj : NJ (peers r);
  sim_cur : forall st, lk (peers r) st = pm_get (b_cur b) st;
  sim_leader : leader r = b_cur_leader b;
  sim_ids : NoDup (map pid (peers r) ++ map pid (b_add b))
}.

Lemma sim_step g r0 b r b' r' ss :
  Sim g r0 b r -> b_steps b' = b_steps b ++ ss ->
  (forall rest, plan_check g r (ss ++ rest) = plan_check g r' rest) ->
  forall rest, plan_check g r0 (b_steps b' ++ rest) = plan_check g r' rest.
Proof. intros S E H rest. rewrite E, <- app_assoc, (sim_pc _ _ _ _ S). apply H. Qed.

Lemma get_set m p st : pm_get (pm_set m p) st = if st =? pstore p then Some p else pm_get m st.
Proof. rewrite pm_get_set, (Z.eqb_sym (pstore p) st). reflexivity. Qed.

Lemma get_del m s st : PSorted m -> pm_get (pm_del m s) st = if st =? s then None else pm_get m st.
Proof. intros H. apply pm_get_del. apply PSorted_ND. exact H. Qed.

Lemma perm_del (m : pmap) a : ND m -> In a m -> Permutation m (a :: pm_del m (pstore a)).
Proof.
  unfold ND, pm_del. induction m as [|q r IH]; intros Hnd Hin; [contradiction|].
  cbn [map] in Hnd. inversion Hnd as [|x0 l0 Hn Hd]; subst x0 l0. cbn [filter].
  destruct Hin as [->|Hin].
  - unfold on_store at 1. rewrite Z.eqb_refl. cbn [negb].
    change (filter (fun q => negb (on_store (pstore a) q)) r) with (remove_store r (pstore a)).
    rewrite remove_absent by exact Hn. apply Permutation_refl.
  - destruct (on_store (pstore a) q) eqn:E.
    + apply on_store_true in E. exfalso. apply Hn. rewrite E. apply in_map. exact Hin.
    + cbn [negb]. eapply Permutation_trans; [apply perm_skip; apply IH; assumption|apply perm_swap].
Qed.

Lemma ids_move (l : list peer) (m : pmap) a x :
  ND m -> In a m -> pid x = pid a ->
  NoDup (map pid l ++ map pid m) -> NoDup (map pid (l ++ [x]) ++ map pid (pm_del m (pstore a))).
Proof.
  intros Hnd Hin Hid H. eapply Permutation_NoDup; [|exact H].
  rewrite map_app. cbn [map]. rewrite <- app_assoc. apply Permutation_app_head.
  cbn [app]. rewrite Hid. change (pid a :: map pid (pm_del m (pstore a))) with (map pid (a :: pm_del m (pstore a))).
  apply Permutation_map. apply perm_del; assumption.
Qed.

Lemma map_pid_replace ps st old p :
  ND ps -> lk ps st = Some old -> pid p = pid old -> map pid (replace_peer ps st p) = map pid ps.
Proof.
  intros Hnd Hl Hid. unfold replace_peer. rewrite map_map. apply map_ext_in. intros q Hq.
  destruct (on_store st q) eqn:E; [|reflexivity]. apply on_store_true in E.
  pose proof (lk_In _ _ Hnd Hq) as L. rewrite E, Hl in L. inversion L; subst. exact Hid.
Qed.

Lemma nodup_app_sub {A} (l l' m : list A) : (forall x, In x l' -> In x l) -> NoDup l' -> NoDup (l ++ m) -> NoDup (l' ++ m).
Proof.
  intros Hsub Hl' H. induction l' as [|x r IH]; cbn [app].
  - induction l as [|y l IHl]; [exact H|]. apply IHl; [intros ? []|]. cbn [app] in H. inversion H; assumption.
  - inversion Hl' as [|x0 l0 Hn Hd]; subst x0 l0. constructor.
    + intros C. apply in_app_or in C as [C|C]; [contradiction|].
      assert (Hx : In x l) by (apply Hsub; left; reflexivity).
      clear - H Hx C. induction l as [|y l IHl]; [contradiction|]. cbn [app] in H. inversion H as [|y0 l0 Hn' Hd']; subst y0 l0.
      destruct Hx as [->|Hx]; [apply Hn'; apply in_or_app; right; exact C|apply IHl; assumption].
    + apply IH; [intros y Hy; apply Hsub; right; exact Hy|exact Hd].
Qed.

Lemma nodup_map_filter {A B} (f : A -> B) g (l : list A) : NoDup (map f l) -> NoDup (map f (filter g l)).
Proof.
  induction l as [|x r IH]; intros H; cbn [filter map]; [constructor|].
  cbn [map] in H. inversion H as [|x0 l0 Hn Hd]; subst x0 l0. destruct (g x); cbn [map]; [|apply IH; exact Hd].
  constructor; [|apply IH; exact Hd]. intros C. apply Hn. apply in_map_iff in C as (y & Hy & Hin).
  apply filter_In in Hin as [Hin _]. apply in_map_iff. eauto.
Qed.

Lemma nodup_app_l {A} (l m : list A) : NoDup (l ++ m) -> NoDup l.
Proof.
  induction l as [|x r IH]; intros H; [constructor|]. cbn [app] in H. inversion H as [|x0 l0 Hn Hd]; subst x0 l0.
  constructor; [intros C; apply Hn; apply in_or_app; left; exact C|apply IH; exact Hd].
Qed.

Section Steps.
  Variables (T : pmap) (g : goal) (r0 : region).

  Lemma PInv_same b b' :
    b_cur b' = b_cur b -> b_add b' = b_add b -> b_remove b' = b_remove b -> b_promote b' = b_promote b -> b_demote b' = b_demote b ->
    PInv T b -> PInv T b'.
  Proof.
    intros E1 E2 E3 E4 E5 [A B C D E F]. constructor; try congruence.
    intros st. unfold look. rewrite E1, E2, E3, E4, E5. apply F.
  Qed.

  Lemma step_transfer b r to q :
    Sim g r0 b r -> PInv T b -> pm_get (b_cur b) to = Some q -> prole q = Voter -> to <> b_cur_leader b ->
    Sim g r0 (exec_transfer b to) (set_leader r to) /\ PInv T (exec_transfer b to).
  Proof.
    intros S P Hq Hro Hne. split; [|eapply PInv_same; [..|exact P]; reflexivity].
    destruct S as [S1 S2 S3 S4 S5 S6].
    assert (Hlk : lk (peers r) to = Some q) by (rewrite S4; exact Hq).
    assert (Hl : leader r <> to) by (rewrite S5; auto).
    destruct (pc_transfer g r (b_cur_leader b) to q S2 Hlk (or_introl Hro) Hl) as [Erun I'].
    constructor; try assumption.
    - intros rest. cbn [b_steps exec_transfer upd_exec]. rewrite <- app_assoc, S1. cbn [app].
      apply Erun.
    - reflexivity.
  Qed.

  Lemma step_add b r a :
    Sim g r0 b r -> PInv T b -> pm_get (b_add b) (pstore a) = Some a -> pm_get (b_cur b) (pstore a) = None ->
    exists r', Sim g r0 (exec_add b a) r' /\ PInv T (exec_add b a)
               /\ voters_new (peers r') = voters_new (peers r) + b2z (negb (is_learner a)) /\ leader r' = leader r.
  Proof.
    intros S P Ha Hc. destruct S as [S1 S2 S3 S4 S5 S6]. destruct P as [P1 P2 P3 P4 P5 P6].
    set (st := pstore a) in *. set (id := pid a).
    pose proof (P6 st) as Q. unfold look, PIat in Q. rewrite Hc, Ha in Q.
    destruct Q as (Qp & Qd & Qr & Qa & Qf & Qc).
    destruct (Qa a eq_refl) as (_ & Hnz & Hro & Hp0 & Hd0 & _).
    assert (Hr0 : pm_get (b_remove b) st = None).
    { destruct (pm_get (b_remove b) st) as [x|] eqn:E; [|reflexivity]. destruct (Qr x eq_refl) as (C & _). discriminate. }
    assert (Hlk : lk (peers r) st = None) by (rewrite S4; exact Hc).
    assert (Hin : In a (b_add b)) by (apply (lk_Some _ _ _ Ha)).
    destruct (pc_add_learner g r (b_light b) st id S2 S3 Hlk) as (E1 & I1 & N1). unfold add_step in E1.
    set (r1 := set_peers r (peers r ++ [Peer st id Learner]) 1) in *.
    assert (Hlk1 : forall s, lk (peers r1) s = if s =? st then Some (Peer st id Learner) else lk (peers r) s).
    { intros s. unfold r1; cbn [peers set_peers]. rewrite lk_snoc. cbn [pstore]. rewrite (Z.eqb_sym st s).
      destruct (s =? st) eqn:E; [apply Z.eqb_eq in E; subst s; rewrite Hlk; reflexivity|destruct (lk (peers r) s); reflexivity]. }
    assert (Hv1 : voters_new (peers r1) = voters_new (peers r)).
    { unfold r1, voters_new; cbn [peers set_peers]. rewrite countb_app. unfold countb at 2; cbn. lia. }
    assert (Hids1 : NoDup (map pid (peers r1) ++ map pid (pm_del (b_add b) st))).
    { unfold r1; cbn [peers set_peers]. apply ids_move; [apply PSorted_ND; exact P2|exact Hin|reflexivity|exact S6]. }
    assert (Hsorted : PSorted (pm_set (b_cur b) a) /\ PSorted (pm_del (b_add b) st)) by (split; [apply pm_set_sorted|apply pm_del_sorted]; assumption).
    assert (PI' : PInv T (exec_add b a)).
    { constructor; cbn [exec_add upd_exec b_cur b_add b_remove b_promote b_demote]; try tauto.
      intros s. unfold look. cbn [exec_add upd_exec b_cur b_add b_remove b_promote b_demote].
      rewrite get_set, (get_del _ _ _ P2). fold st. destruct (s =? st) eqn:E.
      - apply Z.eqb_eq in E. subst s. rewrite Hr0, Hp0, Hd0. unfold PIat.
        split; [|split; [|split; [|split; [|split]]]]; try (intros ? C; discriminate C).
        + rewrite <- Qf. reflexivity.
        + intros o C. inversion C; subst o. repeat split; auto.
      - apply (P6 s). }
    destruct (is_learner a) eqn:El.
    - assert (Ea : a = Peer st id Learner).
      { rewrite <- (peer_eta a). fold st id. f_equal. apply is_learner_role. exact El. }
      exists r1. split; [|split; [exact PI'|split; [rewrite Hv1; cbn; lia|reflexivity]]].
      constructor; [ | exact I1 | exact N1 | | exact S5 | exact Hids1].
      + intros rest. cbn [b_steps exec_add upd_exec]. rewrite El. rewrite <- app_assoc, S1. cbn [app].
        fold st id. apply E1.
      + intros s. cbn [exec_add upd_exec b_cur]. rewrite get_set, Hlk1. fold st. rewrite <- Ea.
        destruct (s =? st); [reflexivity|apply S4].
    - (* a voter: learner first, then promoted *)
      assert (Ea : a = Peer st id Voter).
      { rewrite <- (peer_eta a). fold st id. f_equal. destruct Hro as [R|R]; [exact R|]. apply is_learner_role in R. congruence. }
      assert (Hl1 : lk (peers r1) st = Some (Peer st id Learner)) by (rewrite Hlk1, Z.eqb_refl; reflexivity).
      destruct (pc_promote g r1 st id I1 N1 Hl1) as (E2 & I2 & N2 & V2).
      set (r2 := set_peers r1 (replace_peer (peers r1) st (Peer st id Voter)) 1) in *.
      exists r2. split; [|split; [exact PI'|split; [rewrite V2, Hv1; cbn; lia|reflexivity]]].
      constructor; [ | exact I2 | exact N2 | | exact S5 | ].
      + intros rest. cbn [b_steps exec_add upd_exec]. rewrite El. rewrite <- app_assoc, S1. cbn [app].
        fold st id. rewrite E1. apply E2.
      + intros s. cbn [exec_add upd_exec b_cur]. rewrite get_set. fold st. unfold r2; cbn [peers set_peers].
        rewrite lk_replace by reflexivity. rewrite Hl1, <- Ea. destruct (s =? st) eqn:E; [reflexivity|].
        rewrite Hlk1, E. apply S4.
      + cbn [exec_add upd_exec b_add]. unfold r2; cbn [peers set_peers].
        rewrite (map_pid_replace _ _ (Peer st id Learner)); [exact Hids1|apply (inv_nd _ _ I1)|exact Hl1|reflexivity].
  Qed.

  Lemma leader_nonzero b r : Sim g r0 b r -> PInv T b -> leader r <> 0.
  Proof.
    intros S P. destruct (inv_leader _ _ (sim_inv _ _ _ _ S)) as (p & Hp & _). rewrite (sim_cur _ _ _ _ S) in Hp.
    pose proof (pi_at _ _ P (leader r)) as Q. unfold look, PIat in Q. rewrite Hp in Q.
    destruct Q as (_ & _ & _ & _ & _ & Qc). destruct (Qc p eq_refl) as (N & _). exact N.
  Qed.

  Lemma step_promote b r n :
    Sim g r0 b r -> PInv T b -> pm_get (b_promote b) (pstore n) = Some n ->
    exists r', Sim g r0 (exec_promote b n) r' /\ PInv T (exec_promote b n)
               /\ voters_new (peers r') = voters_new (peers r) + 1 /\ leader r' = leader r.
  Proof.
    intros S P Hn. destruct S as [S1 S2 S3 S4 S5 S6]. destruct P as [P1 P2 P3 P4 P5 P6].
    set (st := pstore n) in *.
    pose proof (P6 st) as Q. unfold look in Q.
    destruct (PIat_promote _ _ _ _ _ _ _ _ Q Hn) as (Ha0 & Hr0 & Hd0 & o & Ho & Hro & En).
    destruct Q as (_ & _ & _ & _ & Qf & Qc). rewrite Hn, Ho in *.
    destruct (Qc o eq_refl) as (Hnz & Hso & _).
    set (id := pid o) in *.
    assert (Eo : o = Peer st id Learner) by (rewrite <- (peer_eta o); fold id; rewrite Hso, Hro; reflexivity).
    assert (Hlk : lk (peers r) st = Some (Peer st id Learner)) by (rewrite S4, Ho, Eo; reflexivity).
    assert (Hidn : pid n = id) by (rewrite En; reflexivity).
    destruct (pc_promote g r st id S2 S3 Hlk) as (Erun & I' & N' & V').
    set (r' := set_peers r (replace_peer (peers r) st (Peer st id Voter)) 1) in *.
    exists r'. split; [|split; [|split; [exact V'|reflexivity]]].
    - constructor; [ | exact I' | exact N' | | exact S5 | ].
      + intros rest. cbn [b_steps exec_promote upd_exec]. rewrite <- app_assoc, S1. cbn [app]. fold st. rewrite Hidn.
        apply Erun.
      + intros s. cbn [exec_promote upd_exec b_cur]. rewrite get_set. fold st. unfold r'; cbn [peers set_peers].
        rewrite lk_replace by reflexivity. rewrite Hlk, En. fold id. destruct (s =? st); [reflexivity|apply S4].
      + cbn [exec_promote upd_exec b_add]. unfold r'; cbn [peers set_peers].
        rewrite (map_pid_replace _ _ (Peer st id Learner)); [exact S6|apply (inv_nd _ _ S2)|exact Hlk|reflexivity].
    - constructor; cbn [exec_promote upd_exec b_cur b_add b_remove b_promote b_demote]; try assumption;
        [apply pm_set_sorted; exact P1|apply pm_del_sorted; exact P4|].
      intros s. unfold look. cbn [exec_promote upd_exec b_cur b_add b_remove b_promote b_demote].
      rewrite get_set, (get_del _ _ _ P4). fold st. destruct (s =? st) eqn:E.
      + apply Z.eqb_eq in E. subst s. rewrite Ha0, Hr0, Hd0. rewrite Ha0, Hr0 in Qf. unfold PIat.
        split; [|split; [|split; [|split; [|split]]]]; try (intros ? C; discriminate C).
        * rewrite <- Qf. cbn. rewrite En. reflexivity.
        * intros o' C. inversion C; subst o'. rewrite En. cbn. repeat split; auto.
      + apply (P6 s).
  Qed.

  Lemma step_demote b r n :
    Sim g r0 b r -> PInv T b -> pm_get (b_demote b) (pstore n) = Some n -> leader r <> pstore n ->
    g_min_voters g + 1 <= voters_new (peers r) ->
    exists r', Sim g r0 (exec_demote b n) r' /\ PInv T (exec_demote b n)
               /\ voters_new (peers r') = voters_new (peers r) - 1 /\ leader r' = leader r.
  Proof.
    intros S P Hn Hne Hmin. pose proof (leader_nonzero b r S P) as Hl0.
    destruct S as [S1 S2 S3 S4 S5 S6]. destruct P as [P1 P2 P3 P4 P5 P6].
    set (st := pstore n) in *.
    pose proof (P6 st) as Q. unfold look in Q.
    destruct (PIat_demote _ _ _ _ _ _ _ _ Q Hn) as (Ha0 & Hr0 & Hp0 & o & Ho & Hro & En).
    destruct Q as (_ & _ & _ & _ & Qf & Qc). rewrite Hn, Ho in *.
    destruct (Qc o eq_refl) as (Hnz & Hso & _).
    set (id := pid o) in *.
    assert (Eo : o = Peer st id Voter) by (rewrite <- (peer_eta o); fold id; rewrite Hso, Hro; reflexivity).
    assert (Hlk : lk (peers r) st = Some (Peer st id Voter)) by (rewrite S4, Ho, Eo; reflexivity).
    assert (Hidn : pid n = id) by (rewrite En; reflexivity).
    assert (Hids : NoDup (map pid (peers r))) by (apply (nodup_app_l _ _ S6)).
    destruct (pc_demote g r st id S2 S3 Hids Hl0 Hlk Hne Hmin) as (Erun & I' & N' & V').
    set (r' := set_peers r (replace_peer (peers r) st (Peer st id Learner)) 1) in *.
    exists r'. split; [|split; [|split; [exact V'|reflexivity]]].
    - constructor; [ | exact I' | exact N' | | exact S5 | ].
      + intros rest. cbn [b_steps exec_demote upd_exec]. rewrite <- app_assoc, S1. cbn [app]. fold st. rewrite Hidn.
        apply Erun.
      + intros s. cbn [exec_demote upd_exec b_cur]. rewrite get_set. fold st. unfold r'; cbn [peers set_peers].
        rewrite lk_replace by reflexivity. rewrite Hlk, En. fold id. destruct (s =? st); [reflexivity|apply S4].
      + cbn [exec_demote upd_exec b_add]. unfold r'; cbn [peers set_peers].
        rewrite (map_pid_replace _ _ (Peer st id Voter)); [exact S6|apply (inv_nd _ _ S2)|exact Hlk|reflexivity].
    - constructor; cbn [exec_demote upd_exec b_cur b_add b_remove b_promote b_demote]; try assumption;
        [apply pm_set_sorted; exact P1|apply pm_del_sorted; exact P5|].
      intros s. unfold look. cbn [exec_demote upd_exec b_cur b_add b_remove b_promote b_demote].
      rewrite get_set, (get_del _ _ _ P5). fold st. destruct (s =? st) eqn:E.
      + apply Z.eqb_eq in E. subst s. rewrite Ha0, Hr0, Hp0. rewrite Ha0, Hr0, Hp0 in Qf. unfold PIat.
        split; [|split; [|split; [|split; [|split]]]]; try (intros ? C; discriminate C).
        * rewrite <- Qf. cbn. rewrite En. reflexivity.
        * intros o' C. inversion C; subst o'. rewrite En. cbn. repeat split; auto.
      + apply (P6 s).
  Qed.

  Lemma step_remove b r x :
    Sim g r0 b r -> PInv T b -> pm_get (b_remove b) (pstore x) = Some x -> leader r <> pstore x ->
    g_min_voters g + b2z (new_voter x) <= voters_new (peers r) ->
    exists r', Sim g r0 (exec_remove b x) r' /\ PInv T (exec_remove b x)
               /\ voters_new (peers r') = voters_new (peers r) - b2z (new_voter x) /\ leader r' = leader r.
  Proof.
    intros S P Hx Hne Hmin.
    destruct S as [S1 S2 S3 S4 S5 S6]. destruct P as [P1 P2 P3 P4 P5 P6].
    set (st := pstore x) in *.
    pose proof (P6 st) as Q. unfold look, PIat in Q. rewrite Hx in Q.
    destruct Q as (Qp & Qd & Qr & Qa & Qf & Qc).
    destruct (Qr x eq_refl) as (Hc & Hp0 & Hd0). rewrite Hc, Hp0, Hd0 in *.
    set (id := pid x). set (ro := prole x).
    assert (Ex : x = Peer st id ro) by (rewrite <- (peer_eta x); reflexivity).
    assert (Hlk : lk (peers r) st = Some (Peer st id ro)) by (rewrite S4, Hc, <- Ex; reflexivity).
    assert (Hmin' : g_min_voters g + b2z (new_voter (Peer st id ro)) <= voters_new (peers r)) by (rewrite <- Ex; exact Hmin).
    destruct (pc_remove g r st id ro S2 S3 Hlk Hne Hmin') as (Erun & I' & N' & V').
    set (r' := set_peers r (remove_store (peers r) st) 1) in *.
    exists r'. split; [|split; [|split; [rewrite V', <- Ex; reflexivity|reflexivity]]].
    - constructor; [ | exact I' | exact N' | | exact S5 | ].
      + intros rest. cbn [b_steps exec_remove upd_exec]. rewrite <- app_assoc, S1. cbn [app]. fold st id.
        apply Erun.
      + intros s. cbn [exec_remove upd_exec b_cur]. rewrite (get_del _ _ _ P1). fold st. unfold r'; cbn [peers set_peers].
        rewrite lk_remove_store by (apply (inv_nd _ _ S2)). destruct (s =? st); [reflexivity|apply S4].
      + cbn [exec_remove upd_exec b_add]. unfold r'; cbn [peers set_peers].
        eapply nodup_app_sub; [| |exact S6].
        * intros y Hy. apply in_map_iff in Hy as (q & <- & Hq). unfold remove_store in Hq. apply filter_In in Hq as [Hq _]. apply in_map. exact Hq.
        * unfold remove_store. apply nodup_map_filter. apply (nodup_app_l _ _ S6).
    - constructor; cbn [exec_remove upd_exec b_cur b_add b_remove b_promote b_demote]; try assumption;
        [apply pm_del_sorted; exact P1|apply pm_del_sorted; exact P3|].
      intros s. unfold look. cbn [exec_remove upd_exec b_cur b_add b_remove b_promote b_demote].
      rewrite (get_del _ _ _ P1), (get_del _ _ _ P3). fold st. destruct (s =? st) eqn:E.
      + apply Z.eqb_eq in E. subst s. rewrite Hp0, Hd0. unfold PIat.
        split; [|split; [|split; [|split; [|split]]]]; try (intros ? C; discriminate C).
        * intros a Ea. destruct (Qa a Ea) as (A1 & A2 & A3 & A4 & A5 & _). repeat split; auto.
        * rewrite <- Qf. cbn. destruct (pm_get (b_add b) st); reflexivity.
      + apply (P6 s).
  Qed.
End Steps.
