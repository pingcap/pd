(* C13 — frame of an accepted update (model/C13_Rules.v, `names_key`): the patch an update builds has
   entries only under keys the update names (group ids compared for equality), and carries only rules of
   the update; committing it leaves every other served rule as it was, and serves no rule that was not
   served before or carried by the update. *)
From Coq Require Import Sorting.Sorted.
From PDV Require Import lib.Base lib.C12_Order lib.C13_Map gen.Gen_C13 model.C13_Rules
  proof.C13_RulesProof proof.C13_UpdateProof proof.C13_HistoryProof.
Local Open Scope list_scope.

Theorem make_patch_frame c u p : make_patch c u = Some p ->
  forall k w, In (k, w) (m_rules p) -> named u k /\ (forall r, w = Some r -> carried u r).
Proof.
  apply (make_patch_ind c (fun p => forall k w, In (k, w) (m_rules p) -> named u k /\ (forall r, w = Some r -> carried u r))).
  - intros k w [].
  - split; [|split].
    + intros r p0 _ Cr Hp k w Hin. apply (aset_In pair_cmp) in Hin as [E|Hin]; [|apply Hp; exact Hin].
      inversion E; subst. split; [apply named_carried; exact Cr|]. intros r0 E0. inversion E0; subst. exact Cr.
    + intros g i p0 N Hp k w Hin. apply (aset_In pair_cmp) in Hin as [E|Hin]; [|apply Hp; exact Hin].
      inversion E; subst. split; [exact N|discriminate].
    + intros g p0 Hp. exact Hp.
Qed.

Lemma r_ver_set_group r g : r_ver (set_group r g) = r_ver r.
Proof. destruct r; reflexivity. Qed.

Definition cver (c : config) (k : id * id) : option Z := option_map r_ver (rget k (c_rules c)).

Section CommitFrame.
  Variables (c : config) (p : patch).
  Hypothesis Hc : conf_ok c.
  Hypothesis Hp : patch_ok p.
  Let c' := patch_commit (fst (patch_adjust c p)) (patch_trim (fst (patch_adjust c p)) (snd (patch_adjust c p))).

  (* a key without an entry in the patch keeps its rule *)
  Lemma commit_keeps k : mget pair_cmp k (m_rules p) = None -> cver c' k = cver c k.
  Proof.
    intros Hn. unfold cver, c'. rewrite (committed_get_view c p Hc Hp). unfold vget. rewrite adjusted_patch_get, Hn. cbn [option_map].
    rewrite adjusted_conf_get. unfold rget, repoint. rewrite Hn. destruct (mget pair_cmp k (c_rules c)) as [r|]; [|reflexivity].
    cbn [option_map]. rewrite r_ver_set_group. reflexivity.
  Qed.

  (* a served rule was served under that key, or is an entry of the patch *)
  Lemma commit_adds k r' : rget k (c_rules c') = Some r' ->
    cver c k = Some (r_ver r') \/ exists r0, In (k, Some r0) (m_rules p) /\ r_ver r0 = r_ver r'.
  Proof.
    unfold c'. rewrite (committed_get_view c p Hc Hp). unfold vget. rewrite adjusted_patch_get.
    destruct (mget pair_cmp k (m_rules p)) as [[r0|]|] eqn:E; cbn [option_map]; [| discriminate |].
    - intros H. inversion H; subst. right. exists r0.
      split; [apply (aget_In pair_cmp pair_cmp_eq); exact E|rewrite r_ver_set_group; reflexivity].
    - rewrite adjusted_conf_get. unfold cver, rget, repoint. rewrite E. destruct (mget pair_cmp k (c_rules c)) as [r|]; [|discriminate].
      intros H. inversion H; subst. left. cbn [option_map]. rewrite r_ver_set_group. reflexivity.
  Qed.
End CommitFrame.

Theorem accepted_update_frame st u f w st' o m m' :
  st_live st = Some m -> conf_ok (m_conf m) ->
  step_update st u f w = (st', o) -> o_res o = ROk -> st_live st' = Some m' ->
  (forall g i, names_key u g i = false -> cver (m_conf m') (g, i) = cver (m_conf m) (g, i)) /\
  (forall k r', rget k (c_rules (m_conf m')) = Some r' ->
     cver (m_conf m) k = Some (r_ver r') \/ In (r_ver r') (map r_ver (rules_of_update u))).
Proof.
  intros El Hc Hstep Hres El'.
  destruct (step_update_ok _ _ _ _ _ _ Hstep Hres) as (m0 & p & m1 & s1 & ok & El0 & Ep & Et & ->).
  rewrite El in El0. injection El0 as <-. cbn [st_live] in El'. injection El' as ->.
  pose proof (make_patch_ok _ _ _ Ep) as Pok. pose proof (make_patch_frame _ _ _ Ep) as Fr.
  destruct (try_commit_committed _ _ _ _ _ _ _ _ Et) as (c1 & p1 & rl & Ea & _ & -> & _). cbn [m_conf].
  replace c1 with (fst (patch_adjust (m_conf m) p)) by (rewrite Ea; reflexivity).
  replace p1 with (snd (patch_adjust (m_conf m) p)) by (rewrite Ea; reflexivity). split.
  - intros g i Hn. apply commit_keeps; try assumption.
    destruct (mget pair_cmp (g, i) (m_rules p)) as [x|] eqn:E; [|reflexivity].
    apply (aget_In pair_cmp pair_cmp_eq) in E. destruct (Fr _ _ E) as [A _]. unfold named in A. cbn [fst snd] in A.
    rewrite A in Hn. discriminate.
  - intros k r' Hget. destruct (commit_adds _ _ Hc Pok k r' Hget) as [H|[r0 [Hin Ev]]]; [left; exact H|right].
    destruct (Fr _ _ Hin) as [_ B]. rewrite <- Ev. apply in_map. apply B. reflexivity.
Qed.
