(* Three-valued comparison functions that come from a total preorder ("good" comparisons):
   closure under pull-back, flipping, lexicographic product and lexicographic lists, and the
   consequences used by the C12 proofs (first-maximum folds).  No axioms. *)
From Coq Require Import List ZArith Lia Bool.
Import ListNotations.

Definition lexc (c d : comparison) : comparison := match c with Eq => d | _ => c end.

Record good {A} (c : A -> A -> comparison) : Prop := {
  g_anti  : forall a b, c b a = CompOpp (c a b);
  g_trans : forall a b d x, c a b = x -> c b d = x -> c a d = x;
  g_eq_l  : forall a b d, c a b = Eq -> c a d = c b d
}.

Section Facts.
  Context {A} (c : A -> A -> comparison) (G : good c).

  Lemma g_refl a : c a a = Eq.
  Proof. pose proof (g_anti c G a a) as H. destruct (c a a); cbn in H; congruence. Qed.

  Lemma g_eq_r a b d : c a b = Eq -> c d a = c d b.
  Proof.
    intros H. rewrite (g_anti c G a d), (g_anti c G b d). f_equal. apply (g_eq_l c G); exact H.
  Qed.

  Lemma g_eq_sym a b : c a b = Eq -> c b a = Eq.
  Proof. intros H. rewrite (g_anti c G a b), H. reflexivity. Qed.

  Lemma g_gt_lt a b : c a b = Gt <-> c b a = Lt.
  Proof. rewrite (g_anti c G a b). destruct (c a b); cbn; split; congruence. Qed.

  (* x > t and not (y > t)  ==>  x > y *)
  Lemma g_gt_nle x y t : c x t = Gt -> c y t <> Gt -> c x y = Gt.
  Proof.
    intros H1 H2. destruct (c y t) eqn:E; try congruence.
    - rewrite (g_eq_r t y x (g_eq_sym _ _ E)) in H1. exact H1.
    - assert (E' : c t y = Gt) by (apply g_gt_lt; exact E).
      eapply (g_trans c G); eauto.
  Qed.

  Lemma g_ge_trans a b d : c a b <> Lt -> c b d <> Lt -> c a d <> Lt.
  Proof.
    intros H1 H2 H3.
    destruct (c a b) eqn:E1; try congruence.
    - rewrite (g_eq_l c G a b d E1) in H3. congruence.
    - destruct (c b d) eqn:E2; try congruence.
      + rewrite <- (g_eq_r b d a E2) in H3. congruence.
      + rewrite (g_trans c G a b d Gt E1 E2) in H3. congruence.
  Qed.

  Lemma g_gt_ge a b d : c a b = Gt -> c b d <> Lt -> c a d = Gt.
  Proof using G.
    intros H1 H2. destruct (c b d) eqn:E2; try congruence.
    - rewrite <- (g_eq_r b d a E2). exact H1.
    - eapply (g_trans c G); eauto.
  Qed.

  Lemma g_ge_gt a b d : c a b <> Lt -> c b d = Gt -> c a d = Gt.
  Proof.
    intros H1 H2. destruct (c a b) eqn:E1; try congruence.
    - rewrite (g_eq_l c G a b d E1). exact H2.
    - eapply (g_trans c G); eauto.
  Qed.

  (* first maximum: replaced on strict improvement only *)
  Definition keep_better (acc x : A) : A := match c x acc with Gt => x | _ => acc end.
  Definition step_opt (cur : option A) (x : A) : option A :=
    match cur with None => Some x | Some t => Some (keep_better t x) end.

  Lemma fold_better_in xs x0 : In (fold_left keep_better xs x0) (x0 :: xs).
  Proof.
    revert x0; induction xs as [|x r IH]; intros x0; cbn [fold_left]; [left; reflexivity|].
    specialize (IH (keep_better x0 x)).
    destruct IH as [H|H]; [|right; right; exact H].
    rewrite <- H. unfold keep_better. destruct (c x x0); cbn; auto.
  Qed.

  Lemma kb_ge_l x0 x : c (keep_better x0 x) x0 <> Lt.
  Proof.
    unfold keep_better. destruct (c x x0) eqn:E; try (rewrite g_refl; discriminate). rewrite E; discriminate.
  Qed.
  Lemma kb_ge_r x0 x : c (keep_better x0 x) x <> Lt.
  Proof.
    unfold keep_better. destruct (c x x0) eqn:E.
    - rewrite (g_eq_sym _ _ E); discriminate.
    - rewrite (g_anti c G x x0), E; discriminate.
    - rewrite g_refl; discriminate.
  Qed.

  Lemma fold_better_ge_init xs x0 : c (fold_left keep_better xs x0) x0 <> Lt.
  Proof.
    revert x0; induction xs as [|x r IH]; intros x0; cbn [fold_left].
    - rewrite g_refl; discriminate.
    - eapply g_ge_trans; [apply IH|apply kb_ge_l].
  Qed.

  Lemma fold_better_max xs : forall x0 y, In y (x0 :: xs) -> c (fold_left keep_better xs x0) y <> Lt.
  Proof.
    induction xs as [|x r IH]; intros x0 y Hy; cbn [fold_left].
    - destruct Hy as [Hy|[]]. subst; rewrite g_refl; discriminate.
    - destruct Hy as [Hy|[Hy|Hy]].
      + subst y. eapply g_ge_trans; [apply fold_better_ge_init|apply kb_ge_l].
      + subst y. eapply g_ge_trans; [apply fold_better_ge_init|apply kb_ge_r].
      + apply IH. right; exact Hy.
  Qed.

  Lemma kb_gt t x : c x t = Gt -> keep_better t x = x.
  Proof. unfold keep_better. intros ->. reflexivity. Qed.
  Lemma kb_ngt t x : c x t <> Gt -> keep_better t x = t.
  Proof. unfold keep_better. destruct (c x t); congruence. Qed.
  Lemma gt_or_not x t : c x t = Gt \/ c x t <> Gt.
  Proof. destruct (c x t); [right|right|left]; congruence. Qed.

  (* the same loop with the "was something replaced" flag the Go code returns *)
  Definition gtb (x t : A) : bool := match c x t with Gt => true | _ => false end.
  Definition changed (cur : option A) (x : A) : bool :=
    match cur with None => true | Some t => gtb x t end.
  Definition step_optb (st : option A * bool) (x : A) : option A * bool :=
    (step_opt (fst st) x, snd st || changed (fst st) x).

  Lemma gtb_gt x t : c x t = Gt -> gtb x t = true.
  Proof. unfold gtb. intros ->. reflexivity. Qed.
  Lemma gtb_ngt x t : c x t <> Gt -> gtb x t = false.
  Proof. unfold gtb. destruct (c x t); congruence. Qed.

  (* offering x and then y to a best t is offering the better of x and y (the first on a tie) *)
  Lemma kb_assoc t x y : keep_better (keep_better t x) y = keep_better t (keep_better x y).
  Proof.
    destruct (gt_or_not x t) as [Hx|Hx].
    - rewrite (kb_gt t x Hx). symmetry. apply kb_gt. exact (g_ge_gt _ _ _ (kb_ge_l x y) Hx).
    - rewrite (kb_ngt t x Hx). destruct (gt_or_not y x) as [Hy|Hy].
      + rewrite (kb_gt x y Hy). reflexivity.
      + rewrite (kb_ngt x y Hy), (kb_ngt t x Hx). apply kb_ngt. intros Hyt. exact (Hy (g_gt_nle y x t Hyt Hx)).
  Qed.

  Lemma gtb_kb t x y : gtb x t || gtb y (keep_better t x) = gtb (keep_better x y) t.
  Proof.
    destruct (gt_or_not x t) as [Hx|Hx].
    - rewrite (gtb_gt x t Hx). symmetry. apply gtb_gt. exact (g_ge_gt _ _ _ (kb_ge_l x y) Hx).
    - rewrite (gtb_ngt x t Hx), (kb_ngt t x Hx). cbn [orb]. destruct (gt_or_not y x) as [Hy|Hy].
      + rewrite (kb_gt x y Hy). reflexivity.
      + rewrite (kb_ngt x y Hy), (gtb_ngt x t Hx). apply gtb_ngt. intros Hyt. exact (Hy (g_gt_nle y x t Hyt Hx)).
  Qed.

  Lemma step_opt_assoc cur x y : step_opt (step_opt cur x) y = step_opt cur (keep_better x y).
  Proof. destruct cur as [t|]; cbn [step_opt]; [rewrite kb_assoc|]; reflexivity. Qed.
  Lemma changed_assoc cur x y : changed cur x || changed (step_opt cur x) y = changed cur (keep_better x y).
  Proof. destruct cur as [t|]; [apply gtb_kb|reflexivity]. Qed.

  (* feeding a non-empty list to the running best is offering its first maximum *)
  Lemma fold_stepb_some xs : forall x cur b,
    fold_left step_optb xs (step_opt cur x, b || changed cur x) =
    (step_opt cur (fold_left keep_better xs x), b || changed cur (fold_left keep_better xs x)).
  Proof.
    induction xs as [|y r IH]; intros x cur b; cbn [fold_left]; [reflexivity|].
    unfold step_optb at 2. cbn [fst snd]. rewrite step_opt_assoc, <- orb_assoc, changed_assoc. apply IH.
  Qed.

  Lemma fold_stepb_first x xs cur :
    fold_left step_optb (x :: xs) (cur, false) =
    (step_opt cur (fold_left keep_better xs x), changed cur (fold_left keep_better xs x)).
  Proof. exact (fold_stepb_some xs x cur false). Qed.

  Lemma fold_stepb_fst xs : forall cur b, fst (fold_left step_optb xs (cur, b)) = fold_left step_opt xs cur.
  Proof. induction xs as [|y r IH]; intros cur b; [reflexivity|]. apply IH. Qed.

  Lemma fold_step_from_some x xs t :
    fold_left step_opt (x :: xs) (Some t) = Some (keep_better t (fold_left keep_better xs x)).
  Proof using G. rewrite <- (fold_stepb_fst _ _ false), fold_stepb_first. reflexivity. Qed.

  Lemma fold_step_from_none x xs :
    fold_left step_opt (x :: xs) None = Some (fold_left keep_better xs x).
  Proof using.
    cbn [fold_left step_opt]. revert x; induction xs as [|y r IH]; intros x; cbn [fold_left]; [reflexivity|].
    cbn [step_opt]. apply IH.
  Qed.

  Lemma fold_stepb_flag xs : forall cur b,
    fold_left step_optb xs (cur, b) =
    (fst (fold_left step_optb xs (cur, false)), b || snd (fold_left step_optb xs (cur, false))).
  Proof.
    induction xs as [|y r IH]; intros cur b; cbn [fold_left].
    - cbn. rewrite orb_false_r. reflexivity.
    - unfold step_optb at 2 4 6. cbn [fst snd orb].
      rewrite (IH (step_opt cur y) (b || changed cur y)), (IH (step_opt cur y) (changed cur y)).
      cbn [fst snd]. rewrite orb_assoc. reflexivity.
  Qed.
End Facts.

Lemma good_Z : good Z.compare.
Proof.
  constructor.
  - intros; apply Z.compare_antisym.
  - intros a b d x H1 H2. destruct x.
    + apply Z.compare_eq in H1, H2. subst. apply Z.compare_refl.
    + rewrite Z.compare_lt_iff in *. lia.
    + rewrite Z.compare_gt_iff in *. lia.
  - intros a b d H. apply Z.compare_eq in H. subst. reflexivity.
Qed.

Lemma good_nat : good Nat.compare.
Proof.
  constructor.
  - intros; apply Nat.compare_antisym.
  - intros a b d x H1 H2. destruct x.
    + apply Nat.compare_eq in H1, H2. subst. apply Nat.compare_refl.
    + rewrite Nat.compare_lt_iff in *. lia.
    + rewrite Nat.compare_gt_iff in *. lia.
  - intros a b d H. apply Nat.compare_eq in H. subst. reflexivity.
Qed.

Lemma good_pull {A B} (f : A -> B) c : good c -> good (fun a b => c (f a) (f b)).
Proof.
  intros G; constructor; intros.
  - apply (g_anti c G).
  - eapply (g_trans c G); eauto.
  - apply (g_eq_l c G); assumption.
Qed.

Lemma good_flip {A} (c : A -> A -> comparison) : good c -> good (fun a b => c b a).
Proof.
  intros G; constructor; intros.
  - apply (g_anti c G).
  - eapply (g_trans c G); eauto.
  - apply (g_eq_r c G). apply (g_eq_sym c G). assumption.
Qed.

Lemma lexc_eq c d : lexc c d = Eq -> c = Eq /\ d = Eq.
Proof. destruct c; cbn; intros; try discriminate; auto. Qed.

Lemma lexc_gt c d : lexc c d = Gt <-> c = Gt \/ (c = Eq /\ d = Gt).
Proof. destruct c; cbn; intuition congruence. Qed.

(* transitivity of a lexicographic product, the second components being any three values for which it holds *)
Lemma lexc_trans {A} (c1 : A -> A -> comparison) (G1 : good c1) a b d p q r x :
  (p = x -> q = x -> r = x) -> lexc (c1 a b) p = x -> lexc (c1 b d) q = x -> lexc (c1 a d) r = x.
Proof.
  intros T H1 H2. destruct (c1 a b) eqn:E1; destruct (c1 b d) eqn:E2; cbn in H1, H2.
  - rewrite (g_trans c1 G1 a b d Eq E1 E2). cbn. exact (T H1 H2).
  - rewrite (g_eq_l c1 G1 a b d E1), E2. exact H2.
  - rewrite (g_eq_l c1 G1 a b d E1), E2. exact H2.
  - rewrite <- (g_eq_r c1 G1 b d a E2), E1. exact H1.
  - rewrite (g_trans c1 G1 a b d Lt E1 E2). exact H1.
  - congruence.
  - rewrite <- (g_eq_r c1 G1 b d a E2), E1. exact H1.
  - congruence.
  - rewrite (g_trans c1 G1 a b d Gt E1 E2). exact H1.
Qed.

Lemma good_lex {A} (c1 c2 : A -> A -> comparison) :
  good c1 -> good c2 -> good (fun a b => lexc (c1 a b) (c2 a b)).
Proof.
  intros G1 G2; constructor.
  - intros a b. rewrite (g_anti c1 G1 a b), (g_anti c2 G2 a b). destruct (c1 a b); reflexivity.
  - intros a b d x. apply (lexc_trans c1 G1). apply (g_trans c2 G2).
  - intros a b d H. apply lexc_eq in H as [H1 H2].
    rewrite (g_eq_l c1 G1 a b d H1), (g_eq_l c2 G2 a b d H2). reflexivity.
Qed.

Section ListLex.
  Context {A} (c : A -> A -> comparison) (G : good c).
  Fixpoint lexlist (a b : list A) : comparison :=
    match a, b with
    | [], [] => Eq
    | [], _ :: _ => Lt
    | _ :: _, [] => Gt
    | x :: a', y :: b' => lexc (c x y) (lexlist a' b')
    end.

  Lemma good_lexlist : good lexlist.
  Proof.
    constructor.
    - intros a; induction a as [|x a IH]; intros [|y b]; cbn; try reflexivity.
      rewrite (g_anti c G x y), IH. destruct (c x y); reflexivity.
    - intros a; induction a as [|x a IH]; intros [|y b] [|z d] r; cbn; try congruence.
      apply (lexc_trans c G). apply IH.
    - intros a; induction a as [|x a IH]; intros [|y b] [|z d] H; cbn in *; try congruence.
      apply lexc_eq in H as [H1 H2].
      rewrite (g_eq_l c G x y z H1), (IH b d H2). reflexivity.
  Qed.
End ListLex.
