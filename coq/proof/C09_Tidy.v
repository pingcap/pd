(* C09 — a syntactic criterion for "no step lowers what an earlier step counts in ConfVerChanged" (monotone_from
   of proof/C09_OwnGeneral.v): every later step is compatible with every earlier one.  General in the plan. *)
From PDV Require Import lib.Base model.C08_Steps model.C08_Builder model.C09_OpCtl proof.C08_ListFacts proof.C08_PlanProof
     proof.C08_SimPhases proof.C08_StepSpec proof.C09_CountProof proof.C09_OwnGeneral.
Local Open Scope list_scope.
Local Open Scope Z_scope.

Definition step_store (s : step) : option Z :=
  match s with
  | AddPeer st _ | AddLearner st _ | AddLightPeer st _ | AddLightLearner st _
  | PromoteLearner st _ | DemoteFollower st _ | RemovePeer st _ => Some st
  | _ => None
  end.

Definition in_fst (st : Z) (l : list (Z * Z)) : bool := existsb (fun e => fst e =? st) l.

(* may the later step s follow the earlier step x without lowering x's count?
     x or s a leader transfer, merge or split: yes
     s = Enter: only after a learner add or a removal
     s = Leave: after a learner add, a removal, or the Enter with the same two lists
     s on one store, x = Enter / Leave: the store is not among x's promotions, nor (unless s removes) its demotions
     s and x on one store each: other stores; or x a learner add and s a promotion; or x a removal of a non-zero id
       and s an add under another id
     otherwise: no *)
Definition compat (x s : step) : bool :=
  match x with
  | TransferLeader _ _ | MergeRegion _ _ | SplitRegion _ => true
  | _ =>
  match s with
  | TransferLeader _ _ | MergeRegion _ _ | SplitRegion _ => true
  | ChangePeerV2Enter _ _ =>
      match x with AddLearner _ _ | AddLightLearner _ _ | RemovePeer _ _ => true | _ => false end
  | ChangePeerV2Leave pl dv =>
      match x with
      | AddLearner _ _ | AddLightLearner _ _ | RemovePeer _ _ => true
      | ChangePeerV2Enter pl' dv' => list_eqb zz_eqb pl pl' && list_eqb zz_eqb dv dv'
      | _ => false
      end
  | _ =>
      match step_store s with
      | None => false
      | Some st =>
          match x with
          | ChangePeerV2Enter pl dv | ChangePeerV2Leave pl dv =>
              negb (in_fst st pl) && (match s with RemovePeer _ _ => true | _ => negb (in_fst st dv) end)
          | _ =>
              match step_store x with
              | Some st' =>
                  negb (st' =? st)
                  || match x, s with
                     | AddLearner _ _, PromoteLearner _ _ | AddLightLearner _ _, PromoteLearner _ _ => true
                     | RemovePeer _ id, AddLearner _ id' | RemovePeer _ id, AddLightLearner _ id'
                     | RemovePeer _ id, AddPeer _ id' | RemovePeer _ id, AddLightPeer _ id' => negb (id =? 0) && negb (id' =? id)
                     | _, _ => false
                     end
              | None => false
              end
          end
      end
  end
  end.

(* a step works on the peer of one store (step_store), on the peers its two lists name, or on no peer at all *)
Definition peerless (s : step) : Prop :=
  match s with TransferLeader _ _ | MergeRegion _ _ | SplitRegion _ => True | _ => False end.

Lemma step_class s :
  (exists st, step_store s = Some st) \/ (exists pl dv, s = ChangePeerV2Enter pl dv \/ s = ChangePeerV2Leave pl dv) \/ peerless s.
Proof.
  destruct s as [? ?|st ?|st ?|st ?|st ?|st ?|st ?|st ?|pl dv|pl dv|? ?|?]; cbn;
    try (left; exists st; reflexivity); try (right; right; exact I); right; left; exists pl, dv; auto.
Qed.

Lemma cvc_zero_kind r x : match x with TransferLeader _ _ | MergeRegion _ _ | SplitRegion _ => True | _ => False end -> conf_ver_changed r x = 0.
Proof. destruct x; intros H; try contradiction; reflexivity. Qed.

Definition step_stores (x : step) : list Z :=
  match x with
  | ChangePeerV2Enter pl dv | ChangePeerV2Leave pl dv => map fst pl ++ map fst dv
  | _ => match step_store x with Some st => [st] | None => [] end
  end.

Lemma in_fst_false st l : in_fst st l = false -> ~ In st (map fst l).
Proof.
  unfold in_fst. intros H Hin. apply in_map_iff in Hin as (e & He & Hin).
  pose proof (existsb_false_all _ _ H e Hin) as N. cbn in N. rewrite He, Z.eqb_refl in N. discriminate.
Qed.

Lemma forallb_ext_in {A} (f g : A -> bool) l : (forall x, In x l -> f x = g x) -> forallb f l = forallb g l.
Proof.
  induction l as [|x r IH]; intros H; cbn; [reflexivity|]. rewrite (H x (or_introl eq_refl)), IH; [reflexivity|].
  intros y Hy. apply H. right. exact Hy.
Qed.

(* the count of a joint step: all or nothing, decided by a test per promoted and per demoted peer *)
Lemma joint_count_mono (a a' b b' : bool) (n : Z) :
  0 <= n -> a' = a -> (b = true -> b' = true) -> (if a && b then n else 0) <= (if a' && b' then n else 0).
Proof. intros Hn -> Hb. destruct a, b; cbn; try rewrite Hb by reflexivity; try destruct b'; lia. Qed.

Lemma joint_count_ext (a a' b b' : bool) (n : Z) : a' = a -> b' = b -> (if a' && b' then n else 0) = (if a && b then n else 0).
Proof. intros -> ->. reflexivity. Qed.

Lemma cvc_local r r' x :
  ND (peers r) -> ND (peers r') -> (forall st, In st (step_stores x) -> lk (peers r') st = lk (peers r) st) ->
  conf_ver_changed r' x = conf_ver_changed r x.
Proof.
  intros Hnd Hnd' H.
  assert (Hp : forall st, In st (step_stores x) -> get_store_peer r' st = get_store_peer r st) by (intros st Hin; rewrite !get_store_peer_lk; auto).
  assert (Hv : forall st, In st (step_stores x) -> get_store_voter r' st = get_store_voter r st).
  { intros st Hin. rewrite (get_store_voter_lk r _ Hnd), (get_store_voter_lk r' _ Hnd'), (H st Hin). reflexivity. }
  assert (Hl : forall st, In st (step_stores x) -> get_store_learner r' st = get_store_learner r st).
  { intros st Hin. rewrite (get_store_learner_lk r _ Hnd), (get_store_learner_lk r' _ Hnd'), (H st Hin). reflexivity. }
  destruct x; cbn [conf_ver_changed step_stores step_store] in *; try reflexivity;
    try (rewrite ?Hp, ?Hv, ?Hl by (left; reflexivity); reflexivity).
  - apply joint_count_ext; apply forallb_ext_in; intros e He; cbn zeta.
    + rewrite (Hv (fst e)) by (apply in_or_app; left; apply in_map, He). reflexivity.
    + rewrite (Hv (fst e)) by (apply in_or_app; right; apply in_map, He). reflexivity.
  - apply joint_count_ext; apply forallb_ext_in; intros e He.
    + cbn zeta. rewrite (Hv (fst e)) by (apply in_or_app; left; apply in_map, He). reflexivity.
    + rewrite leave_lookup_is_store. unfold dv_changed.
      rewrite (Hp (fst e)), (Hl (fst e)) by (apply in_or_app; right; apply in_map, He). reflexivity.
Qed.

(* one change of TiKV's: a new peer on a free store, a new role for the peer of the store, or its removal *)
Lemma apply_change_cases j l ps t p ps' :
  apply_change j l ps (t, p) = Some ps' ->
  (lk ps (pstore p) = None /\ exists ro, ps' = ps ++ [Peer (pstore p) (pid p) ro] /\ (j = false -> ro = Voter \/ ro = Learner))
  \/ (exists e ro, lk ps (pstore p) = Some e /\ t <> RemoveNode /\ ps' = replace_peer ps (pstore p) (Peer (pstore p) (pid e) ro)
                   /\ (j = false -> ro = Voter \/ ro = Learner))
  \/ (t = RemoveNode /\ ps' = remove_store ps (pstore p)).
Proof.
  intros H. unfold apply_change in H. fold (lk ps (pstore p)) in H.
  destruct (lk ps (pstore p)) as [e|]; destruct t; try discriminate.
  - destruct (negb (pid e =? pid p)); [discriminate|]. destruct (prole e); try discriminate. inv H.
    right; left. exists e, (if j then Incoming else Voter). repeat split; [discriminate|intros ->; auto].
  - destruct (negb (pid e =? pid p)); [discriminate|]. destruct (prole e); try discriminate.
    destruct (negb j && (pstore p =? l)); [discriminate|]. inv H.
    right; left. exists e, (if j then Demoting else Learner). repeat split; [discriminate|intros ->; auto].
  - destruct (negb (peer_eqb e p)); [discriminate|]. destruct (pstore p =? l); [discriminate|].
    destruct (j && role_eqb (prole e) Voter); [discriminate|]. inv H. auto.
  - inv H. left. split; [reflexivity|]. exists (if j then Incoming else Voter). split; [reflexivity|intros ->; auto].
  - inv H. left. split; [reflexivity|]. exists Learner. auto.
Qed.

Lemma apply_change_frame j l ps t p ps' :
  ND ps -> apply_change j l ps (t, p) = Some ps' -> forall s, s <> pstore p -> lk ps' s = lk ps s.
Proof.
  intros Hnd H s Hs. apply Z.eqb_neq in Hs.
  destruct (apply_change_cases _ _ _ _ _ _ H) as [(_ & ro & -> & _)|[(e & ro & _ & _ & -> & _)|(_ & ->)]].
  - rewrite lk_app. destruct (lk ps s); [reflexivity|]. unfold lk; cbn. unfold on_store; cbn. rewrite Z.eqb_sym, Hs. reflexivity.
  - rewrite lk_replace, Hs by reflexivity. reflexivity.
  - rewrite lk_remove_store, Hs by exact Hnd. reflexivity.
Qed.

(* promote / demote / enter / leave change roles only: every store keeps its peer id *)
Definition ids_kept (ps ps' : list peer) : Prop := forall st, option_map pid (lk ps' st) = option_map pid (lk ps st).

Lemma apply_change_role_only j l ps t p ps' :
  ND ps -> lk ps (pstore p) <> None -> apply_change j l ps (t, p) = Some ps' -> t <> RemoveNode -> ids_kept ps ps' /\ ND ps'.
Proof.
  intros Hnd Hex H Ht.
  destruct (apply_change_cases _ _ _ _ _ _ H) as [(N & _)|[(e & ro & Ee & _ & -> & _)|(C & _)]]; try contradiction.
  split; [|apply ND_replace; [reflexivity|exact Hnd]].
  intros st. rewrite lk_replace by reflexivity. destruct (st =? pstore p) eqn:E; [|reflexivity].
  apply Z.eqb_eq in E. subst st. rewrite Ee. reflexivity.
Qed.

Lemma simple_exec r s c r' st : step_store s = Some st -> exec_step r s = RDone c r' ->
  is_in_joint r = false /\ exists t p, pstore p = st /\ apply_change false (leader r) (peers r) (t, p) = Some (peers r')
                                       /\ (t = RemoveNode -> exists id, s = RemovePeer st id).
Proof.
  intros Hs He. destruct (exec_step_done _ _ _ _ He) as (_ & _ & Hc & Ha).
  assert (X : exists t p, c = CChangePeer t (Some p) /\ pstore p = st /\ (t = RemoveNode -> exists id, s = RemovePeer st id)).
  { destruct s; cbn [step_store] in Hs; try discriminate; inv Hs; cbn [cmd_of_step] in Hc;
      try (destruct (is_some (get_store_peer r st)); [discriminate|]); inv Hc;
      try (eexists _, _; split; [reflexivity|split; [reflexivity|discriminate]]).
    destruct (get_store_peer r st) as [p|] eqn:Ep; [|discriminate Ha].
    exists RemoveNode, p. split; [reflexivity|split; [apply (get_store_peer_store _ _ _ Ep)|eauto]]. }
  destruct X as (t & p & -> & Hp & Ht). unfold apply_cmd in Ha. destruct (is_in_joint r); [discriminate|].
  destruct (apply_change false (leader r) (peers r) (t, p)) as [ps'|] eqn:E; [|discriminate]. inv Ha.
  split; [reflexivity|]. exists t, p. auto.
Qed.

Lemma simple_frame r s c r' st :
  ND (peers r) -> step_store s = Some st -> exec_step r s = RDone c r' ->
  forall s', s' <> st -> lk (peers r') s' = lk (peers r) s'.
Proof.
  intros Hnd Hs He s' Hne. destruct (simple_exec _ _ _ _ _ Hs He) as (_ & t & p & Hp & E & _).
  apply (apply_change_frame _ _ _ _ _ _ Hnd E). rewrite Hp. exact Hne.
Qed.

(* what the store-to-id map decides: the counts of the learner adds and of the removals *)
Lemma cvc_ids_only r r' x :
  ids_kept (peers r) (peers r') ->
  match x with AddLearner _ _ | AddLightLearner _ _ | RemovePeer _ _ => conf_ver_changed r' x = conf_ver_changed r x | _ => True end.
Proof.
  intros H. destruct x; try exact I; cbn [conf_ver_changed]; rewrite !get_store_peer_lk;
    specialize (H st); destruct (lk (peers r') st), (lk (peers r) st); cbn in *; inversion H; subst; reflexivity.
Qed.

Lemma leave_ids_kept ps : ids_kept ps (map leave_role ps).
Proof.
  intros st. rewrite lk_map by (intros q; apply leave_role_store). destruct (lk ps st) as [p|]; [|reflexivity].
  cbn. unfold leave_role. destruct (prole p); reflexivity.
Qed.

Lemma apply_changes_ids_kept l : forall cs ps ps',
  ND ps -> (forall c, In c cs -> fst c <> RemoveNode /\ lk ps (pstore (snd c)) <> None) ->
  apply_changes true l ps cs = Some ps' -> ids_kept ps ps'.
Proof.
  induction cs as [|[t p] cs IH]; intros ps ps' Hnd Hc H; cbn [apply_changes] in H.
  - inversion H; subst. intros st. reflexivity.
  - destruct (apply_change true l ps (t, p)) as [ps1|] eqn:E; [|discriminate].
    destruct (Hc (t, p) (or_introl eq_refl)) as [Ht Hex]. cbn [fst snd] in *.
    destruct (apply_change_role_only _ _ _ _ _ _ Hnd Hex E Ht) as [K1 Hnd1].
    assert (K2 : ids_kept ps1 ps').
    { apply (IH ps1 ps' Hnd1); [|exact H]. intros c Hin. destruct (Hc c (or_intror Hin)) as [A B]. split; [exact A|].
      intros C. apply B. specialize (K1 (pstore (snd c))). rewrite C in K1. destruct (lk ps (pstore (snd c))); [discriminate|reflexivity]. }
    intros st. rewrite K2. apply K1.
Qed.

Lemma zz_eqb_eq a b : zz_eqb a b = true -> a = b.
Proof.
  destruct a, b. unfold zz_eqb. cbn. intros H. apply andb_true_iff in H as [A B]. apply Z.eqb_eq in A, B. congruence.
Qed.

Section Simple.
  Variables (r r' : region) (s : step) (c : cmd) (st : Z).
  Hypothesis Hnd : ND (peers r).
  Hypothesis Hnd' : ND (peers r').
  Hypothesis He : exec_step r s = RDone c r'.
  Hypothesis Hf : is_finish r' s = true.
  Hypothesis Hst : step_store s = Some st.
  Hypothesis Hz : step_ids_nonzero s = true.

  Lemma mono_untouched x : ~ In st (step_stores x) -> conf_ver_changed r x <= conf_ver_changed r' x.
  Proof.
    intros Hx. rewrite (cvc_local r r' x Hnd Hnd'); [lia|]. intros st' Hin.
    apply (simple_frame r s c r' st Hnd Hst He). intros ->. contradiction.
  Qed.

  (* removing a peer a joint step demoted (or any peer outside its promotions) keeps the joint step's count *)
  Lemma mono_joint_remove x pl dv id :
    s = RemovePeer st id -> (x = ChangePeerV2Enter pl dv \/ x = ChangePeerV2Leave pl dv) -> in_fst st pl = false ->
    conf_ver_changed r x <= conf_ver_changed r' x.
  Proof.
    intros -> Hx H1.
    assert (Hgone : lk (peers r') st = None).
    { cbn [is_finish] in Hf. rewrite get_store_peer_lk in Hf. destruct (lk (peers r') st); [discriminate|reflexivity]. }
    assert (Hfr : forall s', s' <> st -> lk (peers r') s' = lk (peers r) s') by (apply (simple_frame r _ c r' st Hnd Hst He)).
    assert (Hpl : forall e, In e pl -> lk (peers r') (fst e) = lk (peers r) (fst e)).
    { intros e Hin. apply Hfr. intros E. apply (in_fst_false st pl H1). rewrite <- E. apply in_map, Hin. }
    destruct Hx as [-> | ->]; cbn [conf_ver_changed]; (apply joint_count_mono; [lia| |]).
    - apply forallb_ext_in. intros e Hin. cbn zeta.
      rewrite (get_store_voter_lk r _ Hnd), (get_store_voter_lk r' _ Hnd'), (Hpl e Hin). reflexivity.
    - rewrite !forallb_forall. intros B e Hin. specialize (B e Hin). cbn zeta in *.
      destruct (Z.eq_dec (fst e) st) as [E|E].
      + rewrite (get_store_voter_lk r' _ Hnd'), E, Hgone. reflexivity.
      + rewrite (get_store_voter_lk r _ Hnd) in B. rewrite (get_store_voter_lk r' _ Hnd'), (Hfr _ E). exact B.
    - apply forallb_ext_in. intros e Hin. cbn zeta.
      rewrite (get_store_voter_lk r _ Hnd), (get_store_voter_lk r' _ Hnd'), (Hpl e Hin). reflexivity.
    - rewrite !forallb_forall. intros B e Hin. specialize (B e Hin). rewrite leave_lookup_is_store in *.
      destruct (Z.eq_dec (fst e) st) as [E|E].
      + rewrite get_store_peer_lk, E, Hgone. reflexivity.
      + unfold dv_changed in *. rewrite get_store_peer_lk, (get_store_learner_lk r _ Hnd) in B.
        rewrite get_store_peer_lk, (get_store_learner_lk r' _ Hnd'), (Hfr _ E). exact B.
  Qed.

  (* promoting the learner an earlier step added keeps that step's count *)
  Lemma mono_promote_added x id :
    s = PromoteLearner st id -> match x with AddLearner _ _ | AddLightLearner _ _ | RemovePeer _ _ => True | _ => False end ->
    conf_ver_changed r x <= conf_ver_changed r' x.
  Proof.
    intros Es Hk. destruct (simple_exec _ _ _ _ _ Hst He) as (_ & t & p & Hp & E & Ht).
    assert (Hex : lk (peers r) (pstore p) <> None).
    { destruct (exec_step_done _ _ _ _ He) as (_ & Hs & _). subst s. cbn [check_safety] in Hs. rewrite get_store_peer_lk in Hs.
      rewrite Hp. destruct (lk (peers r) st); [discriminate|].
      cbn [oid] in Hs. cbn [step_ids_nonzero] in Hz. destruct (0 =? id) eqn:E0; [apply Z.eqb_eq in E0; subst id; discriminate Hz|discriminate Hs]. }
    destruct (apply_change_role_only _ _ _ _ _ _ Hnd Hex E) as [K _]; [intros C; destruct (Ht C) as (i & Hi); congruence|].
    pose proof (cvc_ids_only r r' x K) as X. destruct x; try contradiction; rewrite X; lia.
  Qed.

  (* a peer added, under another id, to a store an earlier step emptied: the removal still counts *)
  Lemma mono_add_after_remove id id' :
    (s = AddPeer st id' \/ s = AddLearner st id' \/ s = AddLightPeer st id' \/ s = AddLightLearner st id') ->
    id <> 0 -> id' <> id -> conf_ver_changed r (RemovePeer st id) <= conf_ver_changed r' (RemovePeer st id).
  Proof.
    intros Hs Hid Hne.
    assert (D : exists ok, entry_is r' ok (st, id') = true).
    { pose proof (is_finish_sound r' s Hnd' Hz Hf) as D. destruct Hs as [-> |[-> |[-> | ->]]]; cbn [spec_done] in D; eauto. }
    destruct D as (ok & D). unfold entry_is in D. cbn [fst snd] in D.
    cbn [conf_ver_changed]. destruct (get_store_peer r' st) as [p|]; [|discriminate]. apply andb_true_iff in D as [D _]. apply Z.eqb_eq in D.
    cbn [oid]. rewrite D. apply Z.eqb_neq in Hid, Hne. rewrite Hid, Hne, orb_true_r. apply b2z_le.
  Qed.
End Simple.

Lemma simple_mono_joint r r' s c st x pl dv :
  ND (peers r) -> ND (peers r') -> exec_step r s = RDone c r' -> is_finish r' s = true ->
  step_store s = Some st -> step_ids_nonzero s = true ->
  (x = ChangePeerV2Enter pl dv \/ x = ChangePeerV2Leave pl dv) -> compat x s = true ->
  conf_ver_changed r x <= conf_ver_changed r' x.
Proof.
  intros Hnd Hnd' He Hf Hst Hz Hx Hc.
  assert (Hc' : negb (in_fst st pl) && (match s with RemovePeer _ _ => true | _ => negb (in_fst st dv) end) = true).
  { destruct Hx as [-> | ->]; destruct s; cbn [compat step_store] in Hc, Hst; try discriminate Hst; inversion Hst; subst; exact Hc. }
  apply andb_true_iff in Hc' as [H1 H2]. apply negb_true_iff in H1.
  assert (Hout : in_fst st dv = false -> conf_ver_changed r x <= conf_ver_changed r' x).
  { intros H3. apply (mono_untouched r r' s c st Hnd Hnd' He Hst).
    destruct Hx as [-> | ->]; cbn [step_stores]; intros Hin; apply in_app_or in Hin as [Hin|Hin];
      [apply (in_fst_false st pl H1 Hin)|apply (in_fst_false st dv H3 Hin)|apply (in_fst_false st pl H1 Hin)|apply (in_fst_false st dv H3 Hin)]. }
  destruct s; cbn [step_store] in Hst; try discriminate Hst; inversion Hst; subst; try (apply Hout, negb_true_iff, H2).
  (* what is left is s = RemovePeer: the store may be among x's demotions *)
  eapply mono_joint_remove; eauto.
Qed.

(* what compat allows on one store: the promotion of the learner an add put there; after a removal, an add under another id *)
Lemma compat_same_store x s st : step_store x = Some st -> step_store s = Some st -> compat x s = true ->
  (exists i j, (x = AddLearner st i \/ x = AddLightLearner st i) /\ s = PromoteLearner st j)
  \/ (exists i j, x = RemovePeer st i /\ i <> 0 /\ j <> i /\
         (s = AddPeer st j \/ s = AddLearner st j \/ s = AddLightPeer st j \/ s = AddLightLearner st j)).
Proof.
  intros Hx Hs Hc.
  destruct x; cbn [step_store] in Hx; try discriminate Hx; inv Hx;
    destruct s; cbn [compat step_store] in Hc, Hs; try discriminate Hs; inv Hs;
    rewrite ?Z.eqb_refl in Hc; cbn [negb orb] in Hc; try discriminate Hc;
    try (left; eexists _, _; split; [auto|reflexivity]; fail);
    apply andb_true_iff in Hc as [H1 H2]; apply negb_true_iff, Z.eqb_neq in H1, H2;
    (right; eexists _, _; split; [reflexivity|split; [exact H1|split; [exact H2|auto 6]]]).
Qed.

Lemma simple_mono_simple r r' s c st x xs :
  ND (peers r) -> ND (peers r') -> exec_step r s = RDone c r' -> is_finish r' s = true ->
  step_store s = Some st -> step_ids_nonzero s = true -> step_store x = Some xs -> compat x s = true ->
  conf_ver_changed r x <= conf_ver_changed r' x.
Proof.
  intros Hnd Hnd' He Hf Hst Hz Hxs Hc.
  destruct (Z.eq_dec xs st) as [->|Ne].
  2:{ apply (mono_untouched r r' s c st Hnd Hnd' He Hst). destruct x; cbn [step_store] in Hxs; try discriminate Hxs; inv Hxs; cbn; tauto. }
  destruct (compat_same_store x s st Hxs Hst Hc) as [(i & j & Hx & ->)|(i & j & -> & Hi & Hj & Hs)].
  - eapply mono_promote_added; eauto. destruct Hx as [-> | ->]; exact I.
  - eapply mono_add_after_remove; eauto.
Qed.

Lemma simple_mono r r' s c st x :
  ND (peers r) -> ND (peers r') -> exec_step r s = RDone c r' -> is_finish r' s = true ->
  step_store s = Some st -> step_ids_nonzero s = true -> compat x s = true ->
  conf_ver_changed r x <= conf_ver_changed r' x.
Proof.
  intros Hnd Hnd' He Hf Hst Hz Hc. destruct (step_class x) as [(xs & Hx)|[(pl & dv & Hx)|Hx]].
  - eapply simple_mono_simple; eauto.
  - eapply simple_mono_joint; eauto.
  - rewrite !cvc_zero_kind by exact Hx. lia.
Qed.

Lemma enter_ids_kept r pl dv c r' :
  ND (peers r) -> exec_step r (ChangePeerV2Enter pl dv) = RDone c r' -> step_ids_nonzero (ChangePeerV2Enter pl dv) = true ->
  ids_kept (peers r) (peers r').
Proof.
  intros Hnd He Hz. destruct (exec_step_done _ _ _ _ He) as (Hnf & Hs & Hcmd & Ha). cbn in Hcmd. inversion Hcmd; subst c.
  pose proof (check_safety_sound r _ Hnd Hz Hs) as Sp. cbn [spec_safe] in Sp.
  apply andb_true_iff in Sp as [Sp _]. apply andb_true_iff in Sp as [S1 S2]. rewrite forallb_forall in S1, S2.
  destruct (v2_request pl dv) as [|x cs] eqn:Ev.
  - (* an empty request would be a leave command; then the step was already finished *)
    unfold v2_request in Ev. apply app_eq_nil in Ev as [E1 E2]. apply map_eq_nil in E1, E2. subst. cbn in Hnf. discriminate.
  - unfold apply_cmd in Ha. destruct (is_in_joint r); [discriminate|].
    destruct (apply_changes true (leader r) (peers r) (x :: cs)) as [ps'|] eqn:E; [|discriminate]. inversion Ha; subst r'. cbn [peers set_peers].
    apply (apply_changes_ids_kept (leader r) (x :: cs) (peers r) ps' Hnd); [|exact E].
    intros ch Hin. rewrite <- Ev in Hin. unfold v2_request in Hin. apply in_app_or in Hin as [Hin|Hin]; apply in_map_iff in Hin as (e & <- & He'); cbn [fst snd pstore].
    + split; [discriminate|]. specialize (S1 e He'). unfold entry_is in S1. rewrite get_store_peer_lk in S1. destruct (lk (peers r) (fst e)); [discriminate|discriminate S1].
    + split; [discriminate|]. specialize (S2 e He'). unfold entry_is in S2. rewrite get_store_peer_lk in S2. destruct (lk (peers r) (fst e)); [discriminate|discriminate S2].
Qed.

Lemma leave_result r pl dv c r' :
  exec_step r (ChangePeerV2Leave pl dv) = RDone c r' -> peers r' = map leave_role (peers r).
Proof.
  intros He. destruct (exec_step_done _ _ _ _ He) as (_ & _ & Hcmd & Ha). cbn in Hcmd. inversion Hcmd; subst c.
  unfold apply_cmd in Ha. destruct (negb (is_in_joint r)); [discriminate|].
  match type of Ha with (if ?c then _ else _) = _ => destruct c end; [discriminate|]. inversion Ha; reflexivity.
Qed.

Lemma enter_counts_after_leave r' pl dv :
  ND (peers r') -> pair_ids_nonzero pl = true -> pair_ids_nonzero dv = true ->
  is_finish r' (ChangePeerV2Leave pl dv) = true -> conf_ver_changed r' (ChangePeerV2Enter pl dv) = Z.of_nat (length pl + length dv).
Proof.
  intros Hnd Z1 Z2 Hf. cbn [is_finish] in Hf. apply andb_true_iff in Hf as [Hf _]. apply andb_true_iff in Hf as [F1 F2].
  rewrite forallb_forall in F1, F2. cbn [conf_ver_changed].
  match goal with |- (if ?a then _ else _) = _ => assert (Ea : a = true); [|rewrite Ea; reflexivity] end.
  apply andb_true_iff. split; apply forallb_forall; intros e Hin; cbn zeta.
  - specialize (F1 e Hin). cbn zeta in F1. apply andb_true_iff in F1 as [A B]. rewrite A.
    destruct (get_store_voter r' (fst e)) as [p|]; cbn [orole is_voter_or_incoming] in *; [|apply Z.eqb_eq in A; cbn in A; exfalso; apply (pairs_nonzero pl e Z1 Hin); congruence].
    destruct (prole p); try discriminate; reflexivity.
  - specialize (F2 e Hin). unfold dv_finished in F2. destruct (get_store_learner r' (fst e)) as [p|] eqn:El; [|discriminate].
    destruct (learner_some r' Hnd _ _ El) as [Ep Hl].
    rewrite (get_store_voter_lk r' _ Hnd). rewrite get_store_peer_lk in Ep. rewrite Ep, Hl. reflexivity.
Qed.

Lemma joint_mono r x s c r' :
  ND (peers r) -> ND (peers r') -> exec_step r s = RDone c r' -> is_finish r' s = true -> step_ids_nonzero s = true ->
  (exists pl dv, s = ChangePeerV2Enter pl dv \/ s = ChangePeerV2Leave pl dv) ->
  compat x s = true -> conf_ver_changed r x <= conf_ver_changed r' x.
Proof.
  intros Hnd Hnd' He Hf Hz (pl & dv & Hs) Hc.
  pose proof (cvc_le_nominal r x) as [Hx0 Hxn]. pose proof (cvc_le_nominal r' x) as [Hx0' Hxn'].
  assert (K : ids_kept (peers r) (peers r')).
  { destruct Hs as [-> | ->]; [eapply enter_ids_kept; eauto|]. rewrite (leave_result _ _ _ _ _ He). apply leave_ids_kept. }
  pose proof (cvc_ids_only r r' x K) as E.
  destruct x as [xf xt|xs xi|xs xi|xs xi|xs xi|xs xi|xs xi|xs xi|xpl xdv|xpl xdv|xpa xtr|xfr];
    try (cbn; lia); try (rewrite E; lia);
    destruct Hs as [-> | ->]; cbn [compat] in Hc; try discriminate Hc.
  (* enter, then the matching leave *)
  apply andb_true_iff in Hc as [C1 C2]. apply (list_eqb_eq _ zz_eqb_eq) in C1, C2. subst xpl xdv.
  cbn [step_ids_nonzero] in Hz. apply andb_true_iff in Hz as [Z1 Z2].
  rewrite (enter_counts_after_leave r' pl dv Hnd' Z1 Z2 Hf). cbn [nominal] in Hxn. exact Hxn.
Qed.

Lemma peerless_peers r s c r' : exec_step r s = RDone c r' -> peerless s -> peers r' = peers r.
Proof.
  intros He Hk. destruct (exec_step_done _ _ _ _ He) as (_ & _ & Hcmd & Ha).
  destruct s; try contradiction; cbn in Hcmd.
  - inversion Hcmd; subst c. unfold apply_cmd in Ha. destruct (get_store_peer r to) as [p|]; [|discriminate].
    destruct (get_store_peer r (pstore p)); [|discriminate]. destruct (negb _ || _); [discriminate|]. inversion Ha; reflexivity.
  - destruct passive; [discriminate|]. inversion Hcmd; subst c. cbn in Ha. inversion Ha; reflexivity.
  - inversion Hcmd; subst c. cbn in Ha. inversion Ha; reflexivity.
Qed.

(* the heart: a compatible later step does not lower the earlier step's count *)
Lemma compat_mono r x s c r' :
  ND (peers r) -> ND (peers r') -> exec_step r s = RDone c r' -> is_finish r' s = true -> step_ids_nonzero s = true ->
  compat x s = true -> conf_ver_changed r x <= conf_ver_changed r' x.
Proof.
  intros Hnd Hnd' He Hf Hz Hc. destruct (step_class s) as [(st & Hs)|[Hs|Hs]].
  - eapply simple_mono; eauto.
  - eapply joint_mono; eauto.
  - rewrite (cvc_local r r' x Hnd Hnd'); [lia|]. intros st _. rewrite (peerless_peers _ _ _ _ He Hs). reflexivity.
Qed.

(* joint steps come in matching enter / leave pairs (only leadership moves in between) *)
Definition empty_pairs (pl dv : list (Z * Z)) : bool := Nat.eqb (length pl + length dv) 0.
Definition bopen := option (list (Z * Z) * list (Z * Z)).

Definition br_ok (open : bopen) (s : step) : bool :=
  match open, s with
  | None, ChangePeerV2Leave pl dv => empty_pairs pl dv
  | None, _ => true
  | Some _, TransferLeader _ _ => true
  | Some (pl, dv), ChangePeerV2Leave pl' dv' => list_eqb zz_eqb pl pl' && list_eqb zz_eqb dv dv'
  | Some _, _ => false
  end.
Definition br_next (open : bopen) (s : step) : bopen :=
  match open, s with
  | None, ChangePeerV2Enter pl dv => if empty_pairs pl dv then None else Some (pl, dv)
  | None, _ => None
  | Some o, TransferLeader _ _ => Some o
  | Some _, _ => None
  end.
Fixpoint bracketed (open : bopen) (ss : list step) : bool :=
  match ss with [] => true | s :: rest => br_ok open s && bracketed (br_next open s) rest end.

Definition open_ok (open : bopen) (r : region) : Prop :=
  match open with None => NJ (peers r) | Some (pl, dv) => empty_pairs pl dv = false end.

Lemma simple_keeps_NJ r s c r' st :
  NJ (peers r) -> step_store s = Some st -> exec_step r s = RDone c r' -> NJ (peers r').
Proof.
  intros Hnj Hs He. destruct (simple_exec _ _ _ _ _ Hs He) as (_ & t & p & _ & E & _).
  destruct (apply_change_cases _ _ _ _ _ _ E) as [(_ & ro & -> & Hro)|[(e & ro & _ & _ & -> & Hro)|(_ & ->)]].
  - intros q Hq. apply in_app_or in Hq as [Hq|[<-|[]]]; [apply Hnj, Hq|apply Hro; reflexivity].
  - apply NJ_replace; [exact Hnj|apply Hro; reflexivity].
  - intros q Hq. apply Hnj. unfold remove_store in Hq. apply filter_In in Hq. tauto.
Qed.

Lemma open_after r s open :
  open_ok open r -> br_ok open s = true ->
  (exec_step r s = RSkip -> open_ok (br_next open s) r)
  /\ (forall c r', exec_step r s = RDone c r' -> open_ok (br_next open s) r' /\ joint_lists_nonempty s = true).
Proof.
  intros Ho Hb. split.
  - intros E. destruct open as [[pl dv]|]; cbn [open_ok br_next br_ok] in *.
    + destruct s; try discriminate Hb; [exact Ho|].
      (* the matching leave is already finished: the region is in no joint state *)
      pose proof (exec_step_skip _ _ E) as Ef.
      cbn [is_finish] in Ef. apply andb_true_iff in Ef as [_ Ef]. apply negb_true_iff in Ef. apply NJ_of_not_joint. exact Ef.
    + destruct s; try exact Ho. destruct (empty_pairs pl dv) eqn:Ee; [exact Ho|exact Ee].
  - intros c r' E. destruct (exec_step_done _ _ _ _ E) as (Hnf & Hs & Hcmd & Ha).
    destruct open as [[pl dv]|]; cbn [open_ok br_next br_ok] in *.
    + destruct s as [? ?|? ?|? ?|? ?|? ?|? ?|? ?|? ?|? ?|pl' dv'|? ?|?]; try discriminate Hb.
      * split; [exact Ho|reflexivity].
      * apply andb_true_iff in Hb as [B1 B2]. apply (list_eqb_eq _ zz_eqb_eq) in B1, B2. subst pl' dv'. split.
        -- cbn [br_next open_ok]. rewrite (leave_result _ _ _ _ _ E). apply NJ_leave.
        -- cbn [joint_lists_nonempty]. unfold empty_pairs in Ho. rewrite Ho. reflexivity.
    + destruct s; try (split; [|reflexivity]);
        try (eapply simple_keeps_NJ; eauto; reflexivity);
        try (cbn [br_next open_ok]; rewrite (peerless_peers _ _ _ _ E I); exact Ho).
      * (* enter: executed, hence not empty *)
        assert (Ee : empty_pairs pl dv = false).
        { destruct pl, dv; try reflexivity. cbn in Hnf. discriminate. }
        rewrite Ee. split; [exact Ee|]. cbn [joint_lists_nonempty]. unfold empty_pairs in Ee. rewrite Ee. reflexivity.
      * (* leave outside a bracket is executed only inside a joint state *)
        exfalso. cbn in Hcmd. inversion Hcmd; subst c. unfold apply_cmd, is_in_joint in Ha. rewrite (NJ_not_joint _ Ho) in Ha. discriminate.
Qed.

(* every later step compatible with every earlier one *)
Fixpoint tidy_from (done : list step) (ss : list step) : bool :=
  match ss with
  | [] => true
  | s :: rest => forallb (fun x => compat x s) done && tidy_from (done ++ [s]) rest
  end.

Lemma tidy_from_app : forall l1 l2 done, tidy_from done (l1 ++ l2) = tidy_from done l1 && tidy_from (done ++ l1) l2.
Proof.
  induction l1 as [|s l1 IH]; intros l2 done; cbn [app tidy_from].
  - rewrite app_nil_r. reflexivity.
  - rewrite IH, <- app_assoc. cbn [app]. rewrite andb_assoc. reflexivity.
Qed.

Lemma tidy_from_one done s : tidy_from done [s] = forallb (fun x => compat x s) done.
Proof. cbn. apply andb_true_r. Qed.

Lemma compat_transfer x f t : compat x (TransferLeader f t) = true.
Proof. destruct x; reflexivity. Qed.

(* a leadership transfer is compatible with everything before and after it: it can be left out *)
Lemma tidy_from_skip a b ss : forall d1 d2, tidy_from (d1 ++ TransferLeader a b :: d2) ss = tidy_from (d1 ++ d2) ss.
Proof.
  induction ss as [|s ss IH]; intros d1 d2; cbn [tidy_from]; [reflexivity|].
  rewrite <- !app_assoc. cbn [app]. rewrite IH, !forallb_app. reflexivity.
Qed.

Lemma tidy_from_transfer a b ss done : tidy_from done (TransferLeader a b :: ss) = tidy_from done ss.
Proof.
  cbn [tidy_from]. rewrite (tidy_from_skip a b ss done []), app_nil_r.
  replace (forallb _ done) with true; [reflexivity|]. symmetry. apply forallb_forall. intros x _. apply compat_transfer.
Qed.

Theorem tidy_monotone g : forall ss done r open,
  plan_check g r ss = None -> nodup_stores (peers r) = true -> open_ok open r ->
  bracketed open ss = true -> forallb step_ids_nonzero ss = true -> tidy_from done ss = true ->
  monotone_from done r ss = true.
Proof.
  induction ss as [|s rest IH]; intros done r open Hpc Hnd Ho Hbr Hz Ht; [reflexivity|].
  cbn [forallb tidy_from bracketed] in Hz, Ht, Hbr.
  apply andb_true_iff in Hz as [Hz Hzr]. apply andb_true_iff in Ht as [Hc Htr]. apply andb_true_iff in Hbr as [Hb Hbr].
  destruct (open_after r s open Ho Hb) as [Oskip Odone].
  cbn [monotone_from].
  destruct (plan_check_cons g r s rest Hpc) as [(E & Hrest)|(c & r' & E & Hnd' & Hf & Hrest)]; rewrite E.
  - apply (IH _ r (br_next open s)); auto.
  - destruct (Odone c r' E) as [Onext Hne].
    assert (HND : ND (peers r)) by (apply nodup_stores_ND; exact Hnd).
    assert (HND' : ND (peers r')) by (apply nodup_stores_ND; exact Hnd').
    assert (Hwf : wf_step s = true) by (unfold wf_step; rewrite Hz, Hne; reflexivity).
    rewrite Hwf. cbn [andb].
    assert (Hm : forallb (fun x => conf_ver_changed r x <=? conf_ver_changed r' x) done = true).
    { apply forallb_forall. intros x Hx. apply Z.leb_le. rewrite forallb_forall in Hc.
      apply (compat_mono r x s c r' HND HND' E Hf Hz (Hc x Hx)). }
    rewrite Hm. cbn [andb]. apply (IH _ r' (br_next open s)); auto.
Qed.
