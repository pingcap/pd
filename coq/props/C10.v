(* C10 — Replica repair never targets bad stores nor shrinks healthy replication.
   Statements with short derivations from proof/C10_CheckerProof.v (what every stage of the checkers proposes) and
   proof/C10_Steps.v; obligations on the regenerated tables in proof/C10_Tables.v.

   Quantification: `inp` ranges over ALL inputs of the checkers: any list of stores with any combination of
   the predicates the filters read (state, down, disconnected, busy, low space, limits, snapshots, pending,
   leader pause / reject) and any labels; any region (peers, roles, leader, down and pending lists, also
   malformed ones); any max-replicas, location labels, isolation level, switches; any placement-rule fit.
   The model is set-valued: `model_check inp` lists every answer the code may give (a float score, a map
   order or rand decide among them); a theorem about every element is a theorem about whatever is chosen. *)
From PDV Require Import lib.C10_Cluster lib.C10_StepFacts gen.Gen_C10 model.C10_Checker proof.C10_Tables proof.C10_Pins proof.C10_Steps proof.C10_CheckerProof.
Local Open Scope list_scope.
Local Open Scope Z_scope.

(* 1. SelectStoreToAdd: every store it may return is known, up (neither offline nor tombstone), not down,
   connected, not busy, not low on space, holds no peer of the region, is not reserved for special use,
   satisfies the isolation level against the co-location stores and the rule's label constraints, and is
   within add / snapshot / pending limits.  Each clause is a membership fact about the generated table. *)
Theorem C10_add_target_good :
  forall stg stores r coloc extra s,
    In s (select_to_add stg stores r coloc extra) -> good_target stg stores r coloc extra s.
Proof. exact add_target_good. Qed.

(* ... and every operator either checker may propose adds peers only on such stores *)
Theorem C10_checker_targets_good :
  forall inp st t,
    (exists lrn, In (Some (st, AAdd t lrn)) (model_check inp)) \/
    (exists old lrn, In (Some (st, AReplace old t lrn)) (model_check inp)) ->
    exists stg coloc extra s, sid s = t /\ good_target stg (i_stores inp) (i_region inp) coloc extra s.
Proof.
  intros inp st t H.
  assert (T : target_selected inp t).
  { destruct H as [(lrn & H)|(old & lrn & H)]; apply (proj2 (model_check_proposes inp)) in H;
      [exact (any_op_add_target _ _ _ H)|exact (any_op_replace_target _ _ _ _ H)]. }
  destruct T as (stg & coloc & extra & s & Hs & <-).
  exists stg, coloc, extra, s. split; [reflexivity|]. apply add_target_good. exact Hs.
Qed.

(* 2. the peer count is lowered only when the region has more voters than configured ... *)
Theorem C10_replica_removes_only_surplus :
  forall inp st s, In (Some (st, ARemove s)) (replica_check inp) -> max_replicas (i_cfg inp) < voter_count (i_region inp).
Proof. intros inp st s H. apply (proj2 (replica_check_proposes inp)) in H. exact (proj1 H). Qed.

(* ... or all rules are satisfied and the peer is an orphan *)
Theorem C10_rule_removes_only_orphans :
  forall inp st s, In (Some (st, ARemove s)) (rule_check inp) ->
    (exists o rest, fit_orphans (i_fit inp) = o :: rest /\ p_store o = s) /\ forallb rf_satisfied (fit_rules (i_fit inp)) = true.
Proof. exact rule_removes_only_orphans. Qed.

(* ... an orphan in earnest: when the fit handed to the checker is a partition of the region's peers (fit_wf - the monitor evaluates it
   on every fit read from the real FitRegion, signature C10:fit-is-not-a-partition-of-the-peers) no rule holds the removed peer *)
Theorem C10_rule_removal_not_held :
  forall inp st s, fit_wf (i_region inp) (i_fit inp) = true -> In (Some (st, ARemove s)) (rule_check inp) ->
    exists o, In o (fit_orphans (i_fit inp)) /\ p_store o = s /\
              forall rf, In rf (fit_rules (i_fit inp)) -> ~ In (p_id o) (map p_id (rf_peers rf)).
Proof. exact rule_removal_not_held. Qed.

(* ... and fit_wf is what the check establishes: on every rule-checker case on which the monitor is silent, a removal the model admits
   takes a peer no rule holds *)
Theorem C10_monitor_silent_removal_not_held :
  forall inp impl st s, monitor (inp, impl) = None -> fit_judged inp = true -> In (Some (st, ARemove s)) (rule_check inp) ->
    exists o, In o (fit_orphans (i_fit inp)) /\ p_store o = s /\
              forall rf, In rf (fit_rules (i_fit inp)) -> ~ In (p_id o) (map p_id (rf_peers rf)).
Proof.
  intros inp impl st s M J. apply rule_removal_not_held. exact (monitor_silent_fit_wf (inp, impl) M J).
Qed.

(* ... and the same through CheckerController.CheckRegion (joint-state checker and learner checker in front) *)
Theorem C10_controller_removes_only_justified :
  forall inp st s, In (Some (st, ARemove s)) (controller_check inp) ->
    max_replicas (i_cfg inp) < voter_count (i_region inp)
    \/ ((exists o rest, fit_orphans (i_fit inp) = o :: rest /\ p_store o = s) /\ forallb rf_satisfied (fit_rules (i_fit inp)) = true).
Proof.
  intros inp st s H. apply (proj2 (controller_check_proposes inp)) in H. destruct H as [H|H]; cbn in H; tauto.
Qed.

(* CheckRegion as a whole: an operator comes from the joint-state checker, or (that one admitting none) from the repair checkers,
   or - only when they too allow none - from the merge checker *)
Theorem C10_controller_origin :
  forall inp x, In (Some x) (controller_check inp) ->
    In (Some x) (joint_stage inp)
    \/ (In None (joint_stage inp) /\ (In (Some x) (front_check inp) \/ (In None (front_check inp) /\ In (Some x) (merge_stage inp)))).
Proof.
  intros inp x H. unfold controller_check in H. apply then_some in H as [H|[HN H]]; [left; exact H|right].
  split; [exact HN|]. apply then_some in H as [H|[HN2 H]]; [left; exact H|right; split; assumption].
Qed.

(* ... and the merge checker proposes a merge only when it is active, the region is healthy (no down / pending peer, no learner
   without placement rules), fully replicated, not hot, the chosen neighbour is mergeable (adjacent keys, no rule boundary), healthy,
   fully replicated, not hot, not larger than 500, and neither region is in a joint state *)
Theorem C10_merge_only_when_settled :
  forall inp o, In (Some (StMerge, o)) (merge_stage inp) ->
    me_on (i_menv inp) = true /\ region_healthy inp = true /\ region_replicated inp = true /\ me_hot (i_menv inp) = false
    /\ exists t, merge_target inp = Some t /\ merge_target_ok inp t = true /\ n_size t <= max_target_region_size
       /\ in_joint (peers (i_region inp)) = false /\ in_joint (n_peers t) = false.
Proof.
  intros inp o H. apply merge_stage_some in H as (R & t & Ht & Hs & J1 & J2).
  unfold merge_ready in R. rewrite !andb_true_iff in R. destruct R as (((((On & _) & _) & Hh) & Hr) & Hot).
  split; [exact On|]. split; [exact Hh|]. split; [exact Hr|]. split; [apply negb_true_iff; exact Hot|].
  exists t. split; [exact Ht|]. split; [apply merge_target_ok_in; exact Ht|]. auto.
Qed.

(* 3. a replacement adds the new peer before it removes the old one.
   (a) the verified checker run on every operator of the implementation: a step list in which every prefix
       adds at least as many peers as it removes never takes ANY region (with at most one peer per store) on
       which TiKV accepts the steps below its initial peer count; *)
Theorem C10_balanced_plan_never_dips :
  forall xs s tr, run_steps s xs = Some tr -> NoDup (stores_of (rs_peers s)) -> balanced_prefixes xs = true ->
    Forall (fun s' => (List.length (rs_peers s) <= List.length (rs_peers s'))%nat) tr.
Proof.
  intros xs s tr H Hn Hb. pose proof (balanced_sound xs s tr 0 H Hn (Z.le_refl 0) Hb) as F.
  eapply Forall_impl; [|exact F]. cbn. intros a Ha. lia.
Qed.

Theorem C10_one_peer_per_store_invariant :
  forall xs s tr, run_steps s xs = Some tr -> NoDup (stores_of (rs_peers s)) -> Forall (fun s' => NoDup (stores_of (rs_peers s'))) tr.
Proof. exact run_steps_nodup. Qed.

(* (b) the plan the builder gives to a replacement (model: plan_of; the implementation's steps are compared with it step by
       step in every case): add-before-remove at full strength, with and without joint consensus and whatever the kinds of the
       old and the new peer (planReplace as of /repo commit d42ea9c "adds the replacement peer before it removes the replaced
       one also when their kinds differ"; pairing only equal kinds removes a learner first when a voter replaces it
       without joint consensus, the case of C10_replace_mixed_regression) *)
Theorem C10_replace_is_add_then_remove :
  forall joint r old new lrn id pl, plan_of joint r (AReplace old new lrn) id = Some pl -> balanced_prefixes pl = true.
Proof.
  intros joint r old new lrn id pl H. cbn in H. destruct (peer_on (peers r) old) as [po|]; [|discriminate].
  destruct joint; [|destruct lrn]; inversion H; reflexivity.
Qed.

Example C10_replace_mixed_regression :
  let r := Region [Peer 1 1 Voter; Peer 2 2 Learner; Peer 3 3 Voter] (Some (Peer 1 1 Voter)) [] [] in
  plan_of false r (AReplace 2 9 false) 100 = Some [AddLearnerS 9 100; PromoteLearnerS 9 100; RemovePeerS 2].
Proof. reflexivity. Qed.

(* 4. fewer peers than max-replicas and SelectStoreToAdd has a candidate (a store that passes every filter
   of it, in particular is not excluded by the isolation level): an operator is proposed, whatever the
   earlier stages of the cascade do *)
Theorem C10_repair_proposed_when_possible :
  forall inp, i_entry inp = EReplica -> repair_required inp = true ->
    (forall s, In s (i_stores inp) -> sid s <> 0) ->
    ~ In None (replica_check inp) /\ replica_check inp <> [].
Proof. exact repair_proposed_when_possible. Qed.

Theorem C10_rule_repair_proposed_when_possible :
  forall inp, i_entry inp = ERule -> repair_required inp = true ->
    (forall s, In s (i_stores inp) -> sid s <> 0) ->
    ~ In None (rule_check inp).
Proof. exact rule_repair_proposed_when_possible. Qed.

(* non-vacuity: the hypotheses of 4 hold on a concrete cluster and the model demands "add a peer on store 4"
   (stores 1 and 2 hold the peers; store 3 shares its zone with store 1, so at isolation level zone only store 4 is left) *)
Example C10_nonvacuous :
  repair_required ex_input = true /\ replica_check ex_input = [Some (StMakeUp, AAdd 4 false)].
Proof. exact repair_example. Qed.

Print Assumptions C10_add_target_good.
Print Assumptions C10_checker_targets_good.
Print Assumptions C10_replica_removes_only_surplus.
Print Assumptions C10_rule_removes_only_orphans.
Print Assumptions C10_rule_removal_not_held.
Print Assumptions C10_monitor_silent_removal_not_held.
Print Assumptions C10_controller_removes_only_justified.
Print Assumptions C10_controller_origin.
Print Assumptions C10_merge_only_when_settled.
Print Assumptions C10_balanced_plan_never_dips.
Print Assumptions C10_one_peer_per_store_invariant.
Print Assumptions C10_replace_is_add_then_remove.
Print Assumptions C10_repair_proposed_when_possible.
Print Assumptions C10_rule_repair_proposed_when_possible.
